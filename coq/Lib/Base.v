(* Lib/Base.v — strings as code-point lists, python-exception results with the inversion lemmas
   of [bind], the uniform observable type [val] that the correspondence harness compares, and
   the list facts the standard library lacks.  Stdlib only; axiom-free. *)
From Coq Require Export List NArith ZArith Bool Lia String Ascii.
Export ListNotations.
Open Scope N_scope.

Definition str := list N.

Fixpoint str_eqb (a b : str) : bool :=
  match a, b with
  | [], [] => true
  | x :: a', y :: b' => N.eqb x y && str_eqb a' b'
  | _, _ => false
  end.

Lemma str_eqb_spec a b : reflect (a = b) (str_eqb a b).
Proof.
  revert b; induction a as [|x a IH]; intros [|y b]; cbn [str_eqb];
    try (constructor; congruence).
  destruct (N.eqb_spec x y) as [->|Hxy]; cbn [andb].
  - destruct (IH b) as [->|Hn]; constructor; congruence.
  - constructor; congruence.
Qed.

Lemma str_eqb_refl a : str_eqb a a = true.
Proof. destruct (str_eqb_spec a a); congruence. Qed.

Lemma str_eqb_eq a b : str_eqb a b = true <-> a = b.
Proof. destruct (str_eqb_spec a b); split; congruence. Qed.

Lemma str_eqb_neq a b : str_eqb a b = false <-> a <> b.
Proof. destruct (str_eqb_spec a b); split; congruence. Qed.

(* list facts the standard library of 8.16 lacks *)
Lemma forallb_ext {A} (f g : A -> bool) l : (forall a, f a = g a) -> forallb f l = forallb g l.
Proof. intros H. induction l as [|a l IH]; cbn [forallb]; [reflexivity|]. now rewrite H, IH. Qed.

Lemma existsb_ext {A} (f g : A -> bool) l : (forall a, f a = g a) -> existsb f l = existsb g l.
Proof. intros H. induction l as [|a l IH]; cbn [existsb]; [reflexivity|]. now rewrite H, IH. Qed.

Lemma forallb_impl {A} (P Q : A -> bool) l :
  (forall a, P a = true -> Q a = true) -> forallb P l = true -> forallb Q l = true.
Proof. rewrite !forallb_forall. auto. Qed.

Lemma eqb_sep (f : N -> bool) b k : f b = true -> f k = false -> (b =? k) = false.
Proof. intros U K. destruct (N.eqb_spec b k) as [->|]; [congruence|reflexivity]. Qed.

Lemma forallb_sep (f : N -> bool) k s : f k = false -> forallb f s = true -> forallb (fun c => negb (c =? k)) s = true.
Proof. intros K. apply forallb_impl. intros c U. now rewrite (eqb_sep f c k U K). Qed.

Lemma existsb_impl {A} (P Q : A -> bool) l :
  (forall a, P a = true -> Q a = true) -> existsb P l = true -> existsb Q l = true.
Proof. rewrite !existsb_exists. intros H (a & Ha & HP). eauto. Qed.

Lemma existsb_false {A} (f : A -> bool) l : existsb f l = false <-> forall x, In x l -> f x = false.
Proof.
  rewrite <- not_true_iff_false, existsb_exists. split.
  - intros H x Hx. apply not_true_iff_false. intros E. apply H. now exists x.
  - intros H (x & Hx & E). rewrite (H x Hx) in E. discriminate.
Qed.

Lemma filter_all {A} (f : A -> bool) l : (forall x, In x l -> f x = true) -> filter f l = l.
Proof.
  induction l as [|x l IH]; intros H; cbn [filter]; [reflexivity|].
  rewrite (H x (or_introl eq_refl)), IH; [reflexivity|]. intros y Hy. apply H. now right.
Qed.

Lemma filter_none {A} (f : A -> bool) l : (forall x, In x l -> f x = false) -> filter f l = [].
Proof.
  induction l as [|x l IH]; intros H; cbn [filter]; [reflexivity|].
  rewrite (H x (or_introl eq_refl)). apply IH. intros y Hy. apply H. now right.
Qed.

Lemma flat_map_ext_in {A B} (f g : A -> list B) l :
  (forall x, In x l -> f x = g x) -> flat_map f l = flat_map g l.
Proof.
  induction l as [|x l IH]; intros H; cbn [flat_map]; [reflexivity|].
  rewrite (H x (or_introl eq_refl)), IH; [reflexivity|]. intros y Hy; apply H; right; exact Hy.
Qed.

Lemma flat_map_nil {A B} (f : A -> list B) l : (forall x, In x l -> f x = []) -> flat_map f l = [].
Proof.
  induction l as [|x l IH]; intros H; cbn [flat_map]; [reflexivity|].
  rewrite (H x (or_introl eq_refl)), IH; [reflexivity|]. intros y Hy; apply H; right; exact Hy.
Qed.

Lemma flat_map_nil_inv {A B} (f : A -> list B) l x : flat_map f l = [] -> In x l -> f x = [].
Proof.
  intros H Hin. destruct (f x) as [|y t] eqn:E; [reflexivity|].
  assert (Hy : In y (flat_map f l)) by (apply in_flat_map; exists x; split; [exact Hin|rewrite E; left; reflexivity]).
  rewrite H in Hy. destruct Hy.
Qed.

Lemma flat_map_flat_map {A B C} (f : A -> list B) (g : B -> list C) l :
  flat_map g (flat_map f l) = flat_map (fun x => flat_map g (f x)) l.
Proof.
  induction l as [|x l IH]; cbn [flat_map]; [reflexivity|]. rewrite flat_map_app, IH; reflexivity.
Qed.

Lemma map_flat_map {A B C} (g : B -> C) (f : A -> list B) l :
  map g (flat_map f l) = flat_map (fun x => map g (f x)) l.
Proof.
  induction l as [|x l IH]; cbn [flat_map map]; [reflexivity|]. rewrite map_app, IH; reflexivity.
Qed.

Lemma filter_map {A B} (p : B -> bool) (g : A -> B) l : filter p (map g l) = map g (filter (fun x => p (g x)) l).
Proof.
  induction l as [|x l IH]; cbn [map filter]; [reflexivity|]. rewrite IH. destruct (p (g x)); reflexivity.
Qed.

Lemma NoDup_app_iff {A} (a b : list A) :
  NoDup (a ++ b) <-> NoDup a /\ NoDup b /\ (forall x, In x a -> ~ In x b).
Proof.
  induction a as [|y a IH]; cbn [app].
  - split; [intros H; repeat split; [constructor|exact H|intros x []]|intros (_ & H & _); exact H].
  - rewrite !NoDup_cons_iff, IH, in_app_iff. split.
    + intros (Hni & Ha & Hb & Hd). repeat split; try assumption; [tauto|].
      intros x [<-|Hx]; [tauto|apply Hd; exact Hx].
    + intros ((Hni & Ha) & Hb & Hd). repeat split; try assumption.
      * intros [Hi|Hi]; [tauto|exact (Hd y (or_introl eq_refl) Hi)].
      * intros x Hx. apply Hd. right; exact Hx.
Qed.

Lemma forallb_andb {A} (f g : A -> bool) l : forallb f l && forallb g l = forallb (fun a => f a && g a) l.
Proof.
  induction l as [|a l IH]; [reflexivity|]. cbn [forallb]. rewrite <- IH.
  destruct (f a), (g a), (forallb f l), (forallb g l); reflexivity.
Qed.

Lemma forallb_and_or {A} (f h : A -> bool) (b : bool) l :
  forallb (fun a => f a && (b || h a)) l = forallb f l && (b || forallb h l).
Proof.
  induction l as [|a l IH]; cbn [forallb]; [now rewrite orb_true_r|]. rewrite IH.
  destruct (f a), (forallb f l), b, (h a), (forallb h l); reflexivity.
Qed.

Lemma forallb_map_ext {A B} (f : B -> bool) (g : A -> bool) (h : A -> B) l :
  (forall x, f (h x) = g x) -> forallb f (map h l) = forallb g l.
Proof. intros H. induction l as [|x r IH]; [reflexivity|]. cbn. now rewrite H, IH. Qed.

Lemma map_inj_Forall {A B} (f : A -> B) l :
  Forall (fun x => forall y, f x = f y -> x = y) l -> forall l', map f l = map f l' -> l = l'.
Proof. induction 1 as [|x r Hx _ IH]; intros [|y r'] H; try discriminate; [reflexivity|]. injection H as H1 H2. f_equal; auto. Qed.

Lemma forallb_flat_map_Forall {A B} (R : A -> Prop) (P : B -> bool) (f : A -> list B) l :
  (forall a, R a -> forallb P (f a) = true) -> Forall R l -> forallb P (flat_map f l) = true.
Proof.
  intros Hf. induction 1 as [|a l Ha _ IH]; [reflexivity|]. cbn [flat_map]. now rewrite forallb_app, IH, (Hf a Ha).
Qed.

Lemma flat_map_ext_on {A B} (P : A -> bool) (f g : A -> list B) l :
  (forall a, P a = true -> f a = g a) -> forallb P l = true -> flat_map f l = flat_map g l.
Proof. rewrite forallb_forall. intros E H. apply flat_map_ext_in. auto. Qed.

Lemma forallb_flat_map {X Y} (P : Y -> bool) (f : X -> list Y) l :
  forallb P (flat_map f l) = forallb (fun x => forallb P (f x)) l.
Proof. induction l as [|x l IH]; [reflexivity|]. cbn. now rewrite forallb_app, IH. Qed.

Lemma forallb_map {X Y} (f : Y -> bool) (g : X -> Y) l : forallb f (map g l) = forallb (fun x => f (g x)) l.
Proof. apply forallb_map_ext. reflexivity. Qed.

Lemma flat_map_map {X Y Z} (f : Y -> list Z) (g : X -> Y) l : flat_map f (map g l) = flat_map (fun x => f (g x)) l.
Proof. induction l as [|x l IH]; [reflexivity|]. cbn. now rewrite IH. Qed.

Lemma filter_forallb {A} (f g : A -> bool) l : (forall x, f x = true -> g x = true) -> forallb g (filter f l) = true.
Proof.
  intros H. induction l as [|x r IH]; [reflexivity|]. cbn [filter]. destruct (f x) eqn:E; [|exact IH]. cbn. now rewrite (H x E), IH.
Qed.

Lemma find_existsb {A} (f : A -> bool) l : existsb f l = match find f l with Some _ => true | None => false end.
Proof. induction l as [|x l IH]; [reflexivity|]. cbn. destruct (f x); [reflexivity|exact IH]. Qed.

Lemma forallb_negb_existsb {X} (f : X -> bool) l : forallb (fun x => negb (f x)) l = true -> existsb f l = false.
Proof. induction l as [|x l IH]; [reflexivity|]. cbn. destruct (f x); [discriminate|exact IH]. Qed.

(* Coq string literal -> str (code points of the ASCII chars) *)
Fixpoint s2l (s : string) : str :=
  match s with
  | EmptyString => []
  | String c s' => N_of_ascii c :: s2l s'
  end.

Definition mem_str (x : str) (l : list str) : bool := existsb (str_eqb x) l.

Lemma mem_str_In x l : mem_str x l = true <-> In x l.
Proof.
  unfold mem_str. rewrite existsb_exists. split.
  - intros [y [Hy He]]. apply str_eqb_eq in He. subst; exact Hy.
  - intros H. exists x. split; [exact H|apply str_eqb_refl].
Qed.

Lemma not_mem_str x l : mem_str x l = false -> ~ In x l.
Proof. intros H Hin. apply mem_str_In in Hin. congruence. Qed.

(* Python exceptions the properties distinguish are named by their class name. *)
Inductive result (A : Type) : Type :=
| Ok (a : A)
| Err (e : str).
Arguments Ok {A} a.
Arguments Err {A} e.

Definition bind {A B} (r : result A) (f : A -> result B) : result B :=
  match r with Ok a => f a | Err e => Err e end.
Notation "'do' x <- r ; k" := (bind r (fun x => k))
  (at level 200, x name, r at level 100, k at level 200).

Lemma bind_Ok {A B} (r : result A) (f : A -> result B) b :
  bind r f = Ok b <-> exists a, r = Ok a /\ f a = Ok b.
Proof.
  destruct r as [a|e]; cbn [bind]; split.
  - eauto.
  - intros (a' & [= <-] & H). exact H.
  - discriminate.
  - intros (a' & [=] & _).
Qed.

Lemma bind_Err {A B} (r : result A) (f : A -> result B) e :
  bind r f = Err e <-> r = Err e \/ exists a, r = Ok a /\ f a = Err e.
Proof.
  destruct r as [a|e']; cbn [bind]; split.
  - eauto.
  - intros [[=]|(a' & [= <-] & H)]. exact H.
  - intros [= <-]. now left.
  - intros [[= <-]|(a' & [=] & _)]. reflexivity.
Qed.

Lemma Ok_inj {A} (a b : A) : @Ok A a = Ok b -> a = b.
Proof. intros H; injection H as ->; reflexivity. Qed.

Definition is_ok {A} (r : result A) : bool := match r with Ok _ => true | Err _ => false end.

(* Uniform observable used by the correspondence check. *)
Inductive val :=
| VN (n : N)
| VZ (z : Z)
| VS (s : str)
| VB (b : bool)
| VNone
| VE (exn : str)                (* an exception of that class was raised *)
| VL (l : list val).

Fixpoint val_eqb (a b : val) {struct a} : bool :=
  match a, b with
  | VN x, VN y => N.eqb x y
  | VZ x, VZ y => Z.eqb x y
  | VS x, VS y => str_eqb x y
  | VB x, VB y => Bool.eqb x y
  | VNone, VNone => true
  | VE x, VE y => str_eqb x y
  | VL x, VL y =>
      (fix go (l1 l2 : list val) {struct l1} : bool :=
         match l1, l2 with
         | [], [] => true
         | v :: l1', w :: l2' => val_eqb v w && go l1' l2'
         | _, _ => false
         end) x y
  | _, _ => false
  end.

Lemma val_eqb_refl : forall v, val_eqb v v = true.
Proof.
  fix IH 1. intros [n|z|s|b| |e|l]; cbn [val_eqb].
  - apply N.eqb_refl.
  - apply Z.eqb_refl.
  - apply str_eqb_refl.
  - apply eqb_reflx.
  - reflexivity.
  - apply str_eqb_refl.
  - induction l as [|v l IHl]; [reflexivity|]. now rewrite IH, IHl.
Qed.

(* indexes (from 0) of the cases on which model and implementation differ *)
Fixpoint mismatches_from {A} (model : A -> val) (i : N) (cases : list (A * val)) : list N :=
  match cases with
  | [] => []
  | (a, expected) :: rest =>
      if val_eqb (model a) expected then mismatches_from model (N.succ i) rest
      else i :: mismatches_from model (N.succ i) rest
  end.
Definition mismatches {A} (model : A -> val) (cases : list (A * val)) : list N :=
  mismatches_from model 0 cases.

Definition show_result {A} (f : A -> val) (r : result A) : val :=
  match r with Ok a => f a | Err e => VE e end.
Definition show_option {A} (f : A -> val) (o : option A) : val :=
  match o with Some a => f a | None => VNone end.
Definition show_list {A} (f : A -> val) (l : list A) : val := VL (map f l).
