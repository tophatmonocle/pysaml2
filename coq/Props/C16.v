(* Props/C16.v — the metadata store serves exactly what valid, unexpired
   metadata declares: the statements of property C16, over arbitrary stores /
   document lists / role, key and endpoint lists, with their proofs from the
   lemmas of Proofs/MdStore_lemmas.v, MdSig_lemmas.v and MdSpell_lemmas.v; two
   bridge theorems rest on Proofs/Glue_certs.v and Proofs/Glue_xsw.v. *)
From PV Require Import Lib.Base Model.Xmlsec Model.MdStore Model.MdSig Proofs.MdStore_lemmas Proofs.MdSig_lemmas.
Open Scope N_scope.

(* ---- (1a) exactness of service() ------------------------------------------
   Ok l  iff  l is the non-empty answer of the FIRST source whose answer is
   non-empty; a source's answer is exactly (membership, both directions) the
   endpoints s with: entity stored under eid, role r of that entity with
   r_type = typ, s among r's endpoints, sv_type s = svc, sv_binding s = b. *)
Theorem C16_exact_service :
  forall st eid typ svc b l,
    store_service st eid typ svc b = Ok l <->
    l <> [] /\ exists pre k m post, st = pre ++ (k, m) :: post /\
       md_service m eid typ svc b = Some l /\ Forall (quiet eid typ svc b) pre.
Proof. exact store_service_ok_iff. Qed.
Print Assumptions C16_exact_service.

Theorem C16_exact_service_members :
  forall m eid typ svc b l, md_service m eid typ svc b = Some l ->
    forall s, In s l <-> declares m eid typ svc b s.
Proof. exact md_service_In. Qed.
Print Assumptions C16_exact_service_members.

(* … traced back to the loaded DOCUMENTS: whatever service() returns is an
   endpoint of a role of type typ of an occurrence e0 of THAT entity id in a
   configured, admissible source, e0 being the occurrence the specification
   doc_entity selects (first acceptable one) and unexpired *)
Theorem C16_exact :
  forall now srcs eid typ svc b l sv,
    store_service (load_all now [] srcs) eid typ svc b = Ok l -> In sv l ->
    exists s e0 r, In s srcs /\ admissible s /\
      doc_entity now (eff_check s) (d_body (s_doc s)) eid = Some (stored_form e0) /\
      e_id e0 = eid /\ (eff_check s = true -> valid now (e_valid_until e0) = true) /\
      In r (e_roles e0) /\ r_type r = typ /\ In sv (r_services r) /\ sv_type sv = svc /\ sv_binding sv = b.
Proof.
  intros now srcs eid typ svc b l sv H Hsv. apply store_service_ok_iff in H as [_ (pre & k & m & post & Hst & Hm & _)].
  apply (md_service_In _ _ _ _ _ _ Hm) in Hsv as (e & r & He & Hr & Ht & Hs & Hv & Hb).
  assert (In (k, m) (load_all now [] srcs)) as Hin by (rewrite Hst; apply in_or_app; right; now left).
  destruct (registered_source _ _ _ _ Hin) as (s & Hs1 & _ & _ & Hadm & Hspec).
  pose proof He as He'. rewrite Hspec in He'.
  destruct (doc_entity_sound _ _ _ _ _ He') as (e0 & -> & Hid & _ & Hval & _).
  exists s, e0, r. split; [exact Hs1|]. split; [exact Hadm|]. split; [exact He'|]. split; [exact Hid|].
  split; [exact Hval|]. split; [now apply stored_roles_sub|]. repeat split; assumption.
Qed.
Print Assumptions C16_exact.

(* what a registered source holds under an entity id IS the specification *)
Theorem C16_exact_source :
  forall now srcs k m, In (k, m) (load_all now [] srcs) ->
    exists s, In s srcs /\ s_key s = k /\ load_source now s = Ok m /\ admissible s /\
              forall eid, aget eid m = doc_entity now (eff_check s) (d_body (s_doc s)) eid.
Proof. exact registered_source. Qed.
Print Assumptions C16_exact_source.

(* with distinct source keys the store is the list of successful loads, in order *)
Theorem C16_exact_store :
  forall now srcs, NoDup (map s_key srcs) -> load_all now [] srcs = loaded now srcs.
Proof. intros now srcs H. apply (load_all_distinct now srcs [] H). intros k []. Qed.
Print Assumptions C16_exact_store.

(* ---- (1b) exactness of certs() --------------------------------------------- *)
Theorem C16_exact_certs :
  forall st eid d use l, d <> s2l "any" -> store_certs st eid d use = Ok l ->
    exists e, store_get st eid = Some e /\ NoDup l /\
      forall c, In c l <-> role_declares use (roles_of e (descr_key d)) c.
Proof.
  intros st eid d use l Hn. rewrite store_certs_eq. destruct (store_get st eid) as [e|]; [|discriminate].
  rewrite (proj2 (str_eqb_neq _ _) Hn). destruct (is_nil (roles_of e (descr_key d))); [discriminate|].
  intros H. injection H as <-. destruct (extract_certs_ok use (roles_of e (descr_key d))) as [Hnd H]. now exists e.
Qed.
Print Assumptions C16_exact_certs.

Theorem C16_exact_certs_any :
  forall st eid use l, store_certs st eid (s2l "any") use = Ok l ->
    exists e, store_get st eid = Some e /\
      forall c, In c l <-> exists d, In d ANY_ROLES /\ role_declares use (roles_of e (descr_key d)) c.
Proof.
  intros st eid use l. rewrite store_certs_eq, str_eqb_refl. destruct (store_get st eid) as [e|]; [|discriminate].
  intros H. assert (l = certs_any use e ANY_ROLES) as -> by congruence.
  exists e. split; [reflexivity|]. apply certs_any_ok.
Qed.
Print Assumptions C16_exact_certs_any.

(* the entity certs() reads is the one of the FIRST source that has it *)
Theorem C16_exact_which_source :
  forall st eid e, store_get st eid = Some e ->
    exists pre k m post, st = pre ++ (k, m) :: post /\ aget eid m = Some e /\
                         Forall (fun km => aget eid (snd km) = None) pre.
Proof. intros st eid e H. pose proof (store_get_char st eid) as C. now rewrite H in C. Qed.
Print Assumptions C16_exact_which_source.

(* nothing from another entity, role or key use: every served certificate sits
   in a key descriptor of that entity (and of that role type, when one is
   named) whose use is absent or equal to the requested one *)
Theorem C16_key_use_isolation :
  forall st eid d use l c, store_certs st eid d use = Ok l -> In c l ->
    exists e r k c0, store_get st eid = Some e /\ In r (e_roles e) /\ In k (r_keys r) /\
      (kd_use k = None \/ kd_use k = Some use) /\ In c0 (kd_certs k) /\ c = repack_cert c0 /\
      (d <> s2l "any" -> r_type r = descr_key d).
Proof.
  intros st eid d use l c. rewrite store_certs_eq. destruct (store_get st eid) as [e|]; [|discriminate].
  destruct (str_eqb_spec d (s2l "any")) as [->|Hn].
  - intros H Hc. assert (l = certs_any use e ANY_ROLES) as -> by congruence.
    apply certs_any_ok in Hc as (d' & _ & Hc).
    destruct (role_declares_roles_of _ _ _ _ Hc) as (r & k & c0 & H1 & H2 & H3 & H4 & H5 & _).
    exists e, r, k, c0. repeat split; auto. intros Hx; contradiction.
  - destruct (is_nil (roles_of e (descr_key d))); [discriminate|]. intros H Hc. injection H as <-.
    apply (proj2 (extract_certs_ok _ _)) in Hc.
    destruct (role_declares_roles_of _ _ _ _ Hc) as (r & k & c0 & H1 & H2 & H3 & H4 & H5 & H6).
    exists e, r, k, c0. repeat split; auto.
Qed.
Print Assumptions C16_key_use_isolation.

(* an encryption-only certificate is never returned for signing, whatever the
   order of the key descriptors *)
Theorem C16_encryption_only_never_for_signing :
  forall st eid d l c e,
    store_get st eid = Some e ->
    (forall r k c0, In r (e_roles e) -> In k (r_keys r) -> In c0 (kd_certs k) -> repack_cert c0 = c ->
                    kd_use k = Some U_ENCRYPTION) ->
    store_certs st eid d U_SIGNING = Ok l -> ~ In c l.
Proof.
  intros st eid d l c e He Honly H Hin.
  destruct (C16_key_use_isolation _ _ _ _ _ _ H Hin) as (e' & r & k & c0 & He' & Hr & Hk & Hu & Hc & -> & _).
  rewrite He in He'. injection He' as <-. specialize (Honly r k c0 Hr Hk Hc eq_refl).
  rewrite Honly in Hu. destruct Hu as [Hu|Hu]; [discriminate|]. injection Hu as Hu. vm_compute in Hu. discriminate.
Qed.
Print Assumptions C16_encryption_only_never_for_signing.

(* certs() raises only KeyError, exactly for: unknown entity / named role type absent.  The model follows the library
   with proposed_fix/C03-1: a use-matching key descriptor without X509Data (KeyName / KeyValue only) is skipped *)
Theorem C16_certs_errors :
  forall st eid d use x, store_certs st eid d use = Err x ->
    x = KeyError /\
    (store_get st eid = None \/
     exists e, store_get st eid = Some e /\ d <> s2l "any" /\ roles_of e (descr_key d) = []).
Proof.
  intros st eid d use x. rewrite store_certs_eq. destruct (store_get st eid) as [e|]; [|intros H; injection H as <-; auto].
  destruct (str_eqb_spec d (s2l "any")) as [->|Hn]; [discriminate|].
  destruct (roles_of e (descr_key d)) as [|r0 rs] eqn:Er; [|discriminate].
  intros H; injection H as <-. split; [reflexivity|]. right. now exists e.
Qed.
Print Assumptions C16_certs_errors.

(* FULL statement for a served entity: certs(eid, any, use) ANSWERS, with exactly the certificates the entity's key
   descriptors declare for that use (use equal or absent) - whatever other key descriptors the entity carries *)
Theorem C16_certs_serves_what_is_declared :
  forall st eid use e, store_get st eid = Some e ->
    exists l, store_certs st eid (s2l "any") use = Ok l /\
      forall c, In c l <-> exists d, In d ANY_ROLES /\ role_declares use (roles_of e (descr_key d)) c.
Proof.
  intros st eid use e He. rewrite store_certs_eq, He, str_eqb_refl. eexists. split; [reflexivity|]. apply certs_any_ok.
Qed.
Print Assumptions C16_certs_serves_what_is_declared.

(* the library BEFORE proposed_fix/C03-1 (store_certs_before_fix: key[key_info][x509_data] without .get) did not
   satisfy it: one signing key descriptor with a KeyName only, and the certificate another signing key descriptor
   of the same entity declares is not served - KeyError for the whole entity *)
Definition kn_cert : str := s2l "QUFBQQ==".
Definition kn_store : store :=
  [(s2l "1", [(s2l "A", Build_entity (s2l "A") None
     [Build_role T_IDP (Some SAML2P) [Build_keydesc (Some U_SIGNING) [kn_cert]; Build_keydesc (Some U_SIGNING) []] [] []] false [])])].
Theorem C16_certs_before_fix_refuted :
  exists st eid use e c,
    store_get st eid = Some e /\
    (exists d, In d ANY_ROLES /\ role_declares use (roles_of e (descr_key d)) c) /\
    store_certs_before_fix st eid (s2l "any") use = Err KeyError /\
    store_certs st eid (s2l "any") use = Ok [c].
Proof.
  exists kn_store, (s2l "A"), U_SIGNING.
  eexists. exists kn_cert. split; [reflexivity|]. split; [|split; reflexivity].
  exists (s2l "idpsso"). split; [vm_compute; tauto|].
  eexists. exists (Build_keydesc (Some U_SIGNING) [kn_cert]), kn_cert.
  split; [left; reflexivity|]. split; [left; reflexivity|]. split; [reflexivity|]. split; [left; reflexivity|reflexivity].
Qed.
Print Assumptions C16_certs_before_fix_refuted.

(* ... and was the same function wherever it answered; it raised KeyError in exactly one more case *)
Theorem C16_certs_before_fix_partial :
  forall st eid d use,
    match store_certs_before_fix st eid d use with
    | Ok l => store_certs st eid d use = Ok l
    | Err x => x = KeyError /\
        (store_certs st eid d use = Err KeyError \/
         exists e r k, store_get st eid = Some e /\ In r (e_roles e) /\ In k (r_keys r) /\ use_ok use k = true /\ kd_certs k = [])
    end.
Proof.
  intros st eid d use. unfold store_certs_before_fix, store_certs. destruct (store_get st eid) as [e|]; [|split; [reflexivity|now left]].
  destruct (str_eqb d (s2l "any")).
  - pose proof (certs_any_before_fix_char use e ANY_ROLES) as C. destruct (certs_any_before_fix use e ANY_ROLES) as [l|x]; [now subst|].
    destruct C as (-> & d' & r & k & _ & Hr & Hk & Hu & Hc). split; [reflexivity|]. right.
    apply roles_of_In in Hr as [Hr _]. exists e, r, k. repeat split; auto.
  - destruct (roles_of e (descr_key d)) as [|r0 rs] eqn:Er; [split; [reflexivity|now left]|]. rewrite <- Er.
    pose proof (extract_certs_before_fix_char use (roles_of e (descr_key d))) as C.
    destruct (extract_certs_before_fix use (roles_of e (descr_key d))) as [l|x]; [now subst|].
    destruct C as (-> & r & k & Hr & Hk & Hu & Hc). split; [reflexivity|]. right.
    apply roles_of_In in Hr as [Hr _]. exists e, r, k. repeat split; auto.
Qed.
Print Assumptions C16_certs_before_fix_partial.

(* ---- (1c) entity attributes / categories / attribute requirements ---------- *)
Theorem C16_exact_entity_attributes :
  forall st eid res, store_entity_attributes st eid = Ok res ->
    forall n, aget n res =
      match store_get st eid with
      | None => None
      | Some e => if hits n (List.concat (e_eattrs e)) then Some (vals_of n (List.concat (e_eattrs e))) else None
      end.
Proof. exact entity_attributes_exact. Qed.
Print Assumptions C16_exact_entity_attributes.

Theorem C16_exact_entity_categories :
  forall st eid l, store_entity_categories st eid = Ok l ->
    l = match store_get st eid with
        | None => []
        | Some e => vals_of ENTITY_CATEGORY (List.concat (e_eattrs e))
        end.
Proof.
  intros st eid l. unfold store_entity_categories.
  destruct (store_entity_attributes st eid) as [res|x] eqn:E; [|discriminate].
  intros H; injection H as <-. exact (attribute_default _ _ _ _ E).
Qed.
Print Assumptions C16_exact_entity_categories.

Theorem C16_exact_supported_categories :
  forall st eid l, store_supported_categories st eid = Ok l ->
    l = match store_get st eid with
        | None => []
        | Some e => vals_of EC_SUPPORT (List.concat (e_eattrs e))
        end.
Proof.
  intros st eid l. unfold store_supported_categories.
  destruct (store_entity_attributes st eid) as [res|x] eqn:E; [|discriminate].
  intros H; injection H as <-. exact (attribute_default _ _ _ _ E).
Qed.
Print Assumptions C16_exact_supported_categories.

Theorem C16_exact_attribute_requirement :
  forall st eid index req opt, store_attribute_requirement st eid index = Some (req, opt) ->
    exists e, store_get st eid = Some e /\
      let all := flat_map ac_req (filter (index_selected index)
                                         (flat_map r_acs (roles_of e (s2l "spsso_descriptor")))) in
      req = filter is_required all /\ opt = filter (fun a => negb (is_required a)) all.
Proof.
  intros st eid index req opt.
  unfold store_attribute_requirement. destruct (store_get st eid) as [e|]; [|discriminate].
  unfold md_attribute_requirement. destruct (roles_of e (s2l "spsso_descriptor")) as [|r0 rs] eqn:Er; [discriminate|].
  rewrite <- Er. destruct (sps_selected index _) as [l|] eqn:El; [|discriminate].
  intros H; injection H as <- <-. exists e. split; [reflexivity|].
  apply sps_selected_exact in El. cbv zeta. now rewrite <- El.
Qed.
Print Assumptions C16_exact_attribute_requirement.

(* ---- (2) unknown entity vs known entity lacking the binding ---------------- *)
Theorem C16_unknown_vs_unsupported :
  forall st eid typ svc b,
    (store_service st eid typ svc b = Err UnknownSystemEntity <->
       forall km, In km st -> has_role (snd km) eid typ = false) /\
    (store_service st eid typ svc b = Err UnsupportedBinding <->
       (forall km, In km st -> quiet eid typ svc b km) /\ exists km, In km st /\ has_role (snd km) eid typ = true) /\
    UnknownSystemEntity <> UnsupportedBinding /\
    ((exists l, store_service st eid typ svc b = Ok l /\ l <> []) \/
     store_service st eid typ svc b = Err UnsupportedBinding \/
     store_service st eid typ svc b = Err UnknownSystemEntity).
Proof.
  intros. split; [apply store_service_unknown_iff|]. split; [apply store_service_unsupported_iff|].
  split; [exact Unknown_ne_Unsupported|apply store_service_classes].
Qed.
Print Assumptions C16_unknown_vs_unsupported.

(* an entity id that no source holds is always reported as unknown *)
Theorem C16_unknown_entity :
  forall st eid typ svc b, store_get st eid = None ->
    store_service st eid typ svc b = Err UnknownSystemEntity.
Proof.
  intros st eid typ svc b H. apply store_service_unknown_iff. intros km Hin.
  pose proof (store_get_char st eid) as C. rewrite H in C. unfold has_role. now rewrite (C km Hin).
Qed.
Print Assumptions C16_unknown_entity.

(* the typed wrappers ask service() for their own role type / service and, when
   no binding is given, their default binding - so (1) and (2) carry over to
   single_sign_on_service, assertion_consumer_service, ... *)
Theorem C16_wrappers_are_service :
  forall st eid b,
    store_wrapper st W_SSO eid b None = store_service st eid T_IDP S_SSO (match b with Some x => x | None => B_REDIRECT end) /\
    store_wrapper st W_ACS eid b None = store_service st eid T_SP S_ACS (match b with Some x => x | None => B_POST end) /\
    store_wrapper st W_ATTR eid b None = store_service st eid T_AA S_ATTR (match b with Some x => x | None => B_REDIRECT end) /\
    store_wrapper st W_AUTHZ eid b None = store_service st eid T_PDP S_AUTHZ (match b with Some x => x | None => B_SOAP end) /\
    (forall t, store_wrapper st W_SLO eid b (Some t) =
               store_service st eid (descr_key t) S_SLO (match b with Some x => x | None => B_REDIRECT end)) /\
    (forall t, store_wrapper st W_ARS eid b (Some t) =
               store_service st eid (descr_key t) S_ARS (match b with Some x => x | None => B_REDIRECT end)) /\
    (forall t, store_wrapper st W_AIDR eid b (Some t) =
               store_service st eid (descr_key t) S_AIDR (match b with Some x => x | None => B_SOAP end)) /\
    (forall w t t', In w [W_SSO; W_ACS; W_ATTR; W_AUTHZ] -> store_wrapper st w eid b t = store_wrapper st w eid b t').
Proof.
  intros st eid b. repeat split; try reflexivity.
  intros w t t' Hw. cbn [In] in Hw. destruct Hw as [<-|[<-|[<-|[<-|[]]]]]; reflexivity.
Qed.
Print Assumptions C16_wrappers_are_service.

(* ---- (3) expired entities / documents are never served --------------------- *)
Theorem C16_expired_never_served :
  forall now srcs k m eid e,
    In (k, m) (load_all now [] srcs) -> aget eid m = Some e ->
    exists s e0, In s srcs /\ s_key s = k /\ admissible s /\ e = stored_form e0 /\ e_id e0 = eid /\
      (eff_check s = true -> valid now (e_valid_until e0) = true) /\
      match d_body (s_doc s) with
      | Many vu iv es => iv = IvOk /\ In e0 es /\ (eff_check s = true -> valid now vu = true)
      | Single e1 => e0 = e1
      | NotMetadata => False
      end.
Proof. exact served_entity_declared. Qed.
Print Assumptions C16_expired_never_served.

Theorem C16_expired_document_contributes_nothing :
  forall now s m t iv es,
    load_source now s = Ok m -> eff_check s = true -> d_body (s_doc s) = Many (Some t) iv es ->
    (t < now)%Z -> m = [].
Proof.
  intros now s m t iv es Hl Hc Hb Ht. apply load_source_iff in Hl as [_ Hp]. rewrite Hc, Hb in Hp. cbn [parse valid] in Hp.
  destruct iv; [|now injection Hp|discriminate]. rewrite (proj2 (Z.leb_gt _ _) Ht) in Hp. discriminate.
Qed.
Print Assumptions C16_expired_document_contributes_nothing.

Theorem C16_valid_means_not_passed : forall now t, valid now (Some t) = true <-> (now <= t)%Z.
Proof. intros now t. apply Z.leb_le. Qed.
Print Assumptions C16_valid_means_not_passed.

(* ---- (4) signed metadata with a verification certificate ------------------
   (4a) relative to the verification CALL (security.verify_signature, i.e. the
   crypto backend's answer): a source with a certificate and a signed root is
   registered only if it is remote and the call answered True.  A failure
   reported by raising (xmlsec1 backend) or by returning False
   (CryptoBackendXMLSecurity) is fatal alike - the model follows the repaired
   parse_and_check_signature (proposed_fix/C16-1). *)
Theorem C16_signed_only_if_verified :
  forall now s m, load_source now s = Ok m -> s_kind s <> Inline -> s_cert s = true -> d_signed (s_doc s) = true ->
    s_kind s = Remote /\ s_verdict s = Ok true.
Proof. exact load_source_verified. Qed.
Print Assumptions C16_signed_only_if_verified.

(* the same for every source of a long-lived store *)
Theorem C16_registered_signed_source_verified :
  forall now srcs k m, In (k, m) (load_all now [] srcs) ->
    exists s, In s srcs /\ s_key s = k /\ load_source now s = Ok m /\
      (s_kind s = Remote -> s_http_ok s = true) /\
      (s_kind s <> Inline -> s_cert s = true -> d_signed (s_doc s) = true ->
         s_kind s = Remote /\ s_verdict s = Ok true).
Proof.
  intros now srcs k m H. destruct (registered_source _ _ _ _ H) as (s & H1 & H2 & H3 & [H4 H5] & _).
  exists s. repeat split; auto; now apply H5.
Qed.
Print Assumptions C16_registered_signed_source_verified.

(* a verification that does not succeed contributes no entity: the load raises,
   the store is left as it was *)
Theorem C16_failed_verification_contributes_nothing :
  forall now st s, s_kind s <> Inline -> s_cert s = true -> d_signed (s_doc s) = true -> s_verdict s <> Ok true ->
    (exists x, load_source now s = Err x) /\ fst (store_load now st s) = st.
Proof.
  intros now st s Hk Hc Hd Hv. destruct (failed_verification_fatal now s Hk Hc Hd Hv) as [x Hx].
  split; [now exists x|]. unfold store_load. now rewrite Hx.
Qed.
Print Assumptions C16_failed_verification_contributes_nothing.

(* exactly the admissible sources whose document parses are registered *)
Theorem C16_registered_iff :
  forall now s m, load_source now s = Ok m <->
    admissible s /\ parse now (eff_check s) (d_body (s_doc s)) = Ok m.
Proof. exact load_source_iff. Qed.
Print Assumptions C16_registered_iff.

(* BEFORE the repair (load_source_before_fix: MetadataStore.load ignored the
   value parse_and_check_signature returned) the statement failed: a backend
   answering False got the entities served *)
Definition witness_entity : entity :=
  {| e_id := s2l "https://idp.example.org"; e_valid_until := None;
     e_roles := [{| r_type := T_IDP; r_protocols := Some SAML2P; r_keys := [];
                    r_services := [Build_service S_SSO B_REDIRECT (s2l "https://idp.example.org/sso") None];
                    r_acs := [] |}];
     e_affil := false; e_eattrs := [] |}.
Definition witness_source : source :=
  {| s_key := s2l "http://md.example.org/"; s_kind := Remote; s_cert := true; s_check := true; s_http_ok := true;
     s_verdict := Ok false; s_doc := {| d_signed := true; d_body := Many None IvOk [witness_entity] |} |}.

Theorem C16_signed_only_if_verified_before_fix_refuted :
  exists now s m, load_source_before_fix now s = Ok m /\ s_kind s <> Inline /\ s_cert s = true /\
    d_signed (s_doc s) = true /\ s_verdict s = Ok false /\ m <> [] /\
    (exists l, store_service [(s_key s, m)] (s2l "https://idp.example.org") T_IDP S_SSO B_REDIRECT = Ok l) /\
    (* the repaired loader refuses the same source *)
    exists x, load_source now s = Err x.
Proof.
  exists 0%Z, witness_source. eexists. split; [vm_compute; reflexivity|].
  repeat split; try discriminate; eexists; vm_compute; reflexivity.
Qed.
Print Assumptions C16_signed_only_if_verified_before_fix_refuted.

(* (4b) WHICH signature the call is about (DESIGN.md 5.1 F15, Model/MdSig.v).
   parse_and_check_signature passes no node id: the tool's answer is about the
   FIRST ds:Signature in document order, whatever signed() looked at. *)
Theorem C16_no_node_id_means_first_signature :
  forall dupfail doc nm cert,
    tool_verify dupfail doc nm None cert =
    if dupfail && has_dup (registered nm doc []) then false
    else match first_sig doc with None => false | Some p => sig_verifies doc nm p cert end.
Proof. exact tool_verify_no_node_id. Qed.
Print Assumptions C16_no_node_id_means_first_signature.

(* FULL STATEMENT, for the repaired loader (proposed_fix/C16-3: the pre-check
   sigver._enveloped_signature_ok(..., whole_document_ok=True) on the document
   element before the tool is called; Model/MdSig.v md_precheck): a registered
   source with a certificate and a signed root - the root's own signature
   verified (own_signature_ok), namely: the first ds:Signature of the whole
   document is the root's k-th child and its only Signature child, made with
   the configured certificate's key, value intact, with a single Reference -
   URI "" or "#" + the root's non-empty ID - whose digest is the whole document
   minus that signature. *)
Theorem C16_prechecked_loader_full :
  forall dupfail now s doc nm cert m,
    s_kind s <> Inline -> s_cert s = true -> root_signed doc = true ->
    load_source now (signed_source_prechecked s dupfail doc nm cert) = Ok m ->
    own_signature_ok doc nm cert = true /\
    exists n i pl kids k u d,
      doc = El n i pl kids /\ first_sig doc = Some [k] /\ count_sigs kids = 1%nat /\
      nth_error kids k = Some (Sg [(u, d)] cert true) /\
      (u = [] \/ exists v, i = Some v /\ v <> [] /\ u = HASH :: v) /\
      tree_eqb d (remove_at [k] doc) = true.
Proof.
  intros dupfail now s doc nm cert m Hk Hc Hs Hl.
  destruct (load_source_verified _ _ _ Hl Hk Hc Hs) as [_ Hv]. cbn [signed_source_prechecked s_verdict] in Hv. apply md_verdict_prechecked_true in Hv as [Hpre (p & Hp & Hsv)].
  destruct (md_precheck_shape _ Hpre) as (n & i & pl & kids & k & u & d & key & sv & -> & Hf & Hcnt & Hn & Hu).
  rewrite Hf in Hp. injection Hp as <-.
  destruct (sig_verifies_child _ _ _ _ _ _ _ _ _ _ Hn Hsv) as (-> & -> & Hrefs).
  cbn [forallb] in Hrefs. rewrite andb_true_r in Hrefs.
  (* the single Reference resolves to the root *)
  assert (Hres : resolve u (registered nm (El n i pl kids) []) = Some []).
  { destruct Hu as [->|(v & -> & Hv & -> & Hun)]; [reflexivity|].
    destruct (ref_ok_resolves _ _ _ _ Hrefs) as [pt Er]. cbn [fst] in Er. rewrite Er. f_equal.
    rewrite resolve_hash in Er. exact (unique_root_id _ _ _ _ _ _ _ Hun Er). }
  rewrite (ref_ok_root _ _ _ _ _ Hres) in Hrefs. split.
  - apply (own_signature_ok_intro _ _ _ _ _ _ _ _ _ _ Hn Hsv). unfold covers_root. cbn [existsb fst]. now rewrite Hres.
  - exists n, i, pl, kids, k, u, d. repeat split; auto.
    destruct Hu as [->|(v & Hi & Hv & Hu & _)]; [now left|right; now exists v].
Qed.
Print Assumptions C16_prechecked_loader_full.

Theorem C16_precheck_refused_not_registered :
  forall dupfail now s doc nm cert,
    s_kind s <> Inline -> s_cert s = true -> root_signed doc = true -> md_precheck doc = false ->
    exists x, load_source now (signed_source_prechecked s dupfail doc nm cert) = Err x.
Proof.
  intros dupfail now s doc nm cert Hk Hc Hs Hp. apply failed_verification_fatal; auto.
  cbn [signed_source_prechecked s_verdict]. unfold md_verdict_prechecked. rewrite Hp. discriminate.
Qed.
Print Assumptions C16_precheck_refused_not_registered.

(* BEFORE that repair (signed_source_before_fix: the tool alone) the statement
   failed.  Witnesses: the attacker's EntitiesDescriptor (no ID) carries
   Extensions holding the federation's validly signed document, THEN a
   top-level Signature whose value is garbage; and the genuine Signature MOVED
   to the attacker's root with the genuine document parked without it.  The
   repaired loader refuses both, and their URI "" variants. *)
Definition N_ED : N := 1.   Definition N_EXT : N := 2.   Definition N_ENT : N := 3.
Definition K_FED : N := 6.
Definition genuine_unsigned : tree := El N_ED (Some (s2l "fed")) 10 [El N_ENT None 11 []].
Definition genuine_signed : tree :=
  El N_ED (Some (s2l "fed")) 10 [Sg [(s2l "#fed", genuine_unsigned)] K_FED true; El N_ENT None 11 []].
(* the same federation document signed with a whole-document Reference (URI ""), root without ID *)
Definition genuine0_unsigned : tree := El N_ED None 10 [El N_ENT None 11 []].
Definition genuine0_signed : tree :=
  El N_ED None 10 [Sg [([], genuine0_unsigned)] K_FED true; El N_ENT None 11 []].
Definition wrapped_doc : tree :=
  El N_ED None 20 [El N_EXT None 21 [genuine_signed];
                   Sg [(s2l "#fed", genuine_unsigned)] 0 false;
                   El N_ENT None 22 []].
Definition wrapped_doc_moved : tree :=
  El N_ED None 20 [Sg [(s2l "#fed", genuine_unsigned)] K_FED true;
                   El N_EXT None 21 [genuine_unsigned];
                   El N_ENT None 22 []].
(* URI "" variants: garbage whole-document signature after the parked original;
   the genuine whole-document signature moved onto the attacker's root *)
Definition wrapped0_doc : tree :=
  El N_ED None 20 [El N_EXT None 21 [genuine_signed];
                   Sg [([], genuine0_unsigned)] 0 false;
                   El N_ENT None 22 []].
Definition wrapped0_doc_moved : tree :=
  El N_ED None 20 [Sg [([], genuine0_unsigned)] K_FED true;
                   El N_EXT None 21 [genuine0_unsigned];
                   El N_ENT None 22 []].
Definition evil_source : source := remote_stub true [witness_entity].

Theorem C16_signed_only_if_own_signature_verifies_before_fix_refuted :
  exists dupfail now s doc nm cert m,
    s_kind s <> Inline /\ s_cert s = true /\ root_signed doc = true /\
    load_source now (signed_source_before_fix s dupfail doc nm cert) = Ok m /\ m <> [] /\
    own_signature_ok doc nm cert = false /\
    (exists m', load_source now (signed_source_before_fix s dupfail wrapped_doc_moved nm cert) = Ok m' /\ m' <> []) /\
    own_signature_ok wrapped_doc_moved nm cert = false /\
    (exists m', load_source now (signed_source_before_fix s dupfail wrapped0_doc nm cert) = Ok m' /\ m' <> []) /\
    own_signature_ok wrapped0_doc nm cert = false /\
    (* the repaired loader refuses all of them (the moved whole-document signature fails by digest in the tool) *)
    Forall (fun d => exists x, load_source now (signed_source_prechecked s dupfail d nm cert) = Err x)
           [doc; wrapped_doc_moved; wrapped0_doc; wrapped0_doc_moved] /\
    md_precheck wrapped0_doc_moved = true /\
    (* ... and accepts the genuine documents, Reference by ID and whole-document *)
    Forall (fun d => own_signature_ok d nm cert = true /\
                     exists m', load_source now (signed_source_prechecked s dupfail d nm cert) = Ok m' /\ m' <> [])
           [genuine_signed; genuine0_signed].
Proof.
  exists true, 0%Z, evil_source, wrapped_doc, N_ED, K_FED. eexists.
  repeat split; try discriminate; try (vm_compute; reflexivity);
    try (eexists; split; [vm_compute; reflexivity|discriminate]).
  - repeat constructor; eexists; vm_compute; reflexivity.
  - repeat constructor; try (vm_compute; reflexivity); eexists; (split; [vm_compute; reflexivity|discriminate]).
Qed.
Print Assumptions C16_signed_only_if_own_signature_verifies_before_fix_refuted.

(* ---- (5) configuration round trip ------------------------------------------
   loading the descriptor generated from a configuration serves, for every role
   type, service and binding, exactly the endpoints do_endpoints makes of the
   configured ones … *)
Theorem C16_config_roundtrip :
  forall now cfg e typ svc b l,
    entity_of_cfg cfg = Ok e -> c_roles cfg <> [] ->
    store_service (load_all now [] [inline_source e]) (c_entityid cfg) typ svc b = Ok l ->
    forall s, In s l <->
      exists cr x, In cr (c_roles cfg) /\ cr_type cr = typ /\ In x (cr_endpoints cr) /\ fst (fst x) = svc /\
                   In s (do_endpoints svc (snd (fst x)) 1 (snd x)) /\ sv_binding s = b.
Proof.
  intros now cfg e typ svc b l He Hne H. rewrite (roundtrip_store now cfg e He Hne), store_service_single in H.
  destruct (md_service [(c_entityid cfg, e)] (c_entityid cfg) typ svc b) as [[|s0 l0]|] eqn:Hm; try discriminate.
  injection H as <-.
  intros s. rewrite (md_service_In _ _ _ _ _ _ Hm s). unfold declares. cbn [aget]. rewrite str_eqb_refl.
  unfold entity_of_cfg in He. destruct (do_key_descriptor _ _ _) as [kds|x]; [|discriminate]. injection He as <-.
  cbn [e_roles]. split.
  - intros (e' & r & He' & Hr & Ht & Hs & Hv & Hb). injection He' as <-. cbn [e_roles] in Hr.
    apply in_map_iff in Hr as (cr & <- & Hcr).
    cbn [role_of_cfg r_type r_services] in *. apply in_flat_map in Hs as (x & Hx & Hs).
    pose proof (do_endpoints_type _ _ _ _ _ Hs) as Hty. rewrite Hv in Hty. subst svc.
    exists cr, x. repeat split; auto. now rewrite Hty.
  - intros (cr & x & Hcr & Ht & Hx & Hsvc & Hs & Hb). eexists. exists (role_of_cfg kds cr).
    split; [reflexivity|]. cbn [role_of_cfg r_type r_services]. repeat split; auto.
    + apply in_map_iff. now exists cr.
    + apply in_flat_map. exists x. split; [exact Hx|]. now rewrite Hsvc.
    + exact (do_endpoints_type _ _ _ _ _ Hs).
Qed.
Print Assumptions C16_config_roundtrip.

(* … and do_endpoints keeps every configured endpoint, in order, with its
   location and binding, keeps a configured index, numbers the others of an
   indexed service, and leaves a non-indexed endpoint without index *)
Theorem C16_config_endpoints :
  forall svc indexed eps i,
    map (fun s => (sv_location s, sv_binding s)) (do_endpoints svc indexed i eps) =
    map (fun ep => (ce_location ep, ce_binding ep)) eps /\
    Forall2 (fun s ep => match ce_index ep with
                         | Some ix => sv_index s = Some ix
                         | None => if indexed then exists n, sv_index s = Some (N_to_str n) else sv_index s = None
                         end) (do_endpoints svc indexed i eps) eps.
Proof.
  intros svc indexed eps. induction eps as [|ep eps IH]; intros i; cbn [do_endpoints map]; [split; [reflexivity|constructor]|].
  destruct indexed.
  - destruct (ce_index ep) as [ix|] eqn:Ei; cbn [map sv_location sv_binding].
    + destruct (IH i) as [H1 H2]. split; [now rewrite H1|]. constructor; [now rewrite Ei|exact H2].
    + destruct (IH (i + 1)) as [H1 H2]. split; [now rewrite H1|]. constructor; [rewrite Ei; now exists i|exact H2].
  - cbn [map sv_location sv_binding]. destruct (IH i) as [H1 H2]. split; [now rewrite H1|].
    constructor; [|exact H2]. cbn [sv_index]. now destruct (ce_index ep).
Qed.
Print Assumptions C16_config_endpoints.

(* ---- the hypotheses are satisfiable: a four-source federation --------------- *)
Definition cert_a : str := s2l "QUFBQQ==".
Definition cert_b : str := s2l "QkJCQg==".
Definition ex_idp (loc : str) (keys : list keydesc) : role :=
  {| r_type := T_IDP; r_protocols := Some SAML2P; r_keys := keys;
     r_services := [Build_service S_SSO B_REDIRECT loc None; Build_service S_SSO B_POST loc None]; r_acs := [] |}.
Definition ex_ent (id loc : str) (vu : option Z) (keys : list keydesc) : entity :=
  {| e_id := id; e_valid_until := vu; e_roles := [ex_idp loc keys]; e_affil := false; e_eattrs := [] |}.
Definition ex_src (k : str) (kind : skind) (cert : bool) (verdict : result bool) (d : document) : source :=
  {| s_key := k; s_kind := kind; s_cert := cert; s_check := true; s_http_ok := true; s_verdict := verdict; s_doc := d |}.
Definition ex_federation : list source := [
  (* 1: inline; entity A expired, entity B with encryption key FIRST, then signing *)
  ex_src (s2l "1") Inline false (Ok true)
    {| d_signed := false;
       d_body := Many None IvOk [ex_ent (s2l "A") (s2l "https://a1/sso") (Some 99%Z) [];
                                 ex_ent (s2l "B") (s2l "https://b1/sso") (Some 101%Z)
                                   [Build_keydesc (Some U_ENCRYPTION) [cert_b]; Build_keydesc (Some U_SIGNING) [cert_a]]] |};
  (* 2: remote, signed, verification raised: contributes nothing *)
  ex_src (s2l "u2") Remote true (Err (s2l "SignatureError"))
    {| d_signed := true; d_body := Many None IvOk [ex_ent (s2l "A") (s2l "https://evil/sso") None []] |};
  (* 3: remote, signed, verified: A is served from here *)
  ex_src (s2l "u3") Remote true (Ok true)
    {| d_signed := true; d_body := Many (Some 200%Z) IvOk [ex_ent (s2l "A") (s2l "https://a3/sso") None []] |};
  (* 4: remote, signed, the backend answered False: contributes nothing either (C stays unknown) *)
  ex_src (s2l "u4") Remote true (Ok false)
    {| d_signed := true; d_body := Many None IvOk [ex_ent (s2l "C") (s2l "https://c4/sso") None []] |}
].
Example C16_example :
  let st := load_all 100 [] ex_federation in
  map fst st = [s2l "1"; s2l "u3"] /\
  store_service st (s2l "A") T_IDP S_SSO B_POST = Ok [Build_service S_SSO B_POST (s2l "https://a3/sso") None] /\
  store_service st (s2l "A") T_IDP S_SSO B_SOAP = Err UnsupportedBinding /\
  store_service st (s2l "A") T_SP S_ACS B_POST = Err UnknownSystemEntity /\
  store_service st (s2l "C") T_IDP S_SSO B_POST = Err UnknownSystemEntity /\
  store_certs st (s2l "B") (s2l "idpsso") U_SIGNING = Ok [cert_a] /\
  store_certs st (s2l "B") (s2l "any") U_ENCRYPTION = Ok [cert_b] /\
  store_keys (load_all 102 [] ex_federation) = [s2l "A"] /\
  load_outcomes 100 [] ex_federation = [None; Some (s2l "SignatureError"); None; Some SignatureError] /\
  (* the hypotheses of C16_prechecked_loader_full are satisfiable: genuine documents pass the pre-check and load *)
  md_precheck genuine_signed = true /\ md_precheck genuine0_signed = true /\
  (exists m, load_source 0 (signed_source_prechecked evil_source true genuine0_signed N_ED K_FED) = Ok m) /\
  md_precheck wrapped_doc = false /\ md_precheck wrapped_doc_moved = false /\ md_precheck wrapped0_doc = false.
Proof. vm_compute. repeat split; try reflexivity. eexists; reflexivity. Qed.
Print Assumptions C16_example.

(* GLUE to C03 / C08 / C10 / C17 (Proofs/Glue_certs.v, docs/Glue.md): certs(eid, any, use) IS Model/CertSelect.v's
   md_certs - the function signatures are checked under and assertions are encrypted for - on this store read as a
   CertSelect store (certificate texts numbered by their position in the list of all texts of the store): same
   certificates, same order, same duplicates dropped; KeyError (unknown entity) there = None here.  No side condition. *)
From PV Require Model.CertSelect Proofs.Glue_certs.
Theorem C16_certs_is_the_function_signatures_are_checked_under :
  forall st eid use,
    let num := Glue_certs.num_of (Glue_certs.store_texts st) in
    CertSelect.md_certs (Glue_certs.abs_store num st) (Some eid) use =
    match store_certs st eid (s2l "any") use with Ok l => Some (map num l) | Err _ => None end.
Proof. intros st eid use. exact (Glue_certs.md_certs_eq_canonical st eid use). Qed.
Print Assumptions C16_certs_is_the_function_signatures_are_checked_under.

(* GLUE to C01 (Proofs/Glue_xsw.v): the pre-check of parse_and_check_signature (Model/MdSig.v md_precheck) is, on the
   document embedded into C01's document model, either "the single Reference is to the whole document" or C01's
   pre-check (sigver._enveloped_signature_ok) for the root element under its own name and ID. *)
From PV Require Model.Xsw Proofs.Glue_xsw.
Theorem C16_md_precheck_is_C01_precheck_on_the_root :
  forall n i pl kids,
    md_precheck (El n i pl kids) =
    Glue_xsw.whole_ref (El n i pl kids) || Xsw.precheck (Glue_xsw.emb (El n i pl kids)) (N.succ n) i.
Proof. exact Glue_xsw.md_precheck_char. Qed.
Print Assumptions C16_md_precheck_is_C01_precheck_on_the_root.

(* ---- (6) validUntil AS WRITTEN (Model/MdSpell.v) ----------------------------
   The statements above start from documents whose validUntil is a number.  The
   library starts from the attribute text; str_to_time interprets the second-
   resolution ...Z form, the same without Z, and both with a fraction of ANY
   number of digits (the fraction is dropped: the instant is the whole second),
   and nothing else - in particular no time-zone offset.  [lenient] is what
   do_entity_descriptor does with an uninterpretable text: true = the library
   as it is (AttributeError swallowed, the entity counts as valid), false = the
   library with proposed_fix/C16-4 (the entity counts as too old). *)
From PV Require Import Model.MdSpell Proofs.MdSpell_lemmas.

Theorem C16_spellings_that_parse :
  forall t ds, forallb is_digit ds = true ->
    str_to_time {| vt_core := CoreDate t; vt_suffix := [90] |} = Ok t /\                  (* ...SSZ *)
    str_to_time {| vt_core := CoreDate t; vt_suffix := [] |} = Ok t /\                    (* ...SS *)
    str_to_time {| vt_core := CoreDate t; vt_suffix := 46 :: ds ++ [90] |} = Ok t /\      (* ...SS.dddZ, any number of digits *)
    str_to_time {| vt_core := CoreDate t; vt_suffix := 46 :: ds |} = Ok t.                (* ...SS.ddd *)
Proof.
  intros t ds H. destruct (fragment_dot_digits ds H) as [H1 H2]. unfold str_to_time. cbn [vt_core vt_suffix].
  rewrite H1, H2, !orb_true_r. repeat split; reflexivity.
Qed.
Print Assumptions C16_spellings_that_parse.

(* any character other than a digit, the dot, Z, z and a line feed after the seconds (the + - : of an offset, a
   blank, a comma): AttributeError from elem.groups() on None *)
Theorem C16_offset_spellings_do_not_parse :
  forall v c, In c (vt_suffix v) -> suffix_char_ok c = false -> str_to_time v = Err AttributeError.
Proof.
  intros v c.
  intros Hin Hc.
  assert (forallb suffix_char_ok (vt_suffix v) = true -> False) as Hno.
  { intros H. rewrite forallb_forall in H. specialize (H c Hin). congruence. }
  unfold str_to_time. destruct (vt_core v); [| |reflexivity].
  - destruct (strptime_suffix (vt_suffix v)) eqn:E1; [destruct (Hno (strptime_suffix_chars _ E1))|].
    destruct (fragment_suffix (vt_suffix v)) eqn:E2; [destruct (Hno (fragment_suffix_chars _ E2))|]. reflexivity.
  - destruct (fragment_suffix (vt_suffix v)) eqn:E2; [destruct (Hno (fragment_suffix_chars _ E2))|]. reflexivity.
Qed.
Print Assumptions C16_offset_spellings_do_not_parse.

(* the text layer is the store model above on the elaborated documents: every theorem of (1)-(5) holds of it *)
Theorem C16_text_layer_is_the_store_model :
  forall lenient now rsrcs,
    rload_all lenient now [] rsrcs = load_all now [] (map (elab_source lenient) rsrcs) /\
    map none_b (rload_outcomes lenient now [] rsrcs) =
    map none_b (load_outcomes now [] (map (elab_source lenient) rsrcs)) /\
    fst (rimp lenient now [] rsrcs) = fst (imp now [] (map (elab_source lenient) rsrcs)).
Proof.
  intros. split; [apply rload_all_bridge|]. split; [apply rload_outcomes_bridge|]. apply rimp_bridge.
Qed.
Print Assumptions C16_text_layer_is_the_store_model.

(* FULL STATEMENT over the texts (library with proposed_fix/C16-4): an entity held by a registered source comes
   from a configured, admissible source; when validity checking reaches the source, its validUntil text - and, in
   an aggregate, the aggregate's - is absent or IS INTERPRETED as an instant that has not passed; an aggregate
   that is served has no uninterpretable validUntil anywhere (valid_instance passed) *)
Theorem C16_spelled_expired_never_served :
  forall now rsrcs k m eid e,
    In (k, m) (rload_all false now [] rsrcs) -> aget eid m = Some e ->
    exists rs re, In rs rsrcs /\ s_key (rs_src rs) = k /\ admissible (rs_src rs) /\
      e = stored_form (ent_of re) /\ e_id (re_ent re) = eid /\
      (eff_check (rs_src rs) = true -> spelled_unexpired now (re_vu re)) /\
      match rs_body rs with
      | RMany vu iv es => In re es /\ doc_ivalid vu iv es = IvOk /\
                          (eff_check (rs_src rs) = true -> spelled_unexpired now vu)
      | RSingle re1 => re = re1
      | RNotMetadata => False
      end.
Proof.
  intros now rsrcs k m eid e Hin Hget.
  destruct (rserved_declared false now rsrcs k m eid e Hin Hget) as (rs & re & H1 & H2 & H3 & H4 & H5 & Hb).
  exists rs, re. repeat (split; [assumption|]). destruct (rs_body rs) as [vu iv es|re1|].
  - destruct Hb as (Hre & Hiv & Hc). split; [intros C; now destruct (Hc C)|].
    split; [exact Hre|]. split; [exact Hiv|]. intros C; now destruct (Hc C).
  - destruct Hb as (-> & Hc). split; [|reflexivity]. intros C. destruct (Hc C) as [H|[H _]]; [exact H|discriminate].
  - destruct Hb.
Qed.
Print Assumptions C16_spelled_expired_never_served.

(* the library AS IT IS does not satisfy it: a stand-alone EntityDescriptor whose validUntil - one second in the
   past - is written with a time-zone offset (a legal xs:dateTime) is served; with proposed_fix/C16-4 it is not *)
Definition offset_text (t : Z) : vutext := {| vt_core := CoreDate t; vt_suffix := s2l "+00:00" |}.
Definition offset_source (t : Z) : rsource :=
  {| rs_src := inline_source witness_entity;
     rs_body := RSingle {| re_vu := Some (offset_text t); re_iv := IvOk; re_ent := witness_entity |} |}.
Theorem C16_spelled_expired_never_served_refuted :
  exists now rs re m,
    rs_body rs = RSingle re /\ eff_check (rs_src rs) = true /\
    re_vu re = Some (offset_text (now - 1)) /\ ~ spelled_unexpired now (re_vu re) /\
    rload_all true now [] [rs] = [(s_key (rs_src rs), m)] /\ aget (e_id (re_ent re)) m <> None /\
    (exists l, store_service (rload_all true now [] [rs]) (e_id (re_ent re)) T_IDP S_SSO B_REDIRECT = Ok l) /\
    (* with the proposed repair the same source is registered empty *)
    rload_all false now [] [rs] = [(s_key (rs_src rs), [])].
Proof.
  exists 100%Z, (offset_source 99). eexists. eexists.
  split; [reflexivity|]. split; [reflexivity|]. split; [reflexivity|]. split.
  - intros [H|(x & t & H & Hs & _)]; [discriminate|]. injection H as <-. vm_compute in Hs. discriminate.
  - split; [vm_compute; reflexivity|]. split; [vm_compute; discriminate|].
    split; [eexists; vm_compute; reflexivity|vm_compute; reflexivity].
Qed.
Print Assumptions C16_spelled_expired_never_served_refuted.

(* ... and satisfies it for every text that str_to_time interprets; the exception, characterised: a stand-alone
   EntityDescriptor whose validUntil text makes str_to_time raise AttributeError *)
Theorem C16_spelled_expired_never_served_partial :
  forall now rsrcs k m eid e,
    In (k, m) (rload_all true now [] rsrcs) -> aget eid m = Some e ->
    exists rs re, In rs rsrcs /\ s_key (rs_src rs) = k /\ admissible (rs_src rs) /\
      e = stored_form (ent_of re) /\ e_id (re_ent re) = eid /\
      match rs_body rs with
      | RMany vu iv es =>
          In re es /\ doc_ivalid vu iv es = IvOk /\
          (eff_check (rs_src rs) = true -> spelled_unexpired now vu /\ spelled_unexpired now (re_vu re))
      | RSingle re1 =>
          re = re1 /\
          (eff_check (rs_src rs) = true ->
             spelled_unexpired now (re_vu re) \/ exists x, re_vu re = Some x /\ str_to_time x = Err AttributeError)
      | RNotMetadata => False
      end.
Proof.
  intros now rsrcs k m eid e Hin Hget.
  destruct (rserved_declared true now rsrcs k m eid e Hin Hget) as (rs & re & H1 & H2 & H3 & H4 & H5 & Hb).
  exists rs, re. repeat (split; [assumption|]). destruct (rs_body rs) as [vu iv es|re1|]; [exact Hb| |exact Hb].
  destruct Hb as (-> & Hc). split; [reflexivity|]. intros C. destruct (Hc C) as [H|[_ H]]; [now left|now right].
Qed.
Print Assumptions C16_spelled_expired_never_served_partial.

(* an EntitiesDescriptor with ONE uninterpretable validUntil - its own or a child's - fails closed as a whole
   (valid_date_time turns any exception of str_to_time into NotValid): it is registered empty *)
Theorem C16_uninterpretable_text_in_aggregate_contributes_nothing :
  forall lenient now check vu iv es,
    (vu_bad vu = true \/ (iv = IvOk /\ exists re, In re es /\ vu_bad (re_vu re) = true /\
                           forall re', In re' es -> re_iv re' = IvOk)) ->
    rparse lenient now check (RMany vu iv es) = Ok [].
Proof.
  intros lenient now check vu iv es H. cbn [rparse]. assert (doc_ivalid vu iv es = IvNotValid) as ->; [|reflexivity].
  unfold doc_ivalid. destruct H as [->|(-> & re & Hin & Hbad & Hiv)]; [reflexivity|].
  destruct (vu_bad vu); [reflexivity|]. clear vu.
  induction es as [|e es IH]; [destruct Hin|]. cbn [ents_ivalid].
  destruct Hin as [->|Hin]; [now rewrite Hbad|].
  destruct (vu_bad (re_vu e)); [reflexivity|]. rewrite (Hiv e (or_introl eq_refl)).
  apply IH; [exact Hin|]. intros re' H'. apply Hiv. now right.
Qed.
Print Assumptions C16_uninterpretable_text_in_aggregate_contributes_nothing.

(* ---- (7) histories on one long-lived store -----------------------------------
   loads interleaved with lookups, in any order and number: the answers of a lookup are exactly those of the store
   made by the loads that precede it - lookups leave no trace, a raising load leaves the store as it was - so
   (1)-(6) hold at every point of a history (induction over the operation sequence) *)
Theorem C16_history :
  forall lenient now pre qs post,
    run_ops lenient now [] (pre ++ OpAsk qs :: post) =
    run_ops lenient now [] pre ++
    map (run_query (rload_all lenient now [] (loads_of pre))) qs ++
    run_ops lenient now (rload_all lenient now [] (loads_of pre)) post.
Proof.
  intros lenient now pre qs post.
  rewrite run_ops_app, ops_store_loads. reflexivity. Qed.
Print Assumptions C16_history.

Theorem C16_history_store :
  forall lenient now ops, ops_store lenient now [] ops = rload_all lenient now [] (loads_of ops).
Proof. intros. apply ops_store_loads. Qed.
Print Assumptions C16_history_store.

(* ---- (8) entity attributes: every value of every saml:Attribute of that Name is served ------------------------
   the same Name in several Attributes of one EntityAttributes element and across several elements: the answer
   under that Name is the concatenation, in document order, of ALL their values (nothing replaced, nothing
   de-duplicated: its length is the sum of the lengths) *)
Theorem C16_every_declared_attribute_value_served :
  forall st eid e res elem a v,
    store_get st eid = Some e -> store_entity_attributes st eid = Ok res ->
    In elem (e_eattrs e) -> In a elem -> In v (ea_values a) ->
    exists l, aget (ea_name a) res = Some l /\ In v l /\
      l = vals_of (ea_name a) (List.concat (e_eattrs e)) /\
      List.length l = fold_right (fun a' acc => ((if str_eqb (ea_name a) (ea_name a') then List.length (ea_values a') else O) + acc)%nat)
                                 O (List.concat (e_eattrs e)).
Proof.
  intros st eid e res elem a v He Hres Helem Ha Hv.
  rewrite (entity_attributes_exact _ _ _ Hres (ea_name a)), He.
  assert (In a (List.concat (e_eattrs e))) as Hin by (apply in_concat; now exists elem).
  destruct (vals_of_In _ a v Hin Hv) as [-> Hl].
  eexists. split; [reflexivity|]. split; [exact Hl|]. split; [reflexivity|apply vals_of_length].
Qed.
Print Assumptions C16_every_declared_attribute_value_served.

(* ---- (9) unknown entity vs unsupported binding does not depend on WHERE the source stands ---------------------
   an entity with a role of that type in ANY registered source - first, middle or last - is never reported
   unknown; one with such a role in no source is always reported unknown *)
Theorem C16_known_in_any_source_never_unknown :
  forall pre k m post eid typ svc b,
    has_role m eid typ = true ->
    store_service (pre ++ (k, m) :: post) eid typ svc b <> Err UnknownSystemEntity /\
    ((exists l, store_service (pre ++ (k, m) :: post) eid typ svc b = Ok l /\ l <> []) \/
     store_service (pre ++ (k, m) :: post) eid typ svc b = Err UnsupportedBinding).
Proof.
  intros pre k m post eid typ svc b Hr.
  pose proof (known_anywhere_never_unknown pre k m post eid typ svc b Hr) as Hn. split; [exact Hn|].
  destruct (store_service_classes (pre ++ (k, m) :: post) eid typ svc b) as [H|[H|H]]; [now left|now right|contradiction].
Qed.
Print Assumptions C16_known_in_any_source_never_unknown.

(* the hypotheses are satisfiable: one store, a history with every spelling class *)
Definition sp_ent (id : str) : entity := ex_ent id (s2l "https://x/sso") None [].
Definition sp_single (key id : str) (v : vuspell) : rsource :=
  {| rs_src := ex_src key Inline false (Ok true) {| d_signed := false; d_body := NotMetadata |};
     rs_body := RSingle {| re_vu := v; re_iv := IvOk; re_ent := sp_ent id |} |}.
Definition sp_many (key : str) (root : vuspell) (vs : list (str * vuspell)) : rsource :=
  {| rs_src := ex_src key Inline false (Ok true) {| d_signed := false; d_body := NotMetadata |};
     rs_body := RMany root IvOk (map (fun p => {| re_vu := snd p; re_iv := IvOk; re_ent := sp_ent (fst p) |}) vs) |}.
Definition txt (t : Z) (sfx : str) : vuspell := Some {| vt_core := CoreDate t; vt_suffix := sfx |}.
Example C16_spelling_example :
  let ops := [OpLoad (sp_single (s2l "1") (s2l "A") (txt 99 (s2l ".999999999Z")));     (* expired, 9 digits *)
              OpAsk [QKnown (s2l "A")];
              OpLoad (sp_single (s2l "2") (s2l "A") (txt 100 (s2l ".5")));             (* now, fraction, no Z *)
              OpAsk [QKnown (s2l "A"); QKnown (s2l "B")];
              OpLoad (sp_many (s2l "3") (txt 100 []) [(s2l "B", txt 99 (s2l "Z")); (s2l "C", txt 101 (s2l ".1234567Z"))]);
              OpLoad (sp_many (s2l "4") None [(s2l "D", None); (s2l "E", txt 500 (s2l "+01:00"))]);   (* fails closed *)
              OpLoad (sp_single (s2l "5") (s2l "F") (Some {| vt_core := CoreShape; vt_suffix := s2l "Z" |}));   (* raises *)
              OpAsk (map QKnown [s2l "A"; s2l "B"; s2l "C"; s2l "D"; s2l "E"; s2l "F"])] in
  run_ops false 100 [] ops =
    [VB true; VB false; VB true; VB true; VB false; VB true; VB true; VB false;
     VB true; VB false; VB true; VB false; VB false; VB false] /\
  run_ops true 100 [] ops = run_ops false 100 [] ops /\
  run_ops true 100 [] [OpLoad (sp_single (s2l "6") (s2l "G") (txt 99 (s2l "+00:00"))); OpAsk [QKnown (s2l "G")]] = [VB true; VB true] /\
  run_ops false 100 [] [OpLoad (sp_single (s2l "6") (s2l "G") (txt 99 (s2l "+00:00"))); OpAsk [QKnown (s2l "G")]] = [VB true; VB false].
Proof. vm_compute. repeat split; reflexivity. Qed.
Print Assumptions C16_spelling_example.
