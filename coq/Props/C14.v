(* Props/C14.v — binding encoders and decoders are exact inverses and inject nothing *)
From PV Require Import Lib.Base Model.Codec Proofs.Base64_lemmas Proofs.Url_lemmas Proofs.Html_lemmas Proofs.Soap_lemmas.
Open Scope N_scope.

(* POST / Redirect payload coding: base64 is exactly invertible, for every byte string *)
Theorem C14_base64_roundtrip : forall bs, Forall byte bs -> b64dec (b64enc bs) = Some bs.
Proof. exact b64_roundtrip. Qed.
Print Assumptions C14_base64_roundtrip.

Theorem C14_base64_alphabet : forall bs, Forall byte bs -> forallb b64_alphabet (b64enc bs) = true.
Proof.
  apply bytes3_ind; [reflexivity|intros a Ha|intros a b Ha Hb|intros a b c rest Ha Hb Hc _ IH];
    cbn [b64enc forallb]; cbv zeta.
  - destruct (sx_lt a 0 0 Ha byte_0 byte_0) as (H0 & H1 & _). now rewrite !b64char_alphabet.
  - destruct (sx_lt a b 0 Ha Hb byte_0) as (H0 & H1 & H2 & _). now rewrite !b64char_alphabet.
  - destruct (sx_lt a b c Ha Hb Hc) as (H0 & H1 & H2 & H3). now rewrite !b64char_alphabet, IH.
Qed.
Print Assumptions C14_base64_alphabet.

(* Redirect: every parameter name and value is percent-encoded so that decoding
   the produced query gives back EXACTLY the parameter list that was encoded —
   same number of parameters, same names, same values, same order — whatever
   bytes the message, RelayState, SigAlg or Signature contain *)
Theorem C14_redirect_roundtrip :
  forall location has_query ps, Forall bytes_pair ps ->
    parse_qsl (skipn (S (List.length location)) (redirect_url location has_query ps)) = ps.
Proof.
  intros location hq ps H. unfold redirect_url.
  replace (skipn (S (List.length location)) (location ++ (if hq then AMP else 63) :: urlencode ps)) with (urlencode ps).
  - now apply parse_qsl_urlencode.
  - induction location as [|c l IH]; [reflexivity|]. cbn [List.length app]. rewrite IH at 1. reflexivity.
Qed.
Print Assumptions C14_redirect_roundtrip.

(* …and no encoded value can contain a delimiter: the query consists of
   unreserved characters, '%', '+' and the '&' / '=' the encoder itself placed *)
Theorem C14_redirect_injects_nothing :
  (forall ps, Forall bytes_pair ps -> forallb (fun c => url_safe c || (c =? AMP) || (c =? EQ)) (urlencode ps) = true) /\
  (forall bs, Forall byte bs -> forallb url_safe (quote_plus bs) = true) /\
  (forall c, url_safe c = true ->
     c <> AMP /\ c <> EQ /\ c <> 35 /\ c <> 63 /\ c <> 32 /\ c <> 34 /\ c <> 60 /\ c <> 62 /\ c <> 47 /\ c <> 44).
Proof.
  split; [exact (pairs_alphabet quote_plus (quote_gen_alphabet true))|].
  split; [exact (quote_gen_alphabet true)|exact url_safe_not_special].
Qed.
Print Assumptions C14_redirect_injects_nothing.

Theorem C14_quote_roundtrip :
  (forall bs, Forall byte bs -> unquote_plus (quote_plus bs) = bs) /\
  (forall bs, Forall byte bs -> unquote (quote bs) = bs).
Proof. split; [exact quote_plus_roundtrip|exact (unquote_quote_gen false)]. Qed.
Print Assumptions C14_quote_roundtrip.

(* POST form: an HTML tokenizer in the double-quoted attribute-value state
   recovers the field value as ONE value and stops exactly at the closing quote
   the form itself wrote, for every string (any Unicode code points) *)
Theorem C14_post_field_roundtrip :
  forall s rest, attr_value_dq (html_escape s ++ 34 :: rest) = Some (s, rest).
Proof.
  intros s rest. unfold attr_value_dq. rewrite attr_fuel; [reflexivity|]. rewrite app_length. cbn [List.length]. lia.
Qed.
Print Assumptions C14_post_field_roundtrip.

Theorem C14_post_injects_nothing :
  forall s, forallb (fun c => negb ((c =? 34) || (c =? 60) || (c =? 62) || (c =? 39))) (html_escape s) = true.
Proof.
  intros s. induction s as [|c s IH]; [reflexivity|]. now rewrite html_escape_cons, forallb_app, IH, escape_char_no_delims.
Qed.
Print Assumptions C14_post_injects_nothing.

(* SOAP, string branch (pack.make_soap_enveloped_saml_thingy): what is spliced
   into <Body> is the message itself when it has no XML declaration, and the
   message minus exactly its leading declaration (cut at the first "?>")
   otherwise — for EVERY body text, newlines included.  (no_occ: the body does
   not contain the literal text of another XML declaration, which well-formed
   XML cannot outside CDATA/comments.) *)
Theorem C14_soap_string :
  (forall t, starts_xml_decl t = false -> no_occ SOAP_PREFIX t = true -> soap_prepare t = t) /\
  (forall d body, starts_xml_decl (d ++ 63 :: 62 :: body) = true -> after_qgt d = None ->
     no_occ SOAP_PREFIX body = true -> soap_prepare (d ++ 63 :: 62 :: body) = body).
Proof.
  split.
  - intros t H1 H2. unfold soap_prepare. rewrite H1. unfold remove_all. now apply remove_all_fuel_id.
  - intros d body H1 Hd Ho. unfold soap_prepare. rewrite H1, (after_qgt_app d body Hd).
    unfold remove_all. now apply remove_all_fuel_id.
Qed.
Print Assumptions C14_soap_string.

(* record of the repaired defect (known_findings.json "fixed"): before the fix
   newlines inside the message vanished and a declaration not followed by a
   newline emptied the body *)
Definition DECL : str := s2l "<?xml version='1.0' encoding='UTF-8'?>".
Theorem C14_soap_string_before_fix_refuted :
  soap_prepare_before_fix (DECL ++ 10 :: s2l "<a>x" ++ 10 :: s2l "y</a>") = s2l "<a>xy</a>" /\
  soap_prepare_before_fix (DECL ++ s2l "<a>x</a>") = [] /\
  soap_prepare (DECL ++ 10 :: s2l "<a>x" ++ 10 :: s2l "y</a>") = 10 :: s2l "<a>x" ++ 10 :: s2l "y</a>" /\
  soap_prepare (DECL ++ s2l "<a>x</a>") = s2l "<a>x</a>".
Proof. vm_compute. repeat split; reflexivity. Qed.
Print Assumptions C14_soap_string_before_fix_refuted.

Example C14_witness :
  b64enc [77; 97; 110] = s2l "TWFu" /\ b64enc [77; 97] = s2l "TWE=" /\ b64dec (s2l "TQ==") = Some [77] /\
  urlencode [(s2l "SAMLRequest", s2l "a+b/c="); (s2l "RelayState", s2l "x&Signature=y z")] =
     s2l "SAMLRequest=a%2Bb%2Fc%3D&RelayState=x%26Signature%3Dy+z" /\
  html_escape (s2l "a""><b>&'") = s2l "a&quot;&gt;&lt;b&gt;&amp;&#x27;".
Proof. vm_compute. repeat split; reflexivity. Qed.
Print Assumptions C14_witness.
