(* Props/C07.v — an IdP never releases attributes beyond what its policy allows.
   Every theorem quantifies over EVERY regex matcher [matches], attribute map
   [lname], compiled policy [p], SP [sp] with its metadata view [md], and
   identity (ordered list of (name, values)); the inductions over those lists are
   in Proofs/Policy_lemmas.v.  Parts: (1) what apply_policy leaves, (2) every outcome of
   the entry points, with the code before repair C07-1 and its witness, (3) the
   entity-category clause against the documented table; then restriction lists of regular
   expressions and the categories read from raw metadata (Model/PolicyRx.v), and identity
   values that are not text (Model/PolicyVal.v). *)
From PV Require Import Lib.Base Gen.EntityCat Model.Policy Proofs.Policy_lemmas Model.PolicyRx Proofs.PolicyRx_lemmas Model.PolicyVal Proofs.PolicyVal_lemmas.
Open Scope N_scope.

(* (1) what Assertion.apply_policy leaves in the assertion dict *)
Theorem C07_release_subset :
  forall matches lname (p : cpolicy) (identity : ava) (sp : str) (md : option mdview) (out : ava),
    apply_policy matches lname p identity sp md = Ok out ->
    let rq := fst (declared md) in
    let op := snd (declared md) in
    (* names are identity keys, values identity values *)
    (forall n vs, In (n, vs) out -> exists ivs, In (n, ivs) identity /\ incl vs ivs) /\
    (* attribute_restrictions apply: lower-cased name is one of their keys; with a pattern list every value matches one *)
    (forall r, get_attribute_restrictions p sp = Ok (Some r) -> r <> [] ->
       forall n vs, In (n, vs) out ->
         exists rr, lookup (lower n) r = Some rr /\
           forall rxs, rr = Some rxs -> forall v, In v vs -> exists rx, In rx rxs /\ matches rx v = true) /\
    (* the entity-category rules yield an allowance: every released name is in it *)
    (forall allow, get_entity_categories p sp md rq = Ok allow -> allow <> [] ->
       forall n vs, In (n, vs) out -> In (lower n) allow) /\
    (* otherwise, when declarations exist: every name and every value is covered by one of them *)
    (get_entity_categories p sp md rq = Ok [] -> rq ++ op <> [] ->
       forall n vs, In (n, vs) out ->
         (exists d, In d (rq ++ op) /\ decl_names lname d n) /\
         (forall v, In v vs -> exists d, In d (rq ++ op) /\ decl_names lname d n /\
                                         (decl_values d = [] \/ In v (decl_values d)))).
Proof. intros matches lname p identity sp md out H. exact (apply_policy_permitted matches lname p identity sp md out H). Qed.
Print Assumptions C07_release_subset.

(* the same for the functions the policy is made of *)
Theorem C07_policy_filter :
  forall matches lname p a sp md rq op out,
    pfilter matches lname p a sp md rq op = Ok out -> permitted_for matches lname p sp md rq op a out.
Proof. exact pfilter_permitted. Qed.
Print Assumptions C07_policy_filter.

Theorem C07_filter_attribute_value_assertions :
  forall matches a r n vs, r <> [] -> In (n, vs) (favs matches a (Some r)) ->
    (exists vs0, In (n, vs0) a /\ incl vs vs0) /\
    exists rr, lookup (lower n) r = Some rr /\ values_match matches rr vs.
Proof.
  intros matches a r n vs Hne Hin. split; [exact (favs_within matches a (Some r) n vs Hin)|exact (favs_restricted matches a r n vs Hne Hin)].
Qed.
Print Assumptions C07_filter_attribute_value_assertions.

Theorem C07_filter_on_attributes :
  forall lname a rq op fail res, filter_on_attributes lname a rq op fail = Ok res ->
    forall n vs, In (n, vs) res -> covered lname (rq ++ op) a n vs.
Proof. intros lname a rq op fail res H. exact (filter_on_attributes_inv lname a rq op fail res H). Qed.
Print Assumptions C07_filter_on_attributes.

(* (2) every outcome of create_authn_response, FULL STATEMENT: the construction ends in an error
   (no AttributeStatement) or in an assertion satisfying (1) -- INCLUDING when a required attribute
   or value cannot be supplied.  The model follows Server.setup_assertion as repaired by
   proposed_fix/C07-1 (on the swallowed MissingValue the policy is applied again with the SP's
   demands treated as wishes); the code before the repair is kept as *_before_fix below. *)
Theorem C07_every_outcome :
  forall matches lname (p : cpolicy) (identity : ava) (sp : str) (md : option mdview),
    outcome_ok matches lname p sp md identity (authn_response matches lname p identity sp md).
Proof. intros matches lname p identity sp md. apply setup_assertion_every_outcome. Qed.
Print Assumptions C07_every_outcome.

(* the same for Server.setup_assertion with either value of best_effort (False: error response) *)
Theorem C07_setup_assertion_every_outcome :
  forall matches lname p identity sp md best_effort,
    outcome_ok matches lname p sp md identity (setup_assertion matches lname p identity sp md best_effort).
Proof. exact setup_assertion_every_outcome. Qed.
Print Assumptions C07_setup_assertion_every_outcome.

(* the MissingValue path spelled out: what is asserted is the identity narrowed by Policy.filter
   run with wishes only (never the identity itself unless the policy permits all of it), the
   answer is never an error response and MissingValue never leaves create_authn_response *)
Theorem C07_best_effort_is_policy_filtered :
  forall matches lname p identity sp md,
    restrict matches lname p identity sp md = Err MissingValue ->
    authn_response matches lname p identity sp md =
      match pfilter matches lname p identity sp md [] (fst (declared md) ++ snd (declared md)) with
      | Ok f => Asserted (narrow identity f)
      | Err e => Raised e
      end.
Proof.
  intros matches lname p identity sp md H. apply apply_policy_Err in H.
  unfold authn_response. rewrite setup_assertion_eq, H, answer_missing.
  unfold apply_policy_with. rewrite restrict_with_declared.
  destruct (pfilter matches lname p identity sp md [] (fst (declared md) ++ snd (declared md))); reflexivity.
Qed.
Print Assumptions C07_best_effort_is_policy_filtered.

Theorem C07_authn_response_always_answers :
  forall matches lname p identity sp md,
    authn_response matches lname p identity sp md <> ErrorResponse /\
    authn_response matches lname p identity sp md <> Raised MissingValue.
Proof.
  intros matches lname p identity sp md. unfold authn_response. rewrite setup_assertion_eq. apply answer_cases.
  - intros a _. split; discriminate.
  - intros _. destruct (apply_policy_with matches lname true p identity sp md) as [a|e'] eqn:E2; [split; discriminate|].
    split; [discriminate|]. intros [= ->]. apply apply_policy_with_Err in E2.
    exact (best_effort_never_missing _ _ _ _ _ _ E2).
  - intros e _ Hne. split; [discriminate|congruence].
Qed.
Print Assumptions C07_authn_response_always_answers.

(* concrete pieces of the witnesses below: a matcher that matches nothing, an attribute map that knows nothing,
   an SP that requires sn and wishes givenName, a policy that releases givenName and sn only *)
Definition no_rx (_ _ : str) : bool := false.
Definition no_ln (_ _ : str) : option str := None.
Definition w_sp : str := s2l "https://sp0.example.org/sp".
Definition w_decl : decl := {| d_name := s2l "urn:oid:2.5.4.4"; d_nf := None; d_fn := Some (s2l "sn"); d_vals := [] |}.
Definition w_opt : decl := {| d_name := s2l "urn:oid:2.5.4.42"; d_nf := None; d_fn := Some (s2l "givenName"); d_vals := [] |}.
Definition w_md : option mdview := Some {| m_req := Some ([w_decl], [w_opt]); m_ecs := [] |}.
Definition w_raw : rawpolicy :=
  Some [(DEFAULT, Some {| r_ec := None;
                          r_ar := Some (Some [(s2l "givenName", None); (s2l "sn", None)]);
                          r_fail := None |})].
Definition w_ar : restrictions := [(s2l "givenname", None); (s2l "sn", None)].
Definition w_pol : cpolicy := Some [(DEFAULT, Some {| s_ec := None; s_ar := Some (Some w_ar); s_fail := None |})].
Definition w_ident : ava := [(s2l "givenName", [s2l "Anna"]); (s2l "secret", [s2l "s3cret"])].

(* the code before proposed_fix/C07-1 (finding F3) refutes the full statement: policy releases givenName and
   sn only, the SP requires sn (absent) and wishes givenName; the whole identity incl. secret is asserted *)
Theorem C07_every_outcome_before_fix_refuted :
  exists matches lname p identity sp md a,
    authn_response_before_fix matches lname p identity sp md = Asserted a /\
    ~ permitted matches lname p sp md identity a.
Proof.
  exists no_rx, no_ln, w_pol, w_ident, w_sp, w_md, w_ident. split; [vm_compute; reflexivity|].
  intros [_ [Har _]].
  destruct (Har w_ar) with (n := s2l "secret") (vs := [s2l "s3cret"]) as [rr [Hl _]].
  - vm_compute; reflexivity.
  - discriminate.
  - right; left; reflexivity.
  - vm_compute in Hl. discriminate.
Qed.
Print Assumptions C07_every_outcome_before_fix_refuted.

(* the witness is a configured policy; the repaired code asserts givenName only *)
Example C07_witness_is_configurable :
  compile w_raw = Ok w_pol /\
  restrict no_rx no_ln w_pol w_ident w_sp w_md = Err MissingValue /\
  authn_response_before_fix no_rx no_ln w_pol w_ident w_sp w_md = Asserted w_ident /\
  authn_response no_rx no_ln w_pol w_ident w_sp w_md = Asserted [(s2l "givenName", [s2l "Anna"])] /\
  setup_assertion no_rx no_ln w_pol w_ident w_sp w_md false = ErrorResponse /\
  (* with the required attribute present the code before the repair withholds the secret too *)
  authn_response_before_fix no_rx no_ln w_pol ((s2l "sn", [s2l "X"]) :: w_ident) w_sp w_md
    = Asserted [(s2l "sn", [s2l "X"]); (s2l "givenName", [s2l "Anna"])] /\
  authn_response no_rx no_ln w_pol ((s2l "sn", [s2l "X"]) :: w_ident) w_sp w_md
    = Asserted [(s2l "sn", [s2l "X"]); (s2l "givenName", [s2l "Anna"])].
Proof. vm_compute. repeat split; reflexivity. Qed.
Print Assumptions C07_witness_is_configurable.

(* the defect exactly: in the code before the repair the only assertion outside the permitted set is the
   whole, untouched identity on the swallowed-MissingValue path -- and on that path it is ALWAYS asserted;
   on every other run the repaired function and the one before the repair agree *)
Theorem C07_before_fix_characterised :
  forall matches lname p identity sp md,
    (forall a, authn_response_before_fix matches lname p identity sp md = Asserted a ->
       permitted matches lname p sp md identity a \/
       (restrict matches lname p identity sp md = Err MissingValue /\ a = identity)) /\
    (restrict matches lname p identity sp md = Err MissingValue ->
       authn_response_before_fix matches lname p identity sp md = Asserted identity) /\
    (restrict matches lname p identity sp md <> Err MissingValue ->
       forall b, setup_assertion matches lname p identity sp md b =
                 setup_assertion_before_fix matches lname p identity sp md b).
Proof.
  intros matches lname p identity sp md. split; [|split].
  - intros a. apply authn_response_before_fix_characterised.
  - intros H. apply apply_policy_Err in H.
    unfold authn_response_before_fix. rewrite setup_assertion_before_fix_eq, H. apply answer_missing.
  - intros Hno b. rewrite setup_assertion_eq, setup_assertion_before_fix_eq. apply answer_ext.
    intros E. apply apply_policy_Err in E. exact (Hno E).
Qed.
Print Assumptions C07_before_fix_characterised.

(* the attribute authority: an exception of apply_policy leaves create_attribute_response *)
Theorem C07_attribute_response_every_outcome :
  forall matches lname p identity sp md,
    outcome_ok matches lname p sp md identity (attribute_response matches lname (Some p) identity sp md).
Proof.
  intros matches lname p identity sp md. unfold attribute_response.
  destruct identity as [|e r]; [apply permitted_nil|].
  destruct (apply_policy matches lname p (e :: r) sp md) as [a|x] eqn:E; [|exact I].
  exact (apply_policy_permitted _ _ _ _ _ _ _ E).
Qed.
Print Assumptions C07_attribute_response_every_outcome.

(* observation (not alarmed on): with NO aa policy configured create_attribute_response applies
   no policy object at all, not even the SP's declarations *)
Theorem C07_attribute_response_no_policy :
  forall matches lname identity sp md,
    attribute_response matches lname None identity sp md = Asserted identity.
Proof. exact attribute_response_no_policy. Qed.
Print Assumptions C07_attribute_response_no_policy.

(* corner (upstream semantics, not alarmed on): entity categories configured, the SP is entitled
   to nothing, declares nothing, no attribute_restrictions: no category filter is applied *)
Theorem C07_ec_entitled_to_nothing :
  forall matches lname p a sp md,
    get_entity_categories p sp md [] = Ok [] ->
    get_attribute_restrictions p sp = Ok None ->
    pfilter matches lname p a sp md [] [] = Ok a.
Proof. intros matches lname p a sp md H1 H2. unfold pfilter. rewrite H1. cbn. rewrite H2. reflexivity. Qed.
Print Assumptions C07_ec_entitled_to_nothing.

Definition ec_only (m : string) : rawpolicy :=
  Some [(DEFAULT, Some {| r_ec := Some [s2l m]; r_ar := None; r_fail := None |})].
Definition plain_md : option mdview := Some {| m_req := None; m_ecs := [] |}.
Definition run_raw (raw : rawpolicy) (identity : ava) (md : option mdview) : result ava :=
  do p <- compile raw; restrict no_rx no_ln p identity w_sp md.

(* on the regenerated tables of Gen/EntityCat.v: at_egov_pvp2 has no always-released row, so an SP without
   categories gets everything; edugain has one, so the same SP gets eduPersonTargetedID only;
   a CoCo SP gets mail only if it REQUIRES it *)
Example C07_ec_corner_on_todays_tables :
  let ident := [(s2l "eduPersonTargetedID", [s2l "t"]); (s2l "mail", [s2l "a@b"]); (s2l "secret", [s2l "s"])] in
  let coco := s2l "http://www.geant.net/uri/dataprotection-code-of-conduct/v1" in
  let mail rq := {| d_name := s2l "urn:oid:0.9.2342.19200300.100.1.3"; d_nf := None; d_fn := Some (s2l "mail"); d_vals := [] |} in
  run_raw (ec_only "at_egov_pvp2") ident plain_md = Ok ident /\
  run_raw (ec_only "edugain") ident plain_md = Ok [(s2l "eduPersonTargetedID", [s2l "t"])] /\
  run_raw (ec_only "edugain") ident (Some {| m_req := Some ([], [mail tt]); m_ecs := [coco] |})
    = Ok [(s2l "eduPersonTargetedID", [s2l "t"])] /\
  run_raw (ec_only "edugain") ident (Some {| m_req := Some ([mail tt], []); m_ecs := [coco] |})
    = Ok [(s2l "eduPersonTargetedID", [s2l "t"]); (s2l "mail", [s2l "a@b"])].
Proof. vm_compute. repeat split; reflexivity. Qed.
Print Assumptions C07_ec_corner_on_todays_tables.

(* the regenerated RELEASE / ONLY_REQUIRED maps of every module, compiled as Policy.compile does,
   are (as sets, per module and key) the documented entitlements *)
Theorem C07_entity_category_tables : tables_equiv compiled_tables documented_ec = true.
Proof. exact ec_tables_as_documented. Qed.
Print Assumptions C07_entity_category_tables.

(* (3) the entity-category clause, non-circular.  What post_entity_categories lets through is EXACTLY
   what some row of a configured module entitles this SP to ([entitles]: the name is in the row, the row
   key is the empty string or consists of categories of the SP, and for an only-required row the name is
   the lower-cased friendly name of a REQUIRED declaration) *)
Theorem C07_category_allowance_exact :
  forall maps md rq a,
    In a (post_entity_categories maps md rq) <->
    exists m em row, md = Some m /\ In em maps /\ In row em /\ entitles (m_ecs m) (req_friendly rq) row a.
Proof. exact post_ec_spec. Qed.
Print Assumptions C07_category_allowance_exact.

(* ... and for a policy compiled from its configuration over the REGENERATED Gen/EntityCat.v these rows
   are rows of the hand-written documented table [documented_ec] of a module the configuration names
   for this SP (its own entry when that has the key, else default) *)
Theorem C07_category_allowance_documented :
  forall raw p sp md rq allow a,
    compile raw = Ok p -> get_entity_categories p sp md rq = Ok allow -> In a allow ->
    exists names m mn dm row, configured_categories raw sp names /\ md = Some m /\ In mn names /\
      lookup mn documented_ec = Some dm /\ In row dm /\ entitles (m_ecs m) (req_friendly rq) row a.
Proof. exact get_ec_documented. Qed.
Print Assumptions C07_category_allowance_documented.

(* every outcome of create_authn_response, category clause against the documented table *)
Theorem C07_every_outcome_documented_categories :
  forall matches lname raw p identity sp md a,
    compile raw = Ok p -> authn_response matches lname p identity sp md = Asserted a ->
    forall allow, get_entity_categories p sp md (fst (declared md)) = Ok allow -> allow <> [] ->
    forall n vs, In (n, vs) a ->
      exists names m mn dm row, configured_categories raw sp names /\ md = Some m /\ In mn names /\
        lookup mn documented_ec = Some dm /\ In row dm /\
        entitles (m_ecs m) (req_friendly (fst (declared md))) row (lower n).
Proof.
  intros matches lname raw p identity sp md a Hc Ha allow Hal Hne n vs Hin.
  pose proof (setup_assertion_every_outcome matches lname p identity sp md true) as H.
  fold (authn_response matches lname p identity sp md) in H. rewrite Ha in H.
  destruct H as (_ & _ & H3 & _). exact (get_ec_documented _ _ _ _ _ _ _ Hc Hal (H3 allow Hal Hne n vs Hin)).
Qed.
Print Assumptions C07_every_outcome_documented_categories.

(* non-vacuity: all three filters bite on one concrete configuration *)
Definition mkd (n f : string) (vs : list (option str)) : decl :=
  {| d_name := s2l n; d_nf := None; d_fn := Some (s2l f); d_vals := vs |}.
Example C07_hypotheses_satisfiable :
  let rx (r v : str) := str_eqb r (s2l "^a") && match v with 97 :: _ => true | _ => false end in
  let raw := Some [(DEFAULT, Some {| r_ec := None;
                                     r_ar := Some (Some [(s2l "Mail", Some [s2l "^a"]); (s2l "givenName", None); (s2l "secret", None)]);
                                     r_fail := Some false |})] in
  let md := Some {| m_req := Some ([mkd "urn:oid:2.5.4.42" "givenName" []; mkd "urn:oid:2.5.4.4" "sn" []],
                                    [mkd "urn:oid:0.9.2342.19200300.100.1.3" "MAIL" []]);
                    m_ecs := [] |} in
  let ident := [(s2l "givenName", [s2l "Anna"]); (s2l "mail", [s2l "a@x"; s2l "b@x"]); (s2l "secret", [s2l "s"])] in
  exists p, compile raw = Ok p /\
    apply_policy rx no_ln p ident w_sp md = Ok [(s2l "givenName", [s2l "Anna"]); (s2l "mail", [s2l "a@x"])].
Proof. eexists. split; vm_compute; reflexivity. Qed.
Print Assumptions C07_hypotheses_satisfiable.

(* restriction LISTS of regular expressions: each expression is judged on its own *)
(* EXACT (iff): a value of a regex-restricted attribute is released iff it is an identity value and SOME SINGLE expression of
   that attribute's list matches it; `matches` is any engine (re.compile(rx).match(v)), one expression and one value at a time *)
Theorem C07_each_expression_on_its_own : forall (matches : str -> str -> bool) rest e rxs v,
  lookup (lower (fst e)) rest = Some (Some rxs) ->
  ((exists vs, favs_entry matches rest e = Some (fst e, vs) /\ In v vs) <->
   (In v (snd e) /\ exists rx, In rx rxs /\ matches rx v = true)).
Proof.
  intros matches rest e rxs v Hl. rewrite (favs_entry_values_exact matches rest e rxs v Hl).
  apply released_by_list_In.
Qed.
Print Assumptions C07_each_expression_on_its_own.

(* the outcome depends on the engine only through the (expression, value) pairs of the attribute's own list: an engine that differs
   elsewhere (a flag of one expression seen by another, the list merged into one alternation) gives the same release *)
Theorem C07_restriction_list_pointwise : forall m1 m2 rest e,
  (forall rxs rx v, lookup (lower (fst e)) rest = Some (Some rxs) -> In rx rxs -> In v (snd e) -> m1 rx v = m2 rx v) ->
  favs_entry m1 rest e = favs_entry m2 rest e.
Proof.
  intros m1 m2 rest e H. unfold favs_entry. destruct (lookup (lower (fst e)) rest) as [[rxs|]|] eqn:El; try reflexivity.
  rewrite !flat_map_concat_map, (map_ext_in _ (fun rx => filter (m2 rx) (snd e))); [reflexivity|].
  intros rx Hr. apply filter_ext_in. intros v Hv. exact (H rxs rx v eq_refl Hr Hv).
Qed.
Print Assumptions C07_restriction_list_pointwise.

Theorem C07_value_matching_no_expression_withheld : forall m rxs vals v,
  (forall rx, In rx rxs -> m rx v = false) -> ~ In v (released_by_list m rxs vals).
Proof.
  intros m rxs vals v Hn Hin. apply released_by_list_In in Hin as [_ [rx [Hr Hm]]].
  rewrite (Hn rx Hr) in Hm. discriminate.
Qed.
Print Assumptions C07_value_matching_no_expression_withheld.

(* witness: [(?i)anna; bob] - BOB matches neither expression on its own (it would under a leaked (?i) or as (?i)anna|bob) *)
Example C07_flag_does_not_leak :
  let m := tbl_matches [(s2l "(?i)anna", s2l "ANNA"); (s2l "(?i)anna", s2l "anna"); (s2l "bob", s2l "bob")] in
  favs_entry m [(s2l "givenname", Some [s2l "(?i)anna"; s2l "bob"])] (s2l "givenName", [s2l "ANNA"; s2l "BOB"; s2l "bob"])
  = Some (s2l "givenName", [s2l "ANNA"; s2l "bob"]).
Proof. vm_compute. reflexivity. Qed.
Print Assumptions C07_flag_does_not_leak.

(* the SP's categories are what its metadata lists under the entity-category Name, nothing else *)
Theorem C07_categories_only_under_their_name : forall ea c,
  In c (md_entity_categories ea) <-> exists vs, In (ENTITY_CATEGORY, vs) ea /\ In c vs.
Proof. exact md_entity_categories_In. Qed.
Print Assumptions C07_categories_only_under_their_name.

Theorem C07_other_entity_attributes_do_not_count : forall ea1 ea2 extra,
  (forall e, In e extra -> fst e <> ENTITY_CATEGORY) ->
  md_entity_categories (ea1 ++ extra ++ ea2) = md_entity_categories (ea1 ++ ea2).
Proof.
  intros ea1 ea2 extra Hx. unfold md_entity_categories, md_entity_attribute. rewrite !flat_map_app.
  fold (md_entity_attribute ENTITY_CATEGORY extra). rewrite (md_entity_attribute_absent _ _ Hx). reflexivity.
Qed.
Print Assumptions C07_other_entity_attributes_do_not_count.

(* composed with C07_category_allowance_exact / C07_every_outcome_documented_categories (whose `entitles (m_ecs m) ...` is over the
   view): with the view taken from the raw metadata, every category named by the key of an entitling row is listed under the
   entity-category Name - a value under entity-category-support never entitles *)
Theorem C07_entitlement_from_raw_metadata : forall req ea reqf row a,
  entitles (m_ecs (mdview_of req ea)) reqf row a ->
  forall k, In k (snd (fst row)) -> k = [] \/ exists vs, In (ENTITY_CATEGORY, vs) ea /\ In k vs.
Proof. intros req ea reqf row a [_ [Hk _]]. cbn [mdview_of m_ecs] in Hk. apply key_met_listed. exact Hk. Qed.
Print Assumptions C07_entitlement_from_raw_metadata.

Example C07_support_only_is_no_category :
  md_entity_categories [(ENTITY_CATEGORY_SUPPORT, [s2l "http://refeds.org/category/research-and-scholarship"]);
                        (s2l "urn:x", [s2l "c"])] = [].
Proof. vm_compute. reflexivity. Qed.
Print Assumptions C07_support_only_is_no_category.

(* identity VALUES that are not text (Model/PolicyVal.v): int, bool, float, bytes, None, nested list, tuple, dict.
   Values are a sum type text | other kind; re.match on anything but a text raises TypeError. *)

(* the list filter, for EVERY expression list and EVERY value list - IFF: what one restriction list lets through are
   exactly the TEXTS of the list that a single expression matches; a value of another kind is never among them *)
Theorem C07_value_list_releases_matched_texts_only : forall matches rxs vals out,
  filter_values_v matches rxs vals = Ok out ->
  forall v, In v out <-> In v vals /\ exists s rx, v = VText s /\ In rx rxs /\ matches rx s = true.
Proof.
  intros matches rxs vals out H v. rewrite (filter_values_v_Ok _ _ _ _ H), in_flat_map. split.
  - intros (rx & Hr & Hv). apply filter_In in Hv as [Hv Hm]. apply tmatch_true in Hm as (s & -> & Hm).
    split; [exact Hv|]. exists s, rx. split; [reflexivity|]. split; assumption.
  - intros (Hv & s & rx & -> & Hr & Hm). exists rx. split; [exact Hr|]. apply filter_In. split; assumption.
Qed.
Print Assumptions C07_value_list_releases_matched_texts_only.

(* any non-text value under a non-empty expression list and the call raises (no response) *)
Theorem C07_non_text_value_raises : forall matches rx rxs vals p,
  In (VOther p) vals -> filter_values_v matches (rx :: rxs) vals = Err TypeError.
Proof.
  intros matches rx rxs vals p H. rewrite filter_values_v_eq, (proj2 (not_all_text vals)); [reflexivity|].
  exists p; exact H.
Qed.
Print Assumptions C07_non_text_value_raises.

Theorem C07_value_list_only_error_is_non_text : forall matches rxs vals e,
  filter_values_v matches rxs vals = Err e -> e = TypeError /\ exists p, In (VOther p) vals.
Proof. exact filter_values_v_err. Qed.
Print Assumptions C07_value_list_only_error_is_non_text.

(* Policy.filter with typed values answers what the text model answers under a matcher that lets no carried non-text
   value through - so every theorem above applies to it *)
Theorem C07_typed_policy_filter : forall matches lname p a sp md rq op out,
  pfilter_t matches lname p a sp md rq op = Ok out ->
  permitted_for (vmatches matches) lname p sp md rq op a out.
Proof.
  intros matches lname p a sp md rq op out H. apply pfilter_permitted.
  pose proof (pfilter_t_refines matches lname p a sp md rq op) as R. rewrite H in R. exact R.
Qed.
Print Assumptions C07_typed_policy_filter.

(* FULL, every outcome of create_authn_response / setup_assertion (both best_effort values) / create_attribute_response
   for EVERY typed identity: an exception, an error response, or an assertion that is permitted (all four clauses) and in
   which every value of an attribute restricted by an expression list IS a text value of the identity matched by a single
   expression of that list - whatever else (of whatever kind) the identity holds *)
Theorem C07_non_text_every_outcome : forall matches lname p (vid : vava) sp md b,
  let o := setup_assertion_t matches lname p (enc_ident vid) sp md b in
  outcome_ok (vmatches matches) lname p sp md (enc_ident vid) o /\ outcome_texts_only matches p sp vid o.
Proof.
  intros matches lname p vid sp md b o.
  pose proof (setup_assertion_t_every_outcome matches lname p (enc_ident vid) sp md b) as H.
  split; [exact H|eapply outcome_ok_texts_only; exact H].
Qed.
Print Assumptions C07_non_text_every_outcome.

Theorem C07_non_text_authn_response : forall matches lname p (vid : vava) sp md a,
  authn_response_t matches lname p (enc_ident vid) sp md = Asserted a ->
  forall r, get_attribute_restrictions p sp = Ok (Some r) -> r <> [] ->
    forall n vs rxs, In (n, vs) a -> lookup (lower n) r = Some (Some rxs) ->
      forall s, In s vs -> exists ivs rx, In (n, ivs) vid /\ In (VText s) ivs /\ In rx rxs /\ matches rx s = true.
Proof.
  intros matches lname p vid sp md a H.
  pose proof (C07_non_text_every_outcome matches lname p vid sp md true) as [_ Ht].
  unfold authn_response_t in H. rewrite H in Ht. exact Ht.
Qed.
Print Assumptions C07_non_text_authn_response.

Theorem C07_non_text_attribute_response : forall matches lname p (vid : vava) sp md,
  let o := attribute_response_t matches lname (Some p) (enc_ident vid) sp md in
  outcome_ok (vmatches matches) lname p sp md (enc_ident vid) o /\ outcome_texts_only matches p sp vid o.
Proof.
  intros matches lname p vid sp md o.
  pose proof (attribute_response_t_every_outcome matches lname p (enc_ident vid) sp md) as H.
  split; [exact H|eapply outcome_ok_texts_only; exact H].
Qed.
Print Assumptions C07_non_text_attribute_response.

(* the mistake the property excludes, refuted: a filter that judges str(value) and keeps the value lets the int 5 through
   the list [\d+$] - the code raises on the same input *)
Theorem C07_str_matching_filter_refuted :
  exists matches rxs vals v, In v (filter_values_str matches rxs vals) /\ (forall s, v <> VText s) /\
                             filter_values_v matches rxs vals = Err TypeError.
Proof.
  exists witness_matches, [witness_rx], [VText (s2l "x"); VOther (s2l "5")], (VOther (s2l "5")).
  split; [vm_compute; left; reflexivity|]. split; [intros s; discriminate|vm_compute; reflexivity].
Qed.
Print Assumptions C07_str_matching_filter_refuted.

(* non-vacuity: a typed identity with a text and an int under an expression list and a text-only one *)
Example C07_non_text_hypotheses_satisfiable :
  filter_values_v witness_matches [witness_rx] [VText (s2l "5"); VText (s2l "x")] = Ok [VText (s2l "5")] /\
  favs_t witness_matches (enc_ident [(s2l "age", [VText (s2l "5"); VOther (s2l "5")])]) (Some [(s2l "age", Some [witness_rx])]) = Err TypeError /\
  favs_t witness_matches (enc_ident [(s2l "age", [VText (s2l "5"); VText (s2l "x")]); (s2l "o", [VOther (s2l "5")])])
         (Some [(s2l "age", Some [witness_rx]); (s2l "o", None)]) = Ok [(s2l "age", [s2l "5"]); (s2l "o", [SENT :: s2l "5"])].
Proof. vm_compute. repeat split. Qed.
Print Assumptions C07_non_text_hypotheses_satisfiable.
