(* Props/C18.v — name identifiers map to one principal, stably, without cross-SP linkage *)
From PV Require Import Lib.Base Model.Codec Gen.IdentConsts Model.Ident Proofs.Base64_lemmas Proofs.Url_lemmas Proofs.Ident_lemmas.
Open Scope N_scope.

(* the attribute order code/decode depend on, and the three formats told apart (regenerated tables) *)
Theorem C18_attr_order :
  ATTR = [s2l "name_qualifier"; s2l "sp_name_qualifier"; s2l "format"; s2l "sp_provided_id"; s2l "text"] /\
  str_eqb NAMEID_FORMAT_PERSISTENT NAMEID_FORMAT_TRANSIENT = false /\
  str_eqb NAMEID_FORMAT_PERSISTENT NAMEID_FORMAT_EMAILADDRESS = false /\
  str_eqb NAMEID_FORMAT_TRANSIENT NAMEID_FORMAT_EMAILADDRESS = false.
Proof. destruct formats_distinct as (TE & PE & PT). split; [reflexivity|auto]. Qed.
Print Assumptions C18_attr_order.

(* (1) the storage key coding is reversible for ARBITRARY field contents (any bytes, any length:
   separators, percent signs, spaces, UTF-8): only None and the empty string are identified *)
Theorem C18_codec_roundtrip : forall n, wfb n -> decode (code n) = Ok (norm n).
Proof. exact decode_code. Qed.
Print Assumptions C18_codec_roundtrip.

(* ... and collision-free on normalised identifiers *)
Theorem C18_codec_injective :
  (forall n1 n2, wfb n1 -> wfb n2 -> code n1 = code n2 -> norm n1 = norm n2) /\
  (forall n1 n2, wfb n1 -> wfb n2 -> norm n1 = n1 -> norm n2 = n2 -> code n1 = code n2 -> n1 = n2).
Proof.
  split; [exact code_injective|]. intros n1 n2 W1 W2 N1 N2 H. rewrite <- N1, <- N2. now apply code_injective.
Qed.
Print Assumptions C18_codec_injective.

(* ... and a code never contains the separator of the per-user list *)
Theorem C18_code_no_separator : forall n, wfb n -> forallb (fun c => negb (c =? SPACE)) (code n) = true.
Proof. exact code_no_space. Qed.
Print Assumptions C18_code_no_separator.

(* (2) the two directions of the store stay in step, for ANY sequence of operations that
   satisfies op_wfb (user ids satisfy is_user; identifier texts supplied by callers and every
   digest the random source yields do not; all strings are bytes; no raw store; e-mail
   format only without a domain): EVERY element of the code list recorded under a user decodes
   to an identifier with a non-empty text that find_local_id resolves to exactly that user;
   conversely whatever resolves to a user is recorded under that user; and two records with
   the same text are one record of one user.
   (Before fix C18-1 the first clause failed for the empty element remove_remote left behind:
   C18_persistent_empty_before_fix_refuted.) *)
Theorem C18_inverse_maps : forall (is_user : str -> bool) c ops,
  forallb (op_wfb is_user c) ops = true ->
  let d := run c [] ops in
  (forall u c0, is_user u = true -> In c0 (entries d u) ->
     exists n t, decode c0 = Ok n /\ n_text n = Some t /\ t <> [] /\ is_user t = false /\ find_local_id d n = Some u) /\
  (forall t u, is_user t = false -> lookup t d = Some u ->
     is_user u = true /\ exists c0 n, In c0 (entries d u) /\ decode c0 = Ok n /\ n_text n = Some t) /\
  (forall u1 u2 c1 c2 t, is_user u1 = true -> is_user u2 = true -> In c1 (entries d u1) -> In c2 (entries d u2) ->
     ctext c1 = Some t -> ctext c2 = Some t -> u1 = u2 /\ c1 = c2).
Proof.
  intros is_user c ops H d. pose proof (reachable_inv is_user c ops H) as I. split; [|split].
  - intros u c0. now apply inv_resolves.
  - intros t u. now apply inv_recorded.
  - intros u1 u2 c1 c2 t. now apply inv_no_sharing.
Qed.
Print Assumptions C18_inverse_maps.

(* every identifier an issuing call returns is recorded under its user, resolves to that user,
   and (4) its text was not a key of the previous state *)
Theorem C18_issued_recorded_resolves_fresh : forall (is_user : str -> bool) c ops u f sp nq cands,
  forallb (op_wfb is_user c) ops = true -> get_ok is_user c u f sp nq cands = true ->
  let d := run c [] ops in
  forall n, snd (get_nameid c d u f sp nq cands) = ONid n ->
    let d' := fst (get_nameid c d u f sp nq cands) in
    wfb n /\ In (code n) (entries d' u) /\ find_local_id d' n = Some u /\
    exists t, n_text n = Some t /\ In t cands /\ lookup t d = None.
Proof.
  intros is_user c ops u f sp nq cands H Hok d n Hn.
  now apply (get_nameid_full is_user c d u f sp nq cands (reachable_inv is_user c ops H) Hok).
Qed.
Print Assumptions C18_issued_recorded_resolves_fresh.

(* (4) freshness needs no hypothesis at all: in ANY state and for ANY digest stream the text of
   a newly issued transient identifier is not a key of the previous state (the create_id loop) *)
Theorem C18_transient_fresh : forall c d u sp nq cands d' n,
  step c d (Transient u sp nq cands) = (d', ONid n) ->
  exists t, n_text n = Some t /\ In t cands /\ lookup t d = None /\ find_local_id d' n = Some u.
Proof.
  intros c d u sp nq cands d' n H. exact (issued_fresh c d u NAMEID_FORMAT_TRANSIENT sp nq cands d' n H (proj1 formats_distinct)).
Qed.
Print Assumptions C18_transient_fresh.

(* (3) stability: in ANY state, the call after a successful persistent_nameid call returns the
   same identifier (up to None / empty string) and leaves the store alone, whatever the digest source yields *)
Theorem C18_persistent_stable : forall c d u sp nq cands d1 n,
  obytes sp -> obytes nq -> Forall (Forall byte) cands -> ~ In u cands ->
  persistent_nameid c d u sp nq cands = (d1, ONid n) ->
  forall cands', exists n', persistent_nameid c d1 u sp nq cands' = (d1, ONid n') /\ norm n' = norm n.
Proof.
  intros c d u sp nq cands d1 n Hsp Hnq Hcb Hu H cands'. unfold persistent_nameid in *.
  destruct (match_local_id d u sp nq) as [[m|]|e] eqn:M.
  - injection H as <- <-. exists m. now rewrite M.
  - exists (norm n). rewrite (match_after_issue c d u sp nq cands d1 n Hsp Hnq Hcb Hu M H).
    split; [reflexivity|apply norm_idem].
  - discriminate H.
Qed.
Print Assumptions C18_persistent_stable.

(* ... and stays what it is across any later issuing / lookup operations for anybody *)
Theorem C18_persistent_stable_under_issues : forall (is_user : str -> bool) c ops0 ops u sp nq n,
  forallb (op_wfb is_user c) ops0 = true -> is_user u = true ->
  forallb (op_wfb is_user c) ops = true -> forallb issue_only ops = true ->
  match_local_id (run c [] ops0) u sp nq = Ok (Some n) ->
  match_local_id (run c (run c [] ops0) ops) u sp nq = Ok (Some n).
Proof.
  intros is_user c ops0 ops u sp nq n H0 Hu Hw Hi M.
  apply (persistent_stable_under_issues is_user c ops (run c [] ops0) u sp nq n); auto. now apply reachable_inv.
Qed.
Print Assumptions C18_persistent_stable_under_issues.

(* (3) no linkage, FULL statement (any qualifiers, also empty ones): in every reachable state, what
   persistent_nameid / match_local_id finds for different users, or for SP qualifiers / name
   qualifiers that differ as Python reads them (None and the empty string both mean: no
   qualifier), has different texts, each resolving to its own user. *)
Theorem C18_persistent_distinct : forall (is_user : str -> bool) c ops u1 u2 sp1 sp2 nq1 nq2 n1 n2,
  forallb (op_wfb is_user c) ops = true ->
  let d := run c [] ops in
  is_user u1 = true -> is_user u2 = true ->
  match_local_id d u1 sp1 nq1 = Ok (Some n1) -> match_local_id d u2 sp2 nq2 = Ok (Some n2) ->
  u1 <> u2 \/ tr sp1 <> tr sp2 \/ tr nq1 <> tr nq2 ->
  n_text n1 <> n_text n2 /\ find_local_id d n1 = Some u1 /\ find_local_id d n2 = Some u2.
Proof.
  intros is_user c ops u1 u2 sp1 sp2 nq1 nq2 n1 n2 H d. apply persistent_distinct. now apply reachable_inv.
Qed.
Print Assumptions C18_persistent_distinct.

(* FULL statement: whatever persistent_nameid / match_local_id finds, for ANY qualifiers, has a
   non-empty text that resolves to the user asked for *)
Theorem C18_persistent_resolves : forall (is_user : str -> bool) c ops u sp nq n,
  forallb (op_wfb is_user c) ops = true -> is_user u = true ->
  match_local_id (run c [] ops) u sp nq = Ok (Some n) ->
  exists t, n_text n = Some t /\ t <> [] /\ find_local_id (run c [] ops) n = Some u.
Proof.
  intros is_user c ops u sp nq n H Hu M. apply (persistent_resolves is_user _ u sp nq n); auto. now apply reachable_inv.
Qed.
Print Assumptions C18_persistent_resolves.

(* ... and so does whatever a name-id mapping request returns (an old identifier matching the
   policy, for ANY policy, or a new one): non-empty text, resolving to the principal of the request *)
Theorem C18_mapping_resolves : forall (is_user : str -> bool) c ops n pfmt psp allow cands d' m,
  forallb (op_wfb is_user c) ops = true -> op_wfb is_user c (MapReq n pfmt psp allow cands) = true ->
  step c (run c [] ops) (MapReq n pfmt psp allow cands) = (d', ONid m) ->
  exists u t, find_local_id (run c [] ops) n = Some u /\ is_user u = true /\
              n_text m = Some t /\ t <> [] /\ find_local_id d' m = Some u.
Proof.
  intros is_user c ops n pfmt psp allow cands d' m H Hw S.
  apply (map_req_resolves is_user c (run c [] ops) n pfmt psp allow cands d' m); auto. now apply reachable_inv.
Qed.
Print Assumptions C18_mapping_resolves.

(* remove_local(u) in any reachable state (the code after fix C18-2): it returns None, afterwards u
   has no recorded identifier, no identifier text resolves to u, persistent_nameid would start
   afresh, and the records and resolutions of every OTHER user are untouched; nothing new resolves *)
Theorem C18_remove_local_withdraws : forall (is_user : str -> bool) c ops u,
  forallb (op_wfb is_user c) ops = true -> is_user u = true ->
  let d := run c [] ops in
  let d' := fst (step c d (RemoveLocal u)) in
  snd (step c d (RemoveLocal u)) = ONone /\
  entries d' u = [] /\ (forall sp nq, match_local_id d' u sp nq = Ok None) /\
  (forall n t, n_text n = Some t -> is_user t = false -> find_local_id d' n <> Some u) /\
  (forall u2, is_user u2 = true -> u2 <> u -> entries d' u2 = entries d u2) /\
  (forall n t u2, n_text n = Some t -> is_user t = false -> u2 <> u ->
     find_local_id d n = Some u2 -> find_local_id d' n = Some u2) /\
  (forall n v, find_local_id d' n = Some v -> find_local_id d n = Some v).
Proof.
  intros is_user c ops u H Hu d d'. pose proof (reachable_inv is_user c ops H) as I.
  destruct (remove_local_full is_user d u I Hu) as (R & _ & L & G & EC & K & S).
  change (fst (do_remove_local d u)) with d' in L, G, EC, K, S.
  pose proof (entries_none d' u L) as EU.
  split; [exact R|]. split; [exact EU|]. split; [intros sp nq; now rewrite match_local_id_entries, EU|].
  split; [intros n t T Ht; rewrite (find_local_id_text d' n t T); now apply G|]. split; [exact EC|].
  split; [intros n t u2 T Ht Hn; rewrite !(find_local_id_text _ n t T); now apply K|].
  intros n v. unfold find_local_id. destruct (n_text n); [apply S|discriminate].
Qed.
Print Assumptions C18_remove_local_withdraws.

(* ---------------- the code before the repairs (…_before_fix definitions of Model/Ident.v) ---------------- *)
Definition two_users (s : str) : bool := str_eqb s (s2l "u1") || str_eqb s (s2l "u2").
Definition C0 := Cfg [] [].
Definition E : option str := Some [].
Definition pers (t : str) : nameid := NameId E E (Some NAMEID_FORMAT_PERSISTENT) None (Some t).

(* C18_persistent_resolves / C18_persistent_distinct / the first clause of C18_inverse_maps did NOT hold
   for the code before fix C18-1 (remove_remote wrote the empty string back): after a remove_remote
   of the only identifier the user's list held an empty code, which decodes to an all-None identifier
   that match_local_id accepts with EMPTY qualifiers: both users got the same text-less identifier. *)
(* the histories of the three witnesses; F10 is finding F10 of DESIGN 5.1, F11 and F12 are names of this file only *)
Definition F10 : list op :=
  [Persistent (s2l "u1") E E [s2l "a"]; RemoveRemote (pers (s2l "a")); Persistent (s2l "u1") E E [s2l "b"];
   Persistent (s2l "u2") E E [s2l "c"]; RemoveRemote (pers (s2l "c")); Persistent (s2l "u2") E E [s2l "d"]].
Theorem C18_persistent_empty_before_fix_refuted :
  exists (is_user : str -> bool) c ops,
    forallb (op_wfb is_user c) ops = true /\
    nth 2 (run_outs_before_fix c [] ops) ONone = ONid empty_nid /\ nth 5 (run_outs_before_fix c [] ops) ONone = ONid empty_nid /\
    find_local_id (run_before_fix c [] ops) empty_nid = None /\
    In [] (entries (run_before_fix c [] ops) (s2l "u1")) /\
    (* the repaired code on the same history: two different identifiers, each resolving to its user *)
    nth 2 (run_outs c [] ops) ONone = ONid (pers (s2l "b")) /\ nth 5 (run_outs c [] ops) ONone = ONid (pers (s2l "d")).
Proof. exists two_users, C0, F10. vm_compute. repeat split; try reflexivity. left. reflexivity. Qed.
Print Assumptions C18_persistent_empty_before_fix_refuted.

(* same root cause, through handle_name_id_mapping_request with a policy naming neither format nor
   SP qualifier (C18_mapping_resolves did not hold before fix C18-1) *)
Definition F11 : list op :=
  [Transient (s2l "u1") (Some (s2l "sp1")) E [s2l "a"];
   RemoveRemote (NameId E (Some (s2l "sp1")) (Some NAMEID_FORMAT_TRANSIENT) None (Some (s2l "a")));
   Transient (s2l "u1") (Some (s2l "sp2")) E [s2l "b"];
   MapReq (nid_t (s2l "b")) None None None []].
Theorem C18_mapping_empty_before_fix_refuted :
  forallb (op_wfb two_users C0) F11 = true /\
  nth 3 (run_outs_before_fix C0 [] F11) ONone = ONid empty_nid /\
  nth 3 (run_outs C0 [] F11) ONone = OErr (s2l "SAMLError").      (* repaired: nothing matches, no format to create one *)
Proof. vm_compute. repeat split; reflexivity. Qed.
Print Assumptions C18_mapping_empty_before_fix_refuted.

(* C18_remove_local_withdraws did NOT hold for the code before fix C18-2: remove_local raised NameError
   (isinstance(sid, unicode) on Python 3) and withdrew nothing *)
Definition F12 : list op := [Persistent (s2l "u1") (Some (s2l "sp1")) E [s2l "a"]; RemoveLocal (s2l "u1")].
Theorem C18_remove_local_before_fix_refuted :
  forallb (op_wfb two_users C0) F12 = true /\
  nth 1 (run_outs_before_fix C0 [] F12) ONone = OErr (s2l "NameError") /\
  find_local_id (run_before_fix C0 [] F12) (nid_t (s2l "a")) = Some (s2l "u1") /\
  nth 1 (run_outs C0 [] F12) ONone = ONone /\ find_local_id (run C0 [] F12) (nid_t (s2l "a")) = None.
Proof. vm_compute. repeat split; reflexivity. Qed.
Print Assumptions C18_remove_local_before_fix_refuted.

(* ---------------- where the code does not satisfy the full statement (outside op_wfb) ---------------- *)
(* Full statement of (2) for ALL public methods: refuted for the raw store(), which re-binds an
   identifier text without looking (the record under u1 stays, the text now resolves to u2) *)
Theorem C18_raw_store_refuted :
  let n := NameId None (Some (s2l "sp1")) (Some NAMEID_FORMAT_PERSISTENT) None (Some (s2l "a")) in
  let d := run C0 [] [Store (s2l "u1") n; Store (s2l "u2") n] in
  In (code n) (entries d (s2l "u1")) /\ find_local_id d n = Some (s2l "u2").
Proof. vm_compute. split; [left|]; reflexivity. Qed.
Print Assumptions C18_raw_store_refuted.

(* Full statement of (4) for every format: refuted for the e-mail format with a domain, where
   create_id tests the digest but the identifier is digest@domain (only reachable when the digest
   source repeats itself: probability 2^-256 with sha256 over 32 random bytes) *)
Theorem C18_email_collision_refuted :
  let c := Cfg (s2l "d") [] in
  let ops := [GetNameid (s2l "u1") NAMEID_FORMAT_EMAILADDRESS None None [s2l "a"];
              GetNameid (s2l "u2") NAMEID_FORMAT_EMAILADDRESS None None [s2l "a"]] in
  exists n, nth 0 (run_outs c [] ops) ONone = ONid n /\ nth 1 (run_outs c [] ops) ONone = ONid n /\
            find_local_id (run c [] ops) n = Some (s2l "u2") /\ In (code n) (entries (run c [] ops) (s2l "u1")).
Proof. eexists. vm_compute. repeat split; try reflexivity. left. reflexivity. Qed.
Print Assumptions C18_email_collision_refuted.

(* the hypotheses are satisfiable by a non-trivial history: issue, collide, manage, map, remove,
   withdraw a user (the other user's identifier stays), issue again *)
Example C18_witness :
  let sp1 := Some (s2l "sp1") in let sp2 := Some (s2l "sp2") in
  let a := NameId E sp1 (Some NAMEID_FORMAT_PERSISTENT) None (Some (s2l "a")) in
  let ops := [Persistent (s2l "u1") sp1 E [s2l "a"]; Persistent (s2l "u2") sp1 E [s2l "a"; s2l "b"];
              Transient (s2l "u1") sp2 E [s2l "b"; s2l "a"; s2l "c"];
              Manage a (ANew (Some (s2l "x,y=z %"))); MapReq (nid_t (s2l "a")) (Some NAMEID_FORMAT_PERSISTENT) sp2 None [s2l "e"];
              Persistent (s2l "u1") sp1 E []; RemoveRemote (nid_t (s2l "c"));
              RemoveLocal (s2l "u1"); FindLocalId (nid_t (s2l "a")); FindLocalId (nid_t (s2l "e")); FindLocalId (nid_t (s2l "b"));
              FindNameid (s2l "u1") []; Persistent (s2l "u1") sp1 E [s2l "a"]] in
  forallb (op_wfb two_users C0) ops = true /\
  map show_out (run_outs C0 [] ops) =
    [show_nid a; show_nid (NameId E sp1 (Some NAMEID_FORMAT_PERSISTENT) None (Some (s2l "b")));
     show_nid (NameId E sp2 (Some NAMEID_FORMAT_TRANSIENT) None (Some (s2l "c")));
     show_nid (NameId E sp1 (Some NAMEID_FORMAT_PERSISTENT) (Some (s2l "x,y=z %")) (Some (s2l "a")));
     show_nid (NameId (Some []) sp2 (Some NAMEID_FORMAT_PERSISTENT) None (Some (s2l "e")));
     show_nid (NameId None sp1 (Some NAMEID_FORMAT_PERSISTENT) (Some (s2l "x,y=z %")) (Some (s2l "a")));
     VE (s2l "ValueError");
     VNone; VNone; VNone; VS (s2l "u2"); VL []; show_nid a].
Proof. vm_compute. split; reflexivity. Qed.
Print Assumptions C18_witness.

(* GLUE to C14 and C19 (Proofs/Glue_quote.v, docs/Glue.md): the quoting inside code() is C14's quote except that the
   slash is kept (an instance of the single round-trip theorem), and the cache key of C19 (Model/Cache.v code) is THIS
   code, read through toC (an absent or empty attribute is the empty string there): injectivity of code
   (C18 above) is injectivity of the cache key. *)
From PV Require Model.Cache Proofs.Glue_quote.
Theorem C18_code_is_the_cache_key_of_C19 :
  forall n, Cache.code (Glue_quote.toC n) = code n /\
            (forallb (fun c => negb (c =? 47)) (Glue_quote.od (n_text n)) = true ->
             quote_s (Glue_quote.od (n_text n)) = quote (Glue_quote.od (n_text n))).
Proof. intros n. split; [exact (Glue_quote.code_same n)|exact (Glue_quote.quote_s_is_codec_quote _)]. Qed.
Print Assumptions C18_code_is_the_cache_key_of_C19.

(* ---------------- FRESHNESS ACROSS PROCESSES (Model/IdentWorkers.v) ----------------
   A deployment is a list of workers; every worker has its own store (starting empty) and its own
   digest stream: the cands arguments of its operations ([stream]).  The assumption about the random
   source is explicit: [independent w1 w2] = no digest occurs in both streams (true for the OS source;
   FALSE for a generator whose state a fork duplicates: C18_workers_shared_stream_refuted).  The harness
   unit `processes` ties it: forked workers and fresh interpreters on the real code. *)
From PV Require Import Model.IdentWorkers Proofs.IdentWorkers_lemmas.

(* one process, by induction over its history, no hypothesis: every text it issues new (transient call,
   or persistent call that finds nothing) was drawn from ITS stream and was not a key of ITS store *)
Theorem C18_worker_issues_from_own_stream :
  (forall c ops d t, In t (issued_texts c d ops) -> In t (stream ops)) /\
  (forall c d o t, In t (issued_now c d o) -> In t (op_cands o) /\ lookup t d = None).
Proof. split; [exact issued_texts_in_stream|exact issued_now_spec]. Qed.
Print Assumptions C18_worker_issues_from_own_stream.

(* two processes with independent streams never issue the same text, whatever their configurations,
   stores and histories (any operations, any length) *)
Theorem C18_workers_fresh : forall c1 c2 d1 d2 w1 w2,
  independent w1 w2 -> forall t, In t (issued_texts c1 d1 w1) -> In t (issued_texts c2 d2 w2) -> False.
Proof. exact workers_fresh. Qed.
Print Assumptions C18_workers_fresh.

(* any number of workers: the observable compared with the real forked workers on every run *)
Theorem C18_deployment_disjoint : forall c ws,
  independent_all ws -> pairwise_disjointb (worker_texts c ws) = true.
Proof.
  intros c ws. unfold worker_texts. induction ws as [|w ws IH]; intros I; [reflexivity|].
  cbn [map pairwise_disjointb]. rewrite (IH (independent_all_tail _ _ I)), andb_true_r.
  apply forallb_forall. intros l Hl. apply in_map_iff in Hl as (w2 & <- & Hw2).
  apply disjointb_intro. apply (In_nth _ _ []) in Hw2 as (j & Hj & Ej).
  apply (workers_fresh c c [] [] w w2). specialize (I 0%nat (S j)). cbn [nth] in I. rewrite Ej in I.
  apply I. discriminate.
Qed.
Print Assumptions C18_deployment_disjoint.

(* step level: a transient identifier issued at any point of one worker's history and one issued at any
   point of another's have different texts; each resolves to its own user in its own store - no
   identifier goes to two users *)
Theorem C18_workers_transient_distinct :
  forall c1 c2 pre1 pre2 post1 post2 u1 u2 sp1 sp2 nq1 nq2 cands1 cands2 d1 d2 n1 n2,
  independent (pre1 ++ Transient u1 sp1 nq1 cands1 :: post1) (pre2 ++ Transient u2 sp2 nq2 cands2 :: post2) ->
  step c1 (run c1 [] pre1) (Transient u1 sp1 nq1 cands1) = (d1, ONid n1) ->
  step c2 (run c2 [] pre2) (Transient u2 sp2 nq2 cands2) = (d2, ONid n2) ->
  n_text n1 <> n_text n2 /\ find_local_id d1 n1 = Some u1 /\ find_local_id d2 n2 = Some u2.
Proof.
  intros c1 c2 pre1 pre2 post1 post2 u1 u2 sp1 sp2 nq1 nq2 cands1 cands2 d1 d2 n1 n2. intros I S1 S2. cbn [step] in S1, S2.
  destruct (issued_fresh _ _ _ _ _ _ _ _ _ S1 (proj1 formats_distinct)) as (t1 & E1 & In1 & _ & R1).
  destruct (issued_fresh _ _ _ _ _ _ _ _ _ S2 (proj1 formats_distinct)) as (t2 & E2 & In2 & _ & R2).
  repeat split; try assumption. rewrite E1, E2. intros E. injection E as E. subst t2.
  apply (I t1).
  - apply in_stream_mid. exact In1.
  - apply in_stream_mid. exact In2.
Qed.
Print Assumptions C18_workers_transient_distinct.

(* without the assumption (the fork duplicated the generator state: equal streams) the statement is
   false: the same text goes to u1 in one worker and to u2 in the other *)
Theorem C18_workers_shared_stream_refuted :
  let sp1 := Some (s2l "sp1") in
  let w1 := [Transient (s2l "u1") sp1 None [s2l "a"]] in
  let w2 := [Transient (s2l "u2") sp1 None [s2l "a"]] in
  stream w1 = stream w2 /\
  issued_texts C0 [] w1 = [s2l "a"] /\ issued_texts C0 [] w2 = [s2l "a"] /\
  find_local_id (run C0 [] w1) (nid_t (s2l "a")) = Some (s2l "u1") /\
  find_local_id (run C0 [] w2) (nid_t (s2l "a")) = Some (s2l "u2") /\
  pairwise_disjointb (worker_texts C0 [w1; w2]) = false.
Proof. vm_compute. repeat split; reflexivity. Qed.
Print Assumptions C18_workers_shared_stream_refuted.

(* the assumption is satisfiable by non-trivial workers (collision inside a worker, persistent found again) *)
Example C18_workers_witness :
  let sp1 := Some (s2l "sp1") in
  let w1 := [Transient (s2l "u1") sp1 None [s2l "a"]; Transient (s2l "u2") sp1 None [s2l "a"; s2l "b"];
             Persistent (s2l "u1") sp1 None [s2l "c"]; Persistent (s2l "u1") sp1 None [s2l "d"]] in
  let w2 := [Transient (s2l "u3") sp1 None [s2l "e"]; Persistent (s2l "u3") sp1 None [s2l "f"]] in
  independent w1 w2 /\
  worker_texts C0 [w1; w2] = [[s2l "a"; s2l "b"; s2l "c"]; [s2l "e"; s2l "f"]] /\
  pairwise_disjointb (worker_texts C0 [w1; w2]) = true.
Proof.
  cbv zeta. split; [|vm_compute; split; reflexivity].
  unfold independent. apply disjointb_elim. reflexivity.
Qed.
Print Assumptions C18_workers_witness.
