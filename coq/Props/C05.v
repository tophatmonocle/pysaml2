(* Props/C05.v — responses are accepted only if addressed to this SP and solicited.
   "accepted" = Entity._parse_response returns normally: parse_response c r = Ok o.
   [processed r] = the assertions (plain and decrypted) the application may read. *)
From PV Require Import Lib.Base Model.Status Model.Response Model.Endpoints Proofs.Response_lemmas Proofs.C05_lemmas Proofs.Endpoints_lemmas.
Open Scope Z_scope.

(* Unless unsolicited responses are allowed: InResponseTo identifies an
   outstanding request, and every RETAINED bearer confirmation (plain or
   decrypted assertion, at any position) that names a request names that one *)
Theorem C05_solicited :
  forall c r o, parse_response c r = Ok o -> asynch c = true -> allow_unsolicited c = false ->
    (exists i cf, r_irt r = Some i /\ lookup_str i (outstanding c) = Some cf) /\
    Forall (fun a => exists kept, kept <> [] /\ incl kept (a_confirmations a) /\
       Forall (fun sc => forall d x, c_method sc = Bearer -> c_data sc = Some d -> d_irt d = Some x -> r_irt r = Some x) kept)
      (processed r).
Proof.
  intros c r o H Ha Hu. destruct (accepted_processed c r o H) as (_ & _ & Hs).
  destruct (Hs Ha Hu) as (i & cf & Hi & Hl). split; [now exists i, cf|].
  apply (retained_of_accepted c r o _ H). intros sc Hsc d x Hm Hd Hx.
  destruct (conf_ok_bearer _ _ _ _ Hsc Hm Hd) as (Hn & _).
  unfold names_other_request in Hn. rewrite Ha, Hu, Hx, Hi in Hn. cbn in Hn.
  apply negb_false_iff, str_eqb_eq in Hn. now subst x.
Qed.
Print Assumptions C05_solicited.

(* Browser binding: a Destination, when present, matches the configured pattern,
   or (no pattern) is one of the own endpoints for that binding — independently
   of allow_unsolicited, also when the SP has no endpoint for the binding *)
Theorem C05_destination :
  forall c r o, parse_response c r = Ok o -> asynch c = true ->
    forall d, r_destination r = Some d ->
      (dest_regex_set c = true -> dest_regex_match c = true) /\
      (dest_regex_set c = false -> exists addrs, return_addrs c = Some addrs /\ In d addrs).
Proof.
  intros c r o H Ha d Hd. destruct (accepted_processed c r o H) as (_ & Hdest & _).
  destruct (Hdest Ha d Hd) as [A B]. split; [exact A|]. intros Hr. destruct (B Hr) as (addrs & H1 & H2).
  exists addrs. split; [exact H1|]. now apply mem_str_In.
Qed.
Print Assumptions C05_destination.

(* EVERY audience restriction of every accepted assertion lists this SP —
   whatever allow_unsolicited says (full statement; holds since the two fix:
   commits recorded in known_findings.json) *)
Theorem C05_audience :
  forall c r o, parse_response c r = Ok o -> test_mode c = false ->
    Forall (fun a => forall k, a_conditions a = Some k -> k_empty k = false ->
               forall auds, In auds (k_audiences k) -> auds <> [] -> In (entity_id c) auds) (processed r).
Proof.
  intros c r o H Ht. destruct (accepted_processed c r o H) as (Hall & _).
  eapply Forall_impl; [|exact Hall]. intros a Fa k Hk He auds Hin Hne.
  pose proof (af_audience _ _ _ Fa k Hk He Ht) as F. unfold for_me in F. rewrite forallb_forall in F.
  specialize (F auds Hin). destruct auds as [|x xs]; [congruence|]. now apply mem_str_In.
Qed.
Print Assumptions C05_audience.

(* record of the repaired defects: the pre-fix audience test accepted what the statement forbids *)
Theorem C05_audience_before_fix_refuted :
  let other := s2l "https://other.example.org/sp" in let me := s2l "https://sp.example.org/sp" in
  let k := {| k_empty := false; k_nb := None; k_nooa := None; k_audiences := [[me]; [other]]; k_unknown_condition := false |} in
  for_me_before_fix k me = true /\ for_me k me = false.
Proof. vm_compute. split; reflexivity. Qed.
Print Assumptions C05_audience_before_fix_refuted.

(* With conversation information every retained confirmation's Recipient is the
   entity id given there or one of the own endpoints *)
Theorem C05_recipient :
  forall c r o ci, parse_response c r = Ok o -> conv_info c = Some ci ->
    Forall (fun a => exists kept, kept <> [] /\ incl kept (a_confirmations a) /\
       Forall (fun sc => exists d rcp, c_data sc = Some d /\ d_recipient d = Some rcp /\
                  (ci_entity_id ci = Some rcp \/ exists addrs, return_addrs c = Some addrs /\ In rcp addrs)) kept)
      (processed r).
Proof.
  intros c r o ci H Hc. apply (retained_of_accepted c r o _ H).
  intros sc Hsc. destruct (conf_ok_data _ _ _ Hsc) as (d & rcp & Hd & Hr & Hv). exists d, rcp.
  split; [exact Hd|]. split; [exact Hr|exact (verify_recipient_true _ _ _ Hc Hv)].
Qed.
Print Assumptions C05_recipient.

(* non-vacuity: a well-addressed solicited response is accepted; the same with a foreign audience is not *)
Definition me := s2l "https://sp.example.org/sp".
Definition acs := s2l "https://sp.example.org/acs/post".
Definition cfg0 := {| entity_id := me; return_addrs := Some [acs]; wrs := false; was := false; waors := false;
  allow_unsolicited := false; dest_regex_set := false; dest_regex_match := false; slack := 0; now := 1000000;
  asynch := true; outstanding := [(s2l "req-1", s2l "/home")]; conv_info := Some {| ci_entity_id := Some me; ci_remote_addr := None |};
  test_mode := false |}.
Definition conf0 := {| c_method := Bearer; c_data := Some {| d_address := None; d_address_valid := true; d_nooa := Some 1000300;
  d_nb := None; d_irt := Some (s2l "req-1"); d_recipient := Some acs |} |}.
Definition asrt (auds : list (list str)) := {| a_id := 1%N; a_sig := None; a_authn := [None];
  a_conditions := Some {| k_empty := false; k_nb := Some 999700; k_nooa := Some 1000300; k_audiences := auds; k_unknown_condition := false |};
  a_has_subject := true; a_confirmations := [conf0]; a_name_id := Some (s2l "alice") |}.
Definition resp0 (auds : list (list str)) := {| r_sig := None; r_valid_instance := true; r_irt := Some (s2l "req-1");
  r_version := Some V20; r_ver_lt2 := Some false; r_destination := Some acs; r_issue_instant := 1000000;
  r_status := Some {| st_code := Some (Code (Some Gen.StatusTable.STATUS_SUCCESS) None); st_msg := false |};
  r_assertions := [asrt auds]; r_encrypted := [] |}.
Example C05_witness :
  is_ok (parse_response cfg0 (resp0 [[me]])) = true /\
  is_ok (parse_response cfg0 (resp0 [[me]; [s2l "https://other.example.org/sp"]])) = false.
Proof. vm_compute. split; reflexivity. Qed.
Print Assumptions C05_witness.

(* ------------------------------------------------------------------------
   The endpoint table quantified per binding (Model/Endpoints.v): the SP is
   configured with an arbitrary assertion_consumer_service table [acs_table ec] and
   the response arrives over an arbitrary binding [arriving ec]; the expected
   return addresses are what Base.service_urls computes from the two.
   [registered_for eps b u]: u is listed with binding b, or no entry carries b
   and u is listed without a binding. *)

(* what service_urls hands out is exactly the set registered FOR THAT BINDING *)
Theorem C05_service_urls_exact :
  forall eps b,
    (forall l, service_urls eps b = Some l -> forall u, In u l <-> registered_for eps b u) /\
    (service_urls eps b = None -> forall u, ~ registered_for eps b u).
Proof. intros eps b. split; [exact (service_urls_some eps b)|exact (service_urls_none eps b)]. Qed.
Print Assumptions C05_service_urls_exact.

(* an accepted Destination is an endpoint registered for the arriving binding (or matches the pattern) *)
Theorem C05_destination_for_binding :
  forall ec r o, parse_authn_response ec r = Ok o -> browser_binding (arriving ec) = true ->
    forall d, r_destination r = Some d ->
      (dest_regex_set (base ec) = true -> dest_regex_match (base ec) = true) /\
      (dest_regex_set (base ec) = false -> registered_for (acs_table ec) (arriving ec) d).
Proof.
  intros ec r o H Hb d Hd. destruct (C05_destination (cfg_of ec) r o H Hb d Hd) as [A B].
  split; [exact A|]. intros Hr. destruct (B Hr) as (addrs & H1 & H2).
  cbn [cfg_of return_addrs] in H1. now apply (service_urls_some _ _ _ H1).
Qed.
Print Assumptions C05_destination_for_binding.

(* in particular: the SP's own endpoint of ANOTHER binding, a foreign URL, anything not listed
   for the arriving binding is refused when no pattern is configured — also when the SP has
   no endpoint at all for the arriving binding *)
Theorem C05_destination_other_binding_refused :
  forall ec r d, browser_binding (arriving ec) = true -> dest_regex_set (base ec) = false ->
    r_destination r = Some d -> ~ In (EP d (arriving ec)) (acs_table ec) -> ~ In (Unspec d) (acs_table ec) ->
    is_ok (parse_authn_response ec r) = false.
Proof.
  intros ec r d Hb Hr Hd H1 H2. destruct (parse_authn_response ec r) as [o|e] eqn:Ep; [|reflexivity].
  exfalso. destruct (C05_destination_for_binding ec r o Ep Hb d Hd) as [_ B].
  exact (other_binding_not_registered _ _ _ H1 H2 (B Hr)).
Qed.
Print Assumptions C05_destination_other_binding_refused.

(* with conversation information every retained confirmation's Recipient is the entity id given
   there or an endpoint registered for the arriving binding *)
Theorem C05_recipient_for_binding :
  forall ec r o ci, parse_authn_response ec r = Ok o -> conv_info (base ec) = Some ci ->
    Forall (fun a => exists kept, kept <> [] /\ incl kept (a_confirmations a) /\
       Forall (fun sc => exists d rcp, c_data sc = Some d /\ d_recipient d = Some rcp /\
                  (ci_entity_id ci = Some rcp \/ registered_for (acs_table ec) (arriving ec) rcp)) kept)
      (processed r).
Proof.
  intros ec r o ci H Hc. pose proof (C05_recipient (cfg_of ec) r o ci H Hc) as F.
  eapply Forall_impl; [|exact F]. intros a (kept & Hne & Hin & Hk). exists kept. split; [exact Hne|]. split; [exact Hin|].
  eapply Forall_impl; [|exact Hk]. intros sc (d & rcp & Hd & Hr & [He|(addrs & H1 & H2)]); exists d, rcp; (split; [exact Hd|]); (split; [exact Hr|]).
  - now left.
  - right. cbn [cfg_of return_addrs] in H1. now apply (service_urls_some _ _ _ H1).
Qed.
Print Assumptions C05_recipient_for_binding.

(* the solicited clause for a call: browser binding = any binding other than SOAP / PAOS *)
Theorem C05_solicited_call :
  forall ec r o, parse_authn_response ec r = Ok o -> browser_binding (arriving ec) = true ->
    allow_unsolicited (base ec) = false ->
    (exists i cf, r_irt r = Some i /\ lookup_str i (outstanding (base ec)) = Some cf) /\
    Forall (fun a => exists kept, kept <> [] /\ incl kept (a_confirmations a) /\
       Forall (fun sc => forall d x, c_method sc = Bearer -> c_data sc = Some d -> d_irt d = Some x -> r_irt r = Some x) kept)
      (processed r).
Proof. intros ec r o H Hb Hu. exact (C05_solicited (cfg_of ec) r o H Hb Hu). Qed.
Print Assumptions C05_solicited_call.

(* a history of calls on ONE long-lived SP (fixed endpoint table; binding, outstanding requests,
   conversation info, clock, pattern verdict and message free per call): whatever came before,
   the n-th call, when accepted, satisfies the addressing clauses for ITS OWN binding *)
Theorem C05_history :
  forall eps (calls : list call) n c b r o,
    nth_error calls n = Some (c, b, r) -> nth_error (run_calls eps calls) n = Some (Ok o) ->
    browser_binding b = true ->
    (forall d, r_destination r = Some d ->
       (dest_regex_set c = true -> dest_regex_match c = true) /\
       (dest_regex_set c = false -> registered_for eps b d)) /\
    (allow_unsolicited c = false -> exists i cf, r_irt r = Some i /\ lookup_str i (outstanding c) = Some cf).
Proof.
  intros eps calls n c b r o Hn Hr Hb. rewrite nth_error_run_calls, Hn in Hr. injection Hr as Hr.
  split.
  - intros d Hd. exact (C05_destination_for_binding {| base := c; acs_table := eps; arriving := b |} r o Hr Hb d Hd).
  - intros Hu. exact (proj1 (C05_solicited_call {| base := c; acs_table := eps; arriving := b |} r o Hr Hb Hu)).
Qed.
Print Assumptions C05_history.

(* non-vacuity / the situation itself: ACS endpoints for POST and Artifact only.  Over POST the POST
   endpoint is accepted; over Redirect the same Destination (own endpoint of another binding) is
   refused, so is a response whose only fault is a Recipient naming the POST endpoint; a
   Destination-less response with Recipient = entity id is accepted over Redirect *)
Definition acs_art := s2l "https://sp.example.org/acs/artifact".
Definition tbl_pa := [EP acs B_POST; EP acs_art B_ARTIFACT].
Definition conf_me := {| c_method := Bearer; c_data := Some {| d_address := None; d_address_valid := true; d_nooa := Some 1000300;
  d_nb := None; d_irt := Some (s2l "req-1"); d_recipient := Some me |} |}.
Definition resp1 (dest : option str) (cf : confirmation) := {| r_sig := None; r_valid_instance := true; r_irt := Some (s2l "req-1");
  r_version := Some V20; r_ver_lt2 := Some false; r_destination := dest; r_issue_instant := 1000000;
  r_status := Some {| st_code := Some (Code (Some Gen.StatusTable.STATUS_SUCCESS) None); st_msg := false |};
  r_assertions := [{| a_id := 1%N; a_sig := None; a_authn := [None];
     a_conditions := Some {| k_empty := false; k_nb := Some 999700; k_nooa := Some 1000300; k_audiences := [[me]]; k_unknown_condition := false |};
     a_has_subject := true; a_confirmations := [cf]; a_name_id := Some (s2l "alice") |}]; r_encrypted := [] |}.
Example C05_binding_witness :
  is_ok (parse_authn_response {| base := cfg0; acs_table := tbl_pa; arriving := B_POST |} (resp1 (Some acs) conf0)) = true /\
  is_ok (parse_authn_response {| base := cfg0; acs_table := tbl_pa; arriving := B_REDIRECT |} (resp1 (Some acs) conf_me)) = false /\
  is_ok (parse_authn_response {| base := cfg0; acs_table := tbl_pa; arriving := B_REDIRECT |} (resp1 None conf0)) = false /\
  is_ok (parse_authn_response {| base := cfg0; acs_table := tbl_pa; arriving := B_REDIRECT |} (resp1 None conf_me)) = true /\
  is_ok (parse_authn_response {| base := cfg0; acs_table := tbl_pa; arriving := B_ARTIFACT |} (resp1 (Some acs_art) conf_me)) = true.
Proof. vm_compute. repeat split; reflexivity. Qed.
Print Assumptions C05_binding_witness.

(* ---------------------------------------------------------------- the SPELLING of allow_unsolicited
   The solicited clause in terms of the EFFECTIVE option value: the SP is built from a configuration of
   any class (SPConfig / Config / IdPConfig ...) whose sp section writes allow_unsolicited in any way
   (absent, None, a bool, any string, any int) beside any other arguments and role sections; the value
   goes through Config.load / load_special / getattr and Base.__init__ (Model/Client.v, reused from C02). *)
From PV Require Import Model.Client Model.C05Opts Proofs.Client_lemmas Proofs.C05Opts_lemmas.

Theorem C05_solicited_effective :
  forall sc r o, parse_spelled sc r = Ok o -> browser_binding (arriving (s_call sc)) = true ->
    effective sc = false ->
    (exists i cf, r_irt r = Some i /\ lookup_str i (outstanding (base (s_call sc))) = Some cf) /\
    Forall (fun a => exists kept, kept <> [] /\ incl kept (a_confirmations a) /\
       Forall (fun sc => forall d x, c_method sc = Bearer -> c_data sc = Some d -> d_irt d = Some x -> r_irt r = Some x) kept)
      (processed r).
Proof. intros sc r o H Hb He. exact (C05_solicited_call (ecfg_of sc) r o H Hb He). Qed.
Print Assumptions C05_solicited_effective.

(* the effective value is the coercion of what the sp section says — whatever the configuration class,
   the other role sections and the other sp arguments: exact true / false strings are the booleans,
   None and absence are the default False, everything else counts by its truth *)
Theorem C05_effective_is_coerced :
  forall dc others rest s, assigned AU rest = None -> effective_unsolicited dc others rest s = coerced s.
Proof. exact effective_coerced. Qed.
Print Assumptions C05_effective_is_coerced.

Theorem C05_false_string_is_False :
  forall dc others rest,
    effective_unsolicited dc others rest (Val (CStr (s2l "false"))) = effective_unsolicited dc others rest (Val (CBool false)) /\
    effective_unsolicited dc others rest (Val (CStr (s2l "false"))) = false /\
    effective_unsolicited dc others rest (Val (CStr (s2l "true"))) = effective_unsolicited dc others rest (Val (CBool true)).
Proof. intros. split; [apply false_string_is_False|]. split; [apply false_string_refuses|apply true_string_is_True]. Qed.
Print Assumptions C05_false_string_is_False.

(* exactly these spellings refuse unsolicited responses: absent, None, False, the string false, the empty string, 0 *)
Theorem C05_refusing_spellings :
  forall dc others rest s, assigned AU rest = None ->
    (effective_unsolicited dc others rest s = false <-> means_refuse s).
Proof. intros dc others rest s Hr. rewrite (effective_coerced dc others rest s Hr). apply coerced_false_iff. Qed.
Print Assumptions C05_refusing_spellings.

(* the statement of the property for an SP configured with one of those spellings *)
Theorem C05_solicited_spelled :
  forall sc r o, parse_spelled sc r = Ok o -> browser_binding (arriving (s_call sc)) = true ->
    assigned AU (s_rest sc) = None -> means_refuse (s_spell sc) ->
    (exists i cf, r_irt r = Some i /\ lookup_str i (outstanding (base (s_call sc))) = Some cf) /\
    Forall (fun a => exists kept, kept <> [] /\ incl kept (a_confirmations a) /\
       Forall (fun sc => forall d x, c_method sc = Bearer -> c_data sc = Some d -> d_irt d = Some x -> r_irt r = Some x) kept)
      (processed r).
Proof.
  intros sc r o H Hb Hr Hs. apply (C05_solicited_effective sc r o H Hb).
  unfold effective. now apply C05_refusing_spellings.
Qed.
Print Assumptions C05_solicited_spelled.

(* histories: the option is resolved once, when the SP object is made; the n-th call of ANY sequence of
   calls on that object, over a browser binding, when accepted, answers an outstanding request *)
Theorem C05_spelled_history :
  forall sc (calls : list call) n c b r o,
    nth_error calls n = Some (c, b, r) -> nth_error (run_spelled sc calls) n = Some (Ok o) ->
    browser_binding b = true -> effective sc = false ->
    exists i cf, r_irt r = Some i /\ lookup_str i (outstanding c) = Some cf.
Proof.
  intros sc calls n c b r o Hn Hr Hb He. rewrite nth_error_run_spelled, Hn in Hr. injection Hr as Hr.
  exact (proj1 (C05_solicited_call {| base := with_unsolicited (effective sc) c; acs_table := acs_table (s_call sc); arriving := b |} r o Hr Hb He)).
Qed.
Print Assumptions C05_spelled_history.

(* non-vacuity and the situation itself: the SP of C05_witness configured with the STRING false
   accepts the solicited response and refuses the same response once its request is no longer
   outstanding; configured with the string False (capital F: not coerced, a non-empty string) it accepts it *)
Example C05_spelling_witness :
  let sc := fun s outs => {| s_call := {| base := {| entity_id := me; return_addrs := None; wrs := false; was := false; waors := false;
                 allow_unsolicited := true; dest_regex_set := false; dest_regex_match := false; slack := 0; now := 1000000;
                 asynch := false; outstanding := outs; conv_info := None; test_mode := false |};
               acs_table := tbl_pa; arriving := B_POST |};
             s_class := s2l "sp"; s_others := []; s_rest := [(WRS, CBool false)]; s_spell := s |} in
  let rq := [(s2l "req-1", s2l "/")] in
  is_ok (parse_spelled (sc (Val (CStr (s2l "false"))) rq) (resp1 (Some acs) conf_me)) = true /\
  is_ok (parse_spelled (sc (Val (CStr (s2l "false"))) []) (resp1 (Some acs) conf_me)) = false /\
  is_ok (parse_spelled (sc Absent []) (resp1 (Some acs) conf_me)) = false /\
  is_ok (parse_spelled (sc (IntVal 0) []) (resp1 (Some acs) conf_me)) = false /\
  is_ok (parse_spelled (sc (Val (CStr (s2l "true"))) []) (resp1 (Some acs) conf_me)) = true /\
  is_ok (parse_spelled (sc (Val (CStr (s2l "False"))) []) (resp1 (Some acs) conf_me)) = true.
Proof. vm_compute. repeat split. Qed.
Print Assumptions C05_spelling_witness.
