(* Props/C01.v — accepted signed content is exactly what its signature covers.

   Model: Model/Xsw.v.  [tool_verify] is the node selection of `xmlsec1 --verify --id-attr:ID <name>
   [--node-id <id>]` as the stand-in tool implements it (DESIGN.md 4.3), for the three duplicate-ID
   policies; [precheck] is sigver._enveloped_signature_ok, [check_signature_x] what
   SecurityContext._check_signature does with the selected certificates (pre-check, then some candidate
   certificate must verify), [check_signature_before_fix] the same without the pre-check.
   Cryptography is symbolic: a digest is the digested tree, a signature value is intact or not and names
   the key that made it.  All statements are for documents of any size and shape. *)
From PV Require Import Lib.Base Model.Status Model.Response Model.Xsw Proofs.Response_lemmas Proofs.C02_lemmas
  Proofs.Xsw_lemmas Proofs.C01_pipeline.
From PV Require Import Model.XswIds Proofs.XswIds_lemmas.
From PV Require Import Model.XswOpts Proofs.XswOpts_lemmas Model.MultiAssertion Proofs.MultiAssertion_lemmas.
Open Scope N_scope.

(* (0) Digest equality is structural equality (used everywhere below). *)
Theorem C01_digest_equal_iff_same_content : forall a b, tree_eqb a b = true <-> a = b.
Proof. intros a b. split; [apply tree_eqb_sound|intros ->; apply tree_eqb_refl]. Qed.
Print Assumptions C01_digest_equal_iff_same_content.

(* (1) What a positive answer of the tool means, WITHOUT any pre-check: the signature processed is the first
   one in document order at or below the start node (the element registered under the requested ID, or the
   root), its value is intact under the certificate's key, and each of its references resolves to SOME
   registered element whose present content (minus the processed signature when inside) is the digested one.
   Nothing ties those elements to the start node — that is the wrapping gap. *)
Theorem C01_verify_ok_covered :
  forall pol doc nm i cert,
    tool_verify pol doc nm i cert = true ->
    exists px X p refs sid spl skids,
      (match i with
       | Some v => lookup pol v (registered nm doc) = Some px /\ t_id X = Some v /\ t_name X = nm
       | None => px = []
       end) /\
      subtree_at px doc = Some X /\
      first_sig_incl X = Some p /\
      subtree_at (px ++ p) doc = Some (Sg refs cert true sid spl skids) /\
      refs <> [] /\
      Forall (ref_covered pol doc nm (px ++ p)) refs.
Proof. exact verify_ok_covered. Qed.
Print Assumptions C01_verify_ok_covered.

(* (2) The property, element level, for the code with the pre-check: whenever _check_signature accepts
   (any document, any node name, any ID, any candidate list, any duplicate-ID policy of the tool) then
   [covered doc nm v certs px X k D] holds:
     - the ID v is non-empty and X = El nm (Some v) .. is the node at path px;
     - NO OTHER NODE of the document carries ID v (so whatever pysaml2 parsed from an element with that ID,
       it parsed from X);
     - child k of X is a signature with the single reference "#v", an intact value and a key among the
       candidate certificates; it is X's only Signature child and the first signature in document order
       inside X (the one the tool processed);
     - the digested content D is exactly X with that child removed. *)
Theorem C01_relied_is_covered :
  forall pol doc nm i certs,
    check_signature_x pol doc nm i certs = true ->
    exists v px X k D, i = Some v /\ covered doc nm v certs px X k D.
Proof. exact relied_is_covered. Qed.
Print Assumptions C01_relied_is_covered.

(* the fields of [covered], spelled out (so the statement can be read here) *)
Theorem C01_covered_means :
  forall doc nm v certs px X k D, covered doc nm v certs px X k D ->
    v <> [] /\
    subtree_at px doc = Some X /\
    (exists pl kids, X = El nm (Some v) pl kids) /\
    (forall q Y, subtree_at q doc = Some Y -> t_id Y = Some v -> q = px) /\
    (exists key sid spl skids, nth_error (t_kids X) k = Some (Sg [(HASH :: v, D)] key true sid spl skids) /\ In key certs) /\
    (forall j c, nth_error (t_kids X) j = Some c -> is_sig c = true -> j = k) /\
    first_sig X = Some [k] /\
    D = with_kids X (remove_nth k (t_kids X)).
Proof. intros doc nm v certs px X k D [H1 H2 H3 H4 H5 H6 H7 H8]. repeat split; assumption. Qed.
Print Assumptions C01_covered_means.

(* (3) In the quantifier's terms.  [assembled protected d0 d]: d is ANY document put together from parts of
   d0 (copy / move / relocate), arbitrary new elements around them (edit / wrap / nest / duplicate, any IDs),
   arbitrary signatures that are not valid under a protected key, and original signatures kept verbatim but
   re-dressed (other attributes, KeyInfo, ds:Object content).  If such a document is accepted under
   certificates whose keys are protected, the element relied upon, minus its signature child, is a content
   that a protected key signed IN d0 under that same ID: every other arrangement is rejected. *)
Theorem C01_mutation_rejected :
  forall protected d0 d pol nm i certs,
    (forall c, In c certs -> In c protected) ->
    assembled protected d0 d ->
    check_signature_x pol d nm i certs = true ->
    exists v px X k D, i = Some v /\ covered d nm v certs px X k D /\ signed_in protected d0 [(HASH :: v, D)].
Proof. exact mutation_rejected. Qed.
Print Assumptions C01_mutation_rejected.

(* the closure is closed under sequences of mutations: a document assembled from an assembled document is assembled
   from the original (and the original is assembled from itself) *)
Theorem C01_mutations_compose :
  forall protected d0 d t,
    assembled protected d0 d0 /\
    (assembled protected d0 d -> assembled protected d t -> assembled protected d0 t).
Proof. intros protected d0 d t. split; [apply assembled_refl|intros H1 H2; eapply assembled_trans; eauto]. Qed.
Print Assumptions C01_mutations_compose.

(* the same for an attacker holding any number of documents, stated with the unforgeability invariant:
   in a document where every signature value valid under a protected key stands over a SignedInfo its owner
   produced, acceptance implies the relied content was signed by that owner under that ID *)
Theorem C01_accepted_content_was_signed :
  forall protected (signed : list (str * tree) -> Prop) pol doc nm i certs,
    derivable protected signed doc -> (forall c, In c certs -> In c protected) ->
    check_signature_x pol doc nm i certs = true ->
    exists v px X k D, i = Some v /\ covered doc nm v certs px X k D /\ signed [(HASH :: v, D)].
Proof. exact accepted_content_was_signed. Qed.
Print Assumptions C01_accepted_content_was_signed.

(* (3') Tie to the SP pipeline (Model/Response.v, the model C02 is proved about; its signature verdicts are
   inputs).  HYPOTHESES (the composition step that is tested, not proved): a positive verdict recorded for
   the response was produced by _check_signature on the received text [sent] with the response's name and
   ID, and a positive verdict recorded for an assertion the application may read ([processed r]: plain ones
   and the decrypted ones) by _check_signature on the text handed to the tool for it ([atext a]) with the
   assertion's name and ID.  Then, for every configuration and content: if the response is accepted, every
   signature pysaml2 saw covers its element; want_response_signed => the response element is covered;
   want_assertions_signed => every assertion read is covered; want_assertions_or_response_signed => one of
   the two. *)
Theorem C01_pipeline_relied_covered :
  forall pol certs RESPn ASSNn sent c r rid atext aid,
    (r_sig r = Some (Ok tt) -> check_signature_x pol sent RESPn rid certs = true) ->
    (forall a, In a (processed r) -> a_sig a = Some (Ok tt) -> check_signature_x pol (atext a) ASSNn (aid a) certs = true) ->
    forall o, parse_response c r = Ok o ->
      (present (r_sig r) = true -> elem_covered certs sent RESPn rid) /\
      (forall a, In a (processed r) -> present (a_sig a) = true -> elem_covered certs (atext a) ASSNn (aid a)) /\
      (wrs c = true -> elem_covered certs sent RESPn rid) /\
      (was c = true -> forall a, In a (processed r) -> elem_covered certs (atext a) ASSNn (aid a)) /\
      (waors c = true -> elem_covered certs sent RESPn rid \/
                         forall a, In a (processed r) -> elem_covered certs (atext a) ASSNn (aid a)).
Proof.
  intros pol certs RESPn ASSNn sent c r rid atext aid Hr Ha o H.
  destruct (accepted_documented c r o H) as (Hrs & Hall & Hwrs & Hwas & Hwaors).
  assert (present (r_sig r) = true -> elem_covered certs sent RESPn rid) as R.
  { intros Hp. apply relied_is_covered with (pol := pol). apply Hr. now apply present_sigok_ok. }
  assert (forall a, In a (processed r) -> present (a_sig a) = true -> elem_covered certs (atext a) ASSNn (aid a)) as A.
  { intros a Hin Hp. apply relied_is_covered with (pol := pol). apply Ha; [exact Hin|]. apply present_sigok_ok; auto. }
  split; [exact R|]. split; [exact A|]. split; [auto|]. split; [auto|].
  intros W. destruct (Hwaors W) as [Hp|Hp]; [left|right]; auto.
Qed.
Print Assumptions C01_pipeline_relied_covered.

(* (3'') ... and the identity handed to the application comes only from those assertions: every assertion in
   AuthnResponse.assertions after acceptance (o_assertions; name id, attributes, conditions and session info are
   read from them) is one of [processed r] — through the retry structure of Entity._parse_response and the
   state a failed first attempt leaves behind.  With (3'): under want_assertions_signed each of them is a covered
   element; under want_response_signed they are what pysaml2 read from the covered response. *)
Theorem C01_identity_from_processed_assertions :
  forall c r o, parse_response c r = Ok o ->
    forall n, In n (o_assertions o) -> exists a, In a (processed r) /\ a_id a = n.
Proof.
  intros c r o H n Hn. apply (accepted_acc c r o H), in_map_iff in Hn as (a & <- & Ha). eauto.
Qed.
Print Assumptions C01_identity_from_processed_assertions.

(* ------------------------------------------------------------------ witnesses *)
Definition RESP : N := 1.  Definition ASSN : N := 2.  Definition EXT : N := 3.  Definition SUBJ : N := 4.
Definition ISSUER : N := 5.  Definition ADVICE : N := 6.
Definition IDP : N := 1.     (* the issuer's key *)
Definition MALLORY : N := 9. (* the attacker's own key *)
Definition a1 := s2l "a-1".  Definition a2 := s2l "a-2".  Definition r1 := s2l "r-1".  Definition evil := s2l "a-evil".
Definition alice := El SUBJ None 10 [].
Definition bob := El SUBJ None 12 [].
Definition admin := El SUBJ None 11 [].
Definition Da := El ASSN (Some a1) 20 [alice].                           (* what the issuer digested for a-1 *)
Definition sigA := Sg [(HASH :: a1, Da)] IDP true None 30 [].
Definition assertion1 := El ASSN (Some a1) 20 [sigA; alice].
Definition Db := El ASSN (Some a2) 21 [bob].
Definition sigB := Sg [(HASH :: a2, Db)] IDP true None 30 [].
Definition assertion2 := El ASSN (Some a2) 21 [sigB; bob].
Definition Dr := El RESP (Some r1) 40 [assertion1; assertion2].
Definition sigR := Sg [(HASH :: r1, Dr)] IDP true None 31 [].
(* a genuine response with two assertions, everything signed by the issuer *)
Definition genuine := El RESP (Some r1) 40 [sigR; assertion1; assertion2].

(* non-vacuity: the genuine document passes the pre-check and verifies, for the response and both assertions,
   under every duplicate-ID policy; and it does not under another key *)
Example C01_genuine_accepted :
  forallb (fun pol =>
    check_signature_x pol genuine RESP (Some r1) [MALLORY; IDP] &&
    check_signature_x pol genuine ASSN (Some a1) [IDP] &&
    check_signature_x pol genuine ASSN (Some a2) [IDP] &&
    negb (check_signature_x pol genuine ASSN (Some a1) [MALLORY])) [DupFail; DupFirst; DupLast] = true.
Proof. vm_compute. reflexivity. Qed.
Print Assumptions C01_genuine_accepted.

(* the classic wrapping: the original assertion, without its signature, parked in an Extensions element;
   a forged assertion carries the copied signature *)
Definition xsw := El RESP (Some r1) 40 [El EXT None 50 [Da]; El ASSN (Some evil) 20 [sigA; admin]].

(* (4) Before the repair the full statement is REFUTED: the wrapped document is assembled from the genuine one,
   the check without pre-check accepts the forged assertion under every duplicate-ID policy, and the element
   relied upon is not covered (its signature refers to another element); the check with the pre-check refuses. *)
Theorem C01_before_fix_refuted :
  assembled [IDP] genuine xsw /\
  (forall pol, check_signature_before_fix pol xsw ASSN (Some evil) [IDP] = true) /\
  (forall px X k D, ~ covered xsw ASSN evil [IDP] px X k D) /\
  (forall pol, check_signature_x pol xsw ASSN (Some evil) [IDP] = false).
Proof.
  split; [|split; [|split]].
  - unfold xsw. apply A_el. constructor; [|constructor; [|constructor]].
    + apply A_el. constructor; [|constructor]. unfold Da. apply A_el. constructor; [|constructor].
      apply (A_part _ _ [1; 1]%nat). reflexivity.
    + apply A_el. constructor; [apply (A_part _ _ [1; 0]%nat); reflexivity|].
      constructor; [apply A_el; constructor|constructor].
  - intros []; vm_compute; reflexivity.
  - apply (not_covered_at _ _ _ _ [1]%nat (El ASSN (Some evil) 20 [sigA; admin])); [reflexivity..|].
    intros [|[|[|k]]] key sid spl skids D Hk; cbn in Hk; discriminate.
  - intros []; vm_compute; reflexivity.
Qed.
Print Assumptions C01_before_fix_refuted.

(* further wrapping shapes: accepted before the repair, refused with the pre-check (node name, ID relied upon, policy) *)
Definition decoy (v : str) := Sg [(HASH :: v, El ASSN (Some v) 20 [admin])] MALLORY false None 30 [].
Definition witnesses : list (tree * N * option str * dup_policy) := [
  (* response-level: the signed original parked in Extensions, the copied signature (first in document order) on the forged response *)
  (El RESP (Some evil) 41 [sigR; El EXT None 50 [Dr]; El ASSN (Some a2) 20 [admin]], RESP, Some evil, DupFail);
  (* an earlier nested copy of the signature (inside Issuer) precedes the forged element's own decoy signature *)
  (El RESP (Some r1) 40 [El EXT None 50 [Da]; El ASSN (Some evil) 20 [El ISSUER None 60 [sigA]; decoy evil; admin]], ASSN, Some evil, DupFail);
  (* duplicate Signature children: the copy first, the decoy second (pysaml2 keeps the last, the tool takes the first) *)
  (El RESP (Some r1) 40 [El EXT None 50 [Da]; El ASSN (Some evil) 20 [sigA; decoy evil; admin]], ASSN, Some evil, DupFail);
  (* the original kept whole inside a ds:Object of the copied signature *)
  (El RESP (Some r1) 40 [El ASSN (Some evil) 20 [Sg [(HASH :: a1, Da)] IDP true None 30 [El ADVICE None 70 [Da]]; admin]], ASSN, Some evil, DupFail);
  (* an element without ID (decrypted assertions are not schema-validated): the tool starts at the root *)
  (El RESP (Some r1) 40 [El EXT None 50 [assertion1]; El ASSN None 20 [decoy evil; admin]], ASSN, None, DupFail);
  (* duplicate ID, first-wins tool: the original (with its own signature) comes first in the document *)
  (El RESP (Some r1) 40 [El EXT None 50 [assertion1]; El ASSN (Some a1) 20 [decoy a1; admin]], ASSN, Some a1, DupFirst);
  (* duplicate ID, last-wins tool *)
  (El RESP (Some r1) 40 [El ASSN (Some a1) 20 [decoy a1; admin]; El EXT None 50 [assertion1]], ASSN, Some a1, DupLast)
].
Example C01_wrapping_shapes_before_and_after :
  forallb (fun w => let '(doc, nm, i, pol) := w in
    check_signature_before_fix pol doc nm i [IDP] && negb (check_signature_x pol doc nm i [IDP])) witnesses = true.
Proof. vm_compute. reflexivity. Qed.
Print Assumptions C01_wrapping_shapes_before_and_after.

(* ------------------------------------------------------------------ (5) the identifier itself *)
(* (5a) WHICH string is the ID.  The tool (--id-attr:ID) and the pre-check read the literal ID attribute of the
   text; the object gets .id from the parsed attribute table (Model/XswIds.v).  For every well-formed attribute
   table they are the same, whatever look-alikes (saml:ID, samlp:ID, xml:id, Id, id) stand around it - so the
   element relied upon (the object) and the element [covered] speaks about (the text) are one. *)
Theorem C01_item_id_is_literal_ID : forall al, wf_attrs al = true -> item_id al = literal_id al.
Proof.
  intros al. unfold item_id. induction al as [|a r IH]; intros Hwf; [reflexivity|].
  cbn [wf_attrs] in Hwf. apply andb_true_iff in Hwf as [Hnew Hr]. apply negb_true_iff in Hnew.
  unfold item_id_from. cbn [fold_left literal_id]. destruct (is_literal_id a) eqn:Ea.
  - assert (forall b, In b r -> is_literal_id b = false) as Hno.
    { intros b Hb. destruct (is_literal_id b) eqn:Eb; [|reflexivity].
      assert (existsb (fun b0 => key_eqb (attr_key a) (attr_key b0)) r = true) as Hex
        by (apply existsb_exists; exists b; split; [exact Hb|apply literal_keys_equal; assumption]).
      congruence. }
    apply (item_id_from_no_literal r (Some (snd a)) Hno).
  - apply IH. exact Hr.
Qed.
Print Assumptions C01_item_id_is_literal_ID.

(* a look-alike never changes it: adding attributes that are not the literal ID leaves the object's id alone *)
Theorem C01_item_id_ignores_look_alikes : forall pre post a,
  (forall b, In b pre -> is_literal_id b = false) -> (forall b, In b post -> is_literal_id b = false) ->
  is_literal_id a = true -> item_id (pre ++ a :: post) = Some (snd a).
Proof.
  intros pre post a _ Hpost Ha. unfold item_id, item_id_from. rewrite fold_left_app.
  cbn [fold_left]. rewrite Ha. apply (item_id_from_no_literal post (Some (snd a)) Hpost).
Qed.
Print Assumptions C01_item_id_ignores_look_alikes.

(* a reader that goes by the local name (NOT the code) is refuted: object says a-1, text says a-evil *)
Definition SAMLNS := s2l "urn:oasis:names:tc:SAML:2.0:assertion".
Theorem C01_reader_by_local_name_refuted :
  exists al, wf_attrs al = true /\ literal_id al = Some evil /\ item_id al = Some evil /\ item_id_lax al = Some a1.
Proof. exists [(None, s2l "ID", evil); (Some SAMLNS, s2l "ID", a1)]. vm_compute. repeat split. Qed.
Print Assumptions C01_reader_by_local_name_refuted.

(* (5b) WHICH string is handed over.  _check_signature hands ONE variable (item.id) to the pre-check and to the
   tool: check_signature_g with both hand-overs the identity is check_signature_x, the function all theorems above
   are about.  TESTED on every run (not proved): the argv the library really passes has --node-id byte-for-byte
   item.id, and the pre-check was given that same string, node name, attribute name and document. *)
Theorem C01_one_identifier : forall pol doc nm i certs,
  check_signature_g (fun v => v) (fun v => v) pol doc nm i certs = check_signature_x pol doc nm i certs.
Proof. intros pol doc nm i certs. unfold check_signature_g. rewrite !option_map_id. reflexivity. Qed.
Print Assumptions C01_one_identifier.

(* any treatment fp / ft of the identifier on the way keeps the statement as long as both hand-overs still get the
   same string and it is still the object's id *)
Theorem C01_relied_is_covered_same_identifier : forall fp ft pol doc nm v certs,
  ft v = fp v -> fp v = v ->
  check_signature_g fp ft pol doc nm (Some v) certs = true ->
  exists px X k D, covered doc nm v certs px X k D.
Proof. exact relied_is_covered_g. Qed.
Print Assumptions C01_relied_is_covered_same_identifier.

(* ... and it is lost as soon as ONE side normalises.  Tool side (--node-id trimmed): the forged assertion's literal ID
   is the genuine one plus a blank, its own first Signature child is worthless but well shaped, the genuine signed
   assertion sits behind it - accepted, not covered; with one identifier refused. *)
Definition a1sp : str := a1 ++ [32].
Definition forgedA_tool := El ASSN (Some a1sp) 20 [decoy a1sp; El ADVICE None 70 [assertion1]; admin].
Definition doc_tool := El RESP (Some r1) 40 [forgedA_tool].
Theorem C01_tool_side_normalisation_refuted :
  rstrip a1sp = a1 /\
  (forall pol, check_signature_g (fun v => v) rstrip pol doc_tool ASSN (Some a1sp) [IDP] = true) /\
  (forall px X k D, ~ covered doc_tool ASSN a1sp [IDP] px X k D) /\
  (forall pol, check_signature_x pol doc_tool ASSN (Some a1sp) [IDP] = false).
Proof.
  split; [vm_compute; reflexivity|split; [|split]].
  - intros []; vm_compute; reflexivity.
  - apply (not_covered_at _ _ _ _ [0]%nat forgedA_tool); [reflexivity..|].
    intros [|[|[|[|k]]]] key sid spl skids D Hk; vm_compute in Hk; discriminate.
  - intros []; vm_compute; reflexivity.
Qed.
Print Assumptions C01_tool_side_normalisation_refuted.

(* Pre-check side (the pre-check looks up the trimmed id, the tool gets the raw one): the genuine signed assertion
   nested FIRST inside the forged one, which carries a copy of the signature as its own child. *)
Definition forgedA_pre := El ASSN (Some a1sp) 20 [El ADVICE None 70 [assertion1]; sigA; admin].
Definition doc_pre := El RESP (Some r1) 40 [forgedA_pre].
Theorem C01_precheck_side_normalisation_refuted :
  (forall pol, check_signature_g rstrip (fun v => v) pol doc_pre ASSN (Some a1sp) [IDP] = true) /\
  (forall px X k D, ~ covered doc_pre ASSN a1sp [IDP] px X k D) /\
  (forall pol, check_signature_x pol doc_pre ASSN (Some a1sp) [IDP] = false).
Proof.
  split; [|split].
  - intros []; vm_compute; reflexivity.
  - apply (not_covered_at _ _ _ _ [0]%nat forgedA_pre); [reflexivity..|].
    intros [|[|[|[|k]]]] key sid spl skids D Hk; vm_compute in Hk; discriminate.
  - intros []; vm_compute; reflexivity.
Qed.
Print Assumptions C01_precheck_side_normalisation_refuted.

(* (5c) WHETHER the identifier is handed over at all (Model/XswOpts.v).  validate_signature appends --node-id and the
   id as two argv elements `if node_id:`; a run without it verifies the first signature of the document
   (tool_first_signature).  With the code's hand-over check_signature_h IS check_signature_x; and for ANY hand-over
   that passes every non-empty id unchanged the statement holds for EVERY id string - no condition on its
   characters ('-x', '--node-id', blanks, quotes, '$', '%' ... are ids like any other).  TESTED on every run: the
   recorded argv has exactly one --node-id, followed by one element that is item.id and the literal ID of an element
   of the document handed over (oracle keys handed-over:tool-run-without-node-id / node-id-names-no-element /
   node-id-not-item-id), on documents of the family id-option-like:*. *)
Theorem C01_handover_of_the_code : forall pol doc nm i certs,
  check_signature_h handover_code pol doc nm i certs = check_signature_x pol doc nm i certs.
Proof. intros pol doc nm i certs. unfold check_signature_h, check_signature_x. destruct i as [[|c r]|]; reflexivity. Qed.
Print Assumptions C01_handover_of_the_code.

Theorem C01_relied_is_covered_for_every_id : forall h pol doc nm v certs,
  (forall w, w <> [] -> h w = Some w) ->
  check_signature_h h pol doc nm (Some v) certs = true ->
  exists px X k D, covered doc nm v certs px X k D.
Proof. intros h pol doc nm v certs Hh. apply handed_over_is_covered, Hh. Qed.
Print Assumptions C01_relied_is_covered_for_every_id.

Example C01_code_hands_every_id_over : forall w, w <> [] -> handover_code w = Some w.
Proof. intros w. destruct w; [intros H; contradiction H; reflexivity|reflexivity]. Qed.
Print Assumptions C01_code_hands_every_id_over.

(* ... and it is lost when option-looking ids are left out: the forged assertion's ID is -x, its own Signature child
   is worthless but well shaped, the genuine signed assertion is parked EARLIER (Extensions): the run without
   --node-id verifies the first signature of the document, the genuine one. *)
Definition dashx : str := s2l "-x".
Definition forgedA_opt := El ASSN (Some dashx) 20 [decoy dashx; admin].
Definition doc_opt := El RESP (Some r1) 40 [El EXT None 50 [assertion1]; forgedA_opt].
Theorem C01_dropping_option_like_ids_refuted :
  handover_drops_options dashx = None /\
  (forall pol, tool_first_signature pol doc_opt ASSN IDP = true) /\
  (forall pol, check_signature_h handover_drops_options pol doc_opt ASSN (Some dashx) [IDP] = true) /\
  (forall px X k D, ~ covered doc_opt ASSN dashx [IDP] px X k D) /\
  (forall pol, check_signature_x pol doc_opt ASSN (Some dashx) [IDP] = false).
Proof.
  split; [vm_compute; reflexivity|split; [|split; [|split]]].
  - intros []; vm_compute; reflexivity.
  - intros []; vm_compute; reflexivity.
  - apply (not_covered_at _ _ _ _ [1]%nat forgedA_opt); [reflexivity..|].
    intros [|[|[|k]]] key sid spl skids D Hk; vm_compute in Hk; discriminate.
  - intros []; vm_compute; reflexivity.
Qed.
Print Assumptions C01_dropping_option_like_ids_refuted.

(* (6) Several plain assertions in one response (Model/MultiAssertion.v: parse_assertion's loop over
   response.assertion, _assertion on each; .assertions / get_identity / name_id afterwards).  By induction over the
   list: whatever the application reads - every assertion handed over, every attribute of the merged identity, the
   name id - comes from an assertion that was INDIVIDUALLY checked; with want_assertions_signed that means: has a
   signature, check_signature said yes (then C01_relied_is_covered applies to it), conditions and subject passed; and
   a signature that is present is verified under every setting.  TESTED: unit parse_plain (model vs
   parse_authn_request_response on 1..3 plain assertions + an empty EncryptedAssertion) and the oracle
   identity-from-unchecked-assertion:* on the whole walk. *)
Theorem C01_identity_from_individually_checked_assertions : forall req l asl ava nm,
  parse_assertions req l = Some (asl, ava, nm) ->
  asl = l /\ Forall (fun a => assertion_checked req a = true) l /\
  (forall kv, In kv ava -> exists a, In a l /\ assertion_checked req a = true /\ In kv (a_ident a)) /\
  (forall n, nm = Some n -> exists a, In a l /\ assertion_checked req a = true /\ a_name a = n).
Proof.
  intros req l asl ava nm. unfold parse_assertions. destruct (parse_plain req l None) as [nm0|] eqn:Ep; [|discriminate].
  intros H. injection H as <- <- <-. apply parse_plain_all_checked in Ep as [Hall Hn].
  split; [reflexivity|split; [exact Hall|split]].
  - intros kv Hin. apply In_identity_from in Hin as [[]|(a & Ha & Hkv)].
    exists a. split; [exact Ha|split; [|exact Hkv]]. rewrite Forall_forall in Hall. apply Hall. exact Ha.
  - intros n Hnm. destruct Hn as [->|(a & Ha & ->)]; [discriminate|]. injection Hnm as <-.
    exists a. split; [exact Ha|split; [|reflexivity]]. rewrite Forall_forall in Hall. apply Hall. exact Ha.
Qed.
Print Assumptions C01_identity_from_individually_checked_assertions.

Theorem C01_checked_means_verified : forall a,
  (assertion_checked true a = true -> a_signed a = true /\ a_sig_ok a = true /\ a_cond_ok a = true) /\
  (forall req, assertion_checked req a = true -> a_signed a = true -> a_sig_ok a = true).
Proof. intros a. split; [apply checked_required_means_verified|intros req; apply signed_is_verified_whatever_setting]. Qed.
Print Assumptions C01_checked_means_verified.

(* a loop that looks at the first plain assertion only (NOT the code): genuine first, an unsigned one behind it *)
Definition genuineA := {| a_signed := true; a_sig_ok := true; a_cond_ok := true; a_name := s2l "alice"; a_ident := [(s2l "givenName", [s2l "Alice"])] |}.
Definition forgedU := {| a_signed := false; a_sig_ok := false; a_cond_ok := true; a_name := s2l "admin"; a_ident := [(s2l "givenName", [s2l "Mallory"])] |}.
Theorem C01_first_assertion_only_refuted :
  parse_assertions true [genuineA; forgedU] = None /\
  exists asl ava nm, parse_first_only true [genuineA; forgedU] = Some (asl, ava, nm) /\
    In (s2l "givenName", [s2l "Mallory"]) ava /\
    ~ (exists a, In a asl /\ assertion_checked true a = true /\ In (s2l "givenName", [s2l "Mallory"]) (a_ident a)).
Proof.
  split; [vm_compute; reflexivity|].
  eexists _, _, _. split; [vm_compute; reflexivity|split; [vm_compute; left; reflexivity|]].
  intros (a & [<-|[<-|[]]] & Hc & Hin); vm_compute in Hc, Hin; [|discriminate].
  destruct Hin as [H|[]]. discriminate.
Qed.
Print Assumptions C01_first_assertion_only_refuted.

Example C01_multi_genuine_accepted :
  exists r, parse_assertions true [genuineA; genuineA] = Some r.
Proof. eexists. vm_compute. reflexivity. Qed.
Print Assumptions C01_multi_genuine_accepted.
