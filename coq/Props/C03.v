(* Props/C03.v — signatures are trusted only under the issuer's keys from metadata: the certificate selection
   (Model/CertSelect.v), which issuer is looked up at every call site (Model/IssuerSel.v), the bridge to the loaded
   metadata documents (Proofs/Glue_certs.v), certificate validity dates (Model/CertValidity.v), and lazy metadata
   sources (Model/CertSource.v). *)
From PV Require Import Lib.Base Model.Sigver Model.CertSelect Model.IssuerSel Model.CertValidity Proofs.Sigver_lemmas Proofs.CertSelect_lemmas Proofs.IssuerSel_lemmas Proofs.CertValidity_lemmas Model.CertSource Proofs.CertSource_lemmas.
Open Scope N_scope.

(* Default setting (only_use_keys_in_metadata on): a successful check means the
   signer's key is a certificate of a key descriptor of THE ISSUER's entity (the
   entry the store serves for that id) whose use is signing or absent.  The
   embedded certificates are never consulted. *)
Theorem C03_only_issuer_keys :
  forall mp m issuer embedded signer,
    check_signature mp m issuer true embedded signer = Ok tt ->
    mp = true /\ exists i e r kd, issuer = Some i /\ find_entity m i = Some e /\ In r e /\ In kd r /\
      (kd_use kd = Some SIGNING \/ kd_use kd = None) /\ In signer (kd_certs kd).
Proof.
  intros mp m issuer embedded signer H.
  destruct (check_signature_trusted _ _ _ _ _ H) as (Hmp & i & Hi & e & r & kd & T). split; [exact Hmp|]. now exists i, e, r, kd.
Qed.
Print Assumptions C03_only_issuer_keys.

(* consequences, default setting *)
Theorem C03_rejections :
  forall mp m issuer embedded signer,
    (* issuer absent from metadata, or no usable signing key there: MissingKey — even with an embedded certificate *)
    ((mp = false \/ md_certs m issuer SIGNING = None \/ md_certs m issuer SIGNING = Some []) ->
       check_signature mp m issuer true embedded signer = Err (s2l "MissingKey")) /\
    (* a key that is not among the issuer's signing certificates (another entity's key, an encryption-only key): SignatureError *)
    (forall l, mp = true -> md_certs m issuer SIGNING = Some l -> l <> [] -> ~ In signer l ->
       check_signature mp m issuer true embedded signer = Err (s2l "SignatureError")).
Proof.
  intros mp m issuer embedded signer. split.
  - intros H. rewrite check_signature_verdict. unfold chosen_of. rewrite andb_false_r.
    destruct H as [->|[H|H]]; [reflexivity| |]; destruct mp; try reflexivity; now rewrite H.
  - intros l -> Hm Hne Hn. rewrite check_signature_verdict. unfold chosen_of. rewrite andb_false_r, Hm.
    destruct l as [|c0 l']; [congruence|]. unfold verdict_of_keys. destruct (memN signer (c0 :: l')) eqn:M; [|reflexivity].
    apply memN_In in M. contradiction.
Qed.
Print Assumptions C03_rejections.

(* an encryption-only key descriptor never contributes to the signing set, whatever the descriptor order *)
Theorem C03_use_respected :
  forall m issuer l x, md_certs m issuer SIGNING = Some l -> In x l ->
    exists i e r kd, issuer = Some i /\ find_entity m i = Some e /\ In r e /\ In kd r /\ In x (kd_certs kd) /\
      kd_use kd <> Some (s2l "encryption").
Proof.
  intros m issuer l x Hm Hx. destruct (md_certs_spec _ _ _ _ Hm) as (i & e & Hi & F & S).
  apply S in Hx as (r & kd & Hr & Hk & Hu & Hc). exists i, e, r, kd. repeat split; auto.
  unfold use_matches in Hu. destruct (kd_use kd) as [u|]; [|discriminate].
  apply str_eqb_eq in Hu. rewrite Hu. vm_compute. discriminate.
Qed.
Print Assumptions C03_use_respected.

(* Setting off: embedded certificates are consulted iff metadata yields no signing certificate for the issuer *)
Theorem C03_embedded_only_as_fallback :
  forall (mp : bool) (m : mdstore) (issuer : option str) (embedded : list N),
    let from_md : list N := if mp then match md_certs m issuer SIGNING with Some l => l | None => [] end else [] in
    candidate_certs mp m issuer false embedded =
      match from_md with
      | [] => match embedded with [] => Err (s2l "MissingKey") | _ => Ok embedded end
      | _ => Ok from_md
      end.
Proof.
  intros mp m issuer embedded. cbv zeta. unfold candidate_certs. cbn [negb]. rewrite andb_true_r.
  destruct (if mp then match md_certs m issuer SIGNING with Some l => l | None => [] end else []); reflexivity.
Qed.
Print Assumptions C03_embedded_only_as_fallback.

(* The model follows the library WITH proposed_fix/C03-1 (MetaData.certs skips a key descriptor without X509Data).
   BEFORE that repair (md_certs_before_fix: KeyError for the whole entity, swallowed by _check_signature as "no
   certificates from metadata") the statement above was false of the code: metadata holds a signing certificate for
   the issuer (key 1), a second signing KeyDescriptor carries a KeyName only - and the embedded certificate of an
   unrelated key (9) was consulted and trusted. *)
Definition fed_keyname : mdstore :=
  [(s2l "https://idp.example.org/idp", [[ {| kd_use := Some SIGNING; kd_certs := [1] |}; {| kd_use := Some SIGNING; kd_certs := [] |} ]])].
Theorem C03_embedded_only_as_fallback_before_fix_refuted :
  exists m issuer embedded signer l,
    md_certs m issuer SIGNING = Some l /\ l <> [] /\ ~ In signer l /\
    candidate_certs_before_fix true m issuer false embedded = Ok embedded /\
    check_signature_before_fix true m issuer false embedded signer = Ok tt /\
    check_signature true m issuer false embedded signer = Err (s2l "SignatureError").
Proof.
  exists fed_keyname, (Some (s2l "https://idp.example.org/idp")), [9], 9, [1].
  split; [reflexivity|]. split; [discriminate|]. split; [intros [H|[]]; discriminate|]. repeat split; reflexivity.
Qed.
Print Assumptions C03_embedded_only_as_fallback_before_fix_refuted.

(* ... and under the default setting the code before the repair was needlessly strict, never lax: it refused (MissingKey)
   the issuer's own declared key, and whatever it accepted the repaired code accepts *)
Theorem C03_before_fix_default_setting :
  (exists m issuer embedded signer,
     check_signature true m issuer true embedded signer = Ok tt /\
     check_signature_before_fix true m issuer true embedded signer = Err (s2l "MissingKey")) /\
  (forall mp m issuer embedded signer,
     check_signature_before_fix mp m issuer true embedded signer = Ok tt ->
     check_signature mp m issuer true embedded signer = Ok tt).
Proof.
  split.
  - exists fed_keyname, (Some (s2l "https://idp.example.org/idp")), [1], 1. split; reflexivity.
  - intros mp m issuer embedded signer.
    rewrite check_signature_before_fix_verdict, check_signature_verdict, !verdict_default.
    intros (Hmp & l & Hm & Hk). split; [exact Hmp|]. exists l. split; [|exact Hk].
    revert Hm. unfold md_certs_before_fix, md_certs. destruct issuer as [i|]; [|discriminate].
    destruct (find_entity m i) as [e|]; [|discriminate]. now destruct (lacks_x509 SIGNING e).
Qed.
Print Assumptions C03_before_fix_default_setting.

(* non-vacuity: a two-IdP federation *)
Definition idpA := s2l "https://idp.example.org/idp".
Definition idpB := s2l "https://idp2.example.org/idp".
Definition fed : mdstore := [
  (idpA, [[ {| kd_use := Some SIGNING; kd_certs := [1] |}; {| kd_use := Some (s2l "encryption"); kd_certs := [3] |} ]]);
  (idpB, [[ {| kd_use := Some (s2l "encryption"); kd_certs := [4] |}; {| kd_use := None; kd_certs := [2] |} ]]) ].
Example C03_witness :
  check_signature true fed (Some idpA) true [9] 1 = Ok tt /\
  check_signature true fed (Some idpA) true [3] 3 = Err (s2l "SignatureError") /\      (* encryption-only key *)
  check_signature true fed (Some idpA) true [2] 2 = Err (s2l "SignatureError") /\      (* the other IdP's key *)
  check_signature true fed (Some idpB) true [] 2 = Ok tt /\
  check_signature true fed (Some (s2l "https://unknown/")) true [9] 9 = Err (s2l "MissingKey") /\
  check_signature true fed (Some (s2l "https://unknown/")) false [9] 9 = Ok tt /\
  check_signature true fed (Some idpA) false [9] 9 = Err (s2l "SignatureError").
Proof. vm_compute. repeat split; reflexivity. Qed.
Print Assumptions C03_witness.

(* ======================================================================================
   WHICH issuer: the issuer-selection step of _check_signature and its call sites
   (Model/IssuerSel.v).  [trusted_for m i k]: k is a certificate of a signing (or use-less)
   key descriptor of the entity the store serves for id i. *)

(* The candidate certificates are those of the signed element's OWN Issuer whenever it has
   one: the issuer= argument (whatever a call site or a direct caller passes) is not looked at. *)
Theorem C03_own_issuer_decides :
  forall c arg own embedded signer i,
    issuer_text own = Some i ->
    elem_candidates c arg own embedded = candidate_certs (v_mp c) (v_md c) (Some i) (v_only_md c) embedded /\
    check_elem c arg own embedded signer = check_signature (v_mp c) (v_md c) (Some i) (v_only_md c) embedded signer.
Proof. intros. split; [now apply elem_candidates_own|now apply check_elem_own]. Qed.
Print Assumptions C03_own_issuer_decides.

(* Every call site: with an Issuer of its own the element is checked under that entity's certificates;
   without one, only the advice loop (enclosing assertion's Issuer) and direct callers supply a name,
   every other site looks up nobody — MissingKey under the default setting. *)
Theorem C03_call_sites :
  forall c s enclosing direct own embedded signer,
    (forall i, issuer_text own = Some i ->
       check_at c s enclosing direct own embedded signer =
       check_signature (v_mp c) (v_md c) (Some i) (v_only_md c) embedded signer) /\
    (issuer_text own = None ->
       check_at c s enclosing direct own embedded signer =
       check_signature (v_mp c) (v_md c)
         (match s with SiteAdvice => issuer_text enclosing | SiteDirect => issuer_text direct | _ => None end)
         (v_only_md c) embedded signer) /\
    (issuer_text own = None -> s <> SiteAdvice -> s <> SiteDirect -> v_only_md c = true ->
       check_at c s enclosing direct own embedded signer = Err (s2l "MissingKey")).
Proof.
  intros c s enclosing direct own embedded signer. split; [|split].
  - intros i Hi. unfold check_at. now apply check_elem_own.
  - intros Hn. unfold check_at, check_elem. rewrite (select_issuer_fallback _ _ Hn). destruct s; reflexivity.
  - intros Hn Ha Hd Ho. unfold check_at, check_elem. rewrite (select_issuer_fallback _ _ Hn), Ho.
    replace (issuer_text (site_arg s enclosing direct)) with (@None str) by (destruct s; try reflexivity; contradiction).
    apply C03_rejections. right. now left.
Qed.
Print Assumptions C03_call_sites.

(* Default setting, any call site, any argument: an accepted signature was made with a key trusted for
   the element's own Issuer; only an element WITHOUT Issuer is judged under the fallback name. *)
Theorem C03_accepted_under_own_issuer :
  forall c s enclosing direct own embedded signer,
    v_only_md c = true ->
    check_at c s enclosing direct own embedded signer = Ok tt ->
    exists i, trusted_for (v_md c) i signer /\
      (issuer_text own = Some i \/
       (issuer_text own = None /\ issuer_text (site_arg s enclosing direct) = Some i)).
Proof.
  intros c s enclosing direct own embedded signer Ho H. unfold check_at in H.
  destruct (check_elem_trusted _ _ _ _ _ Ho H) as (i & Hi & T). exists i. split; [exact T|].
  now apply select_issuer_cases.
Qed.
Print Assumptions C03_accepted_under_own_issuer.

(* A whole response document (Response, plain assertions, assertions inside EncryptedAssertion, assertions
   inside EncryptedAssertion of their Advice), default setting: if the SP's signature checks all pass then
   every signed element — by induction over the assertion lists — was signed with a key trusted for ITS OWN
   issuer: never for the Issuer of the Response around it or of a sibling.  An advice assertion without
   Issuer is the only element judged under another element's name (the enclosing assertion's). *)
Theorem C03_document :
  forall c d, v_only_md (dc_v (pc_d c)) = true -> parse_doc c d = Ok tt ->
    (forall emb k, se_sig (d_resp d) = Some (emb, k) ->
       exists i, issuer_text (se_issuer (d_resp d)) = Some i /\ trusted_for (v_md (dc_v (pc_d c))) i k) /\
    (forall a emb k, In a (d_plain d ++ d_enc d) -> se_sig (as_elem a) = Some (emb, k) ->
       exists i, issuer_text (se_issuer (as_elem a)) = Some i /\ trusted_for (v_md (dc_v (pc_d c))) i k) /\
    (forall a x emb k, In a (d_plain d ++ d_enc d) -> In x (as_advice a) -> se_sig x = Some (emb, k) ->
       exists i, trusted_for (v_md (dc_v (pc_d c))) i k /\
         (issuer_text (se_issuer x) = Some i \/
          (issuer_text (se_issuer x) = None /\ issuer_text (se_issuer (as_elem a)) = Some i))).
Proof.
  intros c d Ho H. apply parse_doc_sound, verify_doc_ok in H as (HR & HA & HV). split; [|split].
  - intros emb k Hs. rewrite Hs in HR.
    destruct (check_selem_trusted _ _ _ _ _ Ho Hs HR) as (i & Hi & T). rewrite select_issuer_noarg in Hi. now exists i.
  - intros a emb k Ha Hs. specialize (HA a Ha).
    destruct (check_selem_trusted _ _ _ _ _ Ho Hs HA) as (i & Hi & T). rewrite select_issuer_noarg in Hi. now exists i.
  - intros a x emb k Ha Hx Hs. assert (Ha' : In a (d_enc d ++ d_plain d)).
    { apply in_or_app. apply in_app_or in Ha as [Ha|Ha]; [now right|now left]. }
    specialize (HV a x Ha' Hx). destruct (check_selem_trusted _ _ _ _ _ Ho Hs HV) as (i & Hi & T).
    exists i. split; [exact T|]. now apply select_issuer_cases.
Qed.
Print Assumptions C03_document.

(* Setting off, any call site: the embedded certificates are consulted iff metadata yields no signing
   certificate for the SELECTED issuer — the element's own whenever it has one. *)
Theorem C03_embedded_fallback_selected_issuer :
  forall c arg own embedded, v_only_md c = false ->
    let from_md : list N := if v_mp c then match md_certs (v_md c) (select_issuer own arg) SIGNING with Some l => l | None => [] end else [] in
    elem_candidates c arg own embedded =
      match from_md with
      | [] => match embedded with [] => Err (s2l "MissingKey") | _ => Ok embedded end
      | _ => Ok from_md
      end.
Proof. intros c arg own embedded Ho. unfold elem_candidates. rewrite Ho. apply C03_embedded_only_as_fallback. Qed.
Print Assumptions C03_embedded_fallback_selected_issuer.

(* Histories: any sequence of operations on any set of long-lived clients, from any process state (by
   induction over the sequence): the n-th outcome is the outcome of that operation on that client alone —
   nothing verified earlier, for another issuer or on another client, changes the certificates used later. *)
Theorem C03_history_independent :
  forall cs st ops, snd (run_ops cs st ops) = map (check_op cs) ops.
Proof. intros cs st ops. apply run_ops_results. Qed.
Print Assumptions C03_history_independent.

Theorem C03_history_accepts_only_own_issuer :
  forall cs st ops n cl arg e emb k c,
    nth_error ops n = Some (OpElem cl arg e) -> nth_error cs cl = Some c -> v_only_md (dc_v (pc_d c)) = true ->
    se_sig e = Some (emb, k) ->
    nth_error (snd (run_ops cs st ops)) n = Some (Ok tt) ->
    exists i, select_issuer (se_issuer e) arg = Some i /\ trusted_for (v_md (dc_v (pc_d c))) i k.
Proof.
  intros cs st ops n cl arg e emb k c Hop Hc Ho Hs H. rewrite (run_ops_nth cs st ops n _ c Hop Hc) in H.
  injection H as H. exact (check_selem_trusted _ _ _ _ _ Ho Hs H).
Qed.
Print Assumptions C03_history_accepts_only_own_issuer.

(* … and a document accepted at any point of any history passed the entry point of ITS client on its own,
   so C03_document applies to it with that client's metadata *)
Theorem C03_history_documents :
  forall cs st ops n cl d c,
    nth_error ops n = Some (OpDoc cl d) -> nth_error cs cl = Some c ->
    nth_error (snd (run_ops cs st ops)) n = Some (Ok tt) ->
    parse_doc c d = Ok tt.
Proof.
  intros cs st ops n cl d c Hop Hc H. rewrite (run_ops_nth cs st ops n _ c Hop Hc) in H. now injection H.
Qed.
Print Assumptions C03_history_documents.

(* non-vacuity: the federation above; idpB's key is 2.  An unsigned (or B-signed) Response of B around an
   assertion of A signed with B's key is refused at every place; an advice assertion WITHOUT Issuer falls
   back to the enclosing assertion's; histories over two clients with different metadata for idpA. *)
Definition own (i : str) : issuer_elem := Some (Some i).
Definition cfgD : pcfg := {| pc_d := {| dc_v := {| v_mp := true; v_md := fed; v_only_md := true |}; dc_wrs := false |}; pc_was := false |}.
Definition cfgD2 : pcfg := {| pc_d := {| dc_v := {| v_mp := true; v_md := [(idpA, [[ {| kd_use := Some SIGNING; kd_certs := [2] |} ]])]; v_only_md := true |}; dc_wrs := false |}; pc_was := false |}.
Definition el (i : issuer_elem) (k : N) : selem := {| se_issuer := i; se_sig := Some ([k], k) |}.
Definition unsigned (i : issuer_elem) : selem := {| se_issuer := i; se_sig := None |}.
Definition docAB (resp : selem) (plain enc : list asrt) : doc := {| d_resp := resp; d_plain := plain; d_enc := enc |}.
Example C03_issuer_witness :
  parse_doc cfgD (docAB (unsigned (own idpB)) [] [{| as_elem := el (own idpA) 2; as_advice := [] |}]) = Err (s2l "SignatureError") /\
  parse_doc cfgD (docAB (el (own idpB) 2) [{| as_elem := el (own idpA) 2; as_advice := [] |}] []) = Err (s2l "SignatureError") /\
  parse_doc cfgD (docAB (el (own idpB) 2) [] [{| as_elem := el (own idpA) 1; as_advice := [] |}]) = Ok tt /\
  parse_doc cfgD (docAB (unsigned (own idpB)) [] [{| as_elem := unsigned (own idpB); as_advice := [el (own idpA) 2] |}]) = Err (s2l "SignatureError") /\
  parse_doc cfgD (docAB (unsigned (own idpB)) [{| as_elem := unsigned (own idpB); as_advice := [el None 2] |}] []) = Ok tt /\
  parse_doc cfgD (docAB (unsigned (own idpB)) [] [{| as_elem := el None 2; as_advice := [] |}]) = Err (s2l "MissingKey") /\
  check_at (dc_v (pc_d cfgD)) SiteDirect None (own idpB) (own idpA) [2] 2 = Err (s2l "SignatureError") /\
  check_at (dc_v (pc_d cfgD)) SiteDirect None (own idpB) (Some None) [2] 2 = Ok tt /\
  select_issuer (Some (Some (s2l "  https://idp.example.org/idp "))) (own idpB) = Some idpA /\
  snd (run_ops [cfgD; cfgD2] [] [OpElem 0 None (el (own idpA) 1); OpElem 1 None (el (own idpA) 1); OpElem 1 None (el (own idpA) 2);
                                 OpElem 0 None (el (own idpA) 2); OpElem 0 None (el (own idpB) 2); OpElem 0 None (el (own idpB) 1)])
    = [Ok tt; Err (s2l "SignatureError"); Ok tt; Err (s2l "SignatureError"); Ok tt; Err (s2l "SignatureError")].
Proof. vm_compute. repeat split; reflexivity. Qed.
Print Assumptions C03_issuer_witness.

(* ======================================================================================
   GLUE to C16 (Proofs/Glue_certs.v, docs/Glue.md).  The metadata store above is Model/CertSelect.v's; the model
   that C16 ties to MetadataStore / MetaData.certs is Model/MdStore.v (certificate texts, role descriptors with a
   type, several sources, loading with expiry and signature verification).  [abs_store num st] is the C16 store st
   read as a CertSelect store (one key-descriptor group per descriptor type in the order certs() visits them,
   texts numbered by num after repack_cert); Glue_md_certs_agree (Props/Glue.v) shows md_certs and store_certs
   return the same list through it.  For the store an SP loaded from its configured sources: an accepted
   signature's key - and every key [trusted_for] the issuer, which is what C03_document, C03_accepted_under_own_issuer
   and the history theorems conclude - is a certificate of a signing / use-less KeyDescriptor in a role descriptor
   of an UNEXPIRED EntityDescriptor carrying the issuer's entity id, in the document of a source that load()
   registered (admissible: signed + verification certificate configured => remote and verified). *)
From PV Require Model.MdStore Proofs.Glue_certs.
Theorem C03_accepted_key_is_declared_in_loaded_metadata :
  forall num now srcs,
    let st := MdStore.load_all now [] srcs in
    (forall mp issuer embedded signer,
       check_signature mp (Glue_certs.abs_store num st) issuer true embedded signer = Ok tt ->
       mp = true /\ exists i, issuer = Some i /\ Glue_certs.declared_in_documents num now srcs MdStore.U_SIGNING i signer) /\
    (forall i k, trusted_for (Glue_certs.abs_store num st) i k ->
       Glue_certs.declared_in_documents num now srcs MdStore.U_SIGNING i k).
Proof.
  intros num now srcs st. split.
  - intros mp issuer embedded signer. apply Glue_certs.accepted_key_in_loaded_documents.
  - intros i k. apply Glue_certs.trusted_for_in_loaded_documents.
Qed.
Print Assumptions C03_accepted_key_is_declared_in_loaded_metadata.

(* ================================================================ certificate validity dates
   Model/CertValidity.v: a certificate is (key, validity window); the window is an attribute that the
   certificate selection carries along and never reads.  `Metadata holds a signing key for the issuer`
   is a statement about the DECLARED list. *)

(* the model with dates gives, on every input, the verdict of the model without them on the federation
   with the dates erased: every theorem above holds for federations with expired / not yet valid
   certificates *)
Theorem C03_validity_erased :
  forall mp m issuer only_md embedded signer,
    vcheck_signature mp m issuer only_md embedded signer =
    check_signature mp (erase_md m) issuer only_md (map c_key embedded) signer.
Proof. exact vcheck_erase. Qed.
Print Assumptions C03_validity_erased.

(* change the window of every certificate - metadata by f, KeyInfo by g - at will: same verdict, same fallback decision *)
Theorem C03_validity_ignored :
  forall f g mp m issuer only_md embedded signer,
    vcheck_signature mp (redate_md f m) issuer only_md (map (redate_cert g) embedded) signer =
    vcheck_signature mp m issuer only_md embedded signer /\
    consults_embedded mp (redate_md f m) issuer only_md = consults_embedded mp m issuer only_md.
Proof. intros. split; [apply vcheck_redate|apply consults_embedded_redate]. Qed.
Print Assumptions C03_validity_ignored.

(* the fallback decision depends only on the setting and on the declared list being empty *)
Theorem C03_fallback_declared_list_only :
  forall mp m issuer only_md,
    consults_embedded mp m issuer only_md = true <-> only_md = false /\ declared_signing mp m issuer = [].
Proof.
  intros mp m issuer only_md. unfold consults_embedded. rewrite andb_true_iff, negb_true_iff.
  destruct (declared_signing mp m issuer); cbn; intuition congruence.
Qed.
Print Assumptions C03_fallback_declared_list_only.

(* ANY certificate c - valid, expired, not yet valid - in a signing / use-less key descriptor of the issuer's entity:
   KeyInfo is not consulted under either setting; the verdict is the one with the setting on and no KeyInfo *)
Theorem C03_declared_certificate_blocks_fallback :
  forall m i e r kd c only_md embedded signer,
    vfind_entity m i = Some e -> In r e -> In kd r -> vuse_matches SIGNING kd = true -> In c (vkd_certs kd) ->
    consults_embedded true m (Some i) only_md = false /\
    vcheck_signature true m (Some i) only_md embedded signer = vcheck_signature true m (Some i) true [] signer.
Proof.
  intros m i e r kd c only_md embedded signer F Hr Hk Hu Hc.
  assert (Hd : In c (declared_signing true m (Some i))).
  { unfold declared_signing, vmd_certs. rewrite F. apply in_flat_map. exists r. split; [exact Hr|].
    apply vextract_certs_In. right. now exists kd. }
  split; [exact (proj1 (vchosen_declared _ _ _ only_md [] _ Hd))|].
  now rewrite !vcheck_signature_verdict, !(proj2 (vchosen_declared _ _ _ _ _ _ Hd)).
Qed.
Print Assumptions C03_declared_certificate_blocks_fallback.

(* C03_only_issuer_keys with the dates visible: default setting, success => the signer's key is held by a certificate
   (of whatever window) of a signing / use-less key descriptor of the ISSUER's entity *)
Theorem C03_validity_only_issuer_keys :
  forall mp m issuer embedded signer,
    vcheck_signature mp m issuer true embedded signer = Ok tt ->
    mp = true /\ exists i e r kd c, issuer = Some i /\ vfind_entity m i = Some e /\ In r e /\ In kd r /\
      (vkd_use kd = Some SIGNING \/ vkd_use kd = None) /\ In c (vkd_certs kd) /\ c_key c = signer.
Proof.
  intros mp m issuer embedded signer H. destruct (vcheck_accepts_declared _ _ _ _ _ H) as (c & Hd & Hk).
  unfold declared_signing in Hd. destruct mp; [|destruct Hd]. split; [reflexivity|].
  destruct (vmd_certs m issuer SIGNING) as [l|] eqn:Mc; [|destruct Hd].
  destruct (vmd_certs_spec _ _ _ _ Mc) as (i & e & Hi & F & S). apply S in Hd as (r & kd & Hr & Hkd & Hu & Hc).
  exists i, e, r, kd, c. repeat split; auto. unfold vuse_matches in Hu. destruct (vkd_use kd) as [u|]; [left|now right].
  apply str_eqb_eq in Hu. now subst.
Qed.
Print Assumptions C03_validity_only_issuer_keys.

(* conversely: the key of a declared certificate is accepted under both settings, whatever the window of that certificate *)
Theorem C03_declared_key_accepted_whatever_window :
  forall mp m issuer only_md embedded c,
    In c (declared_signing mp m issuer) -> vcheck_signature mp m issuer only_md embedded (c_key c) = Ok tt.
Proof.
  intros mp m issuer only_md embedded c Hc. rewrite vcheck_signature_verdict, verdict_of_keys_ok.
  rewrite (proj2 (vchosen_declared _ _ _ _ _ _ Hc)). now apply in_map.
Qed.
Print Assumptions C03_declared_key_accepted_whatever_window.

(* non-vacuity: idp1 declares key 1 in an EXPIRED certificate.  Key 9 signs and embeds its own valid certificate:
   refused under both settings; key 1 accepted; without any key descriptor the setting-off fallback trusts key 9 *)
Definition fed_expired : vmdstore :=
  [(s2l "idp1", [[{| vkd_use := Some SIGNING; vkd_certs := [{| c_key := 1; c_valid := Expired |}] |}]])].
Theorem C03_validity_witness :
  vcheck_signature true fed_expired (Some (s2l "idp1")) false [{| c_key := 9; c_valid := Valid |}] 9 = Err (s2l "SignatureError") /\
  vcheck_signature true fed_expired (Some (s2l "idp1")) true [{| c_key := 9; c_valid := Valid |}] 9 = Err (s2l "SignatureError") /\
  vcheck_signature true fed_expired (Some (s2l "idp1")) false [{| c_key := 9; c_valid := Valid |}] 1 = Ok tt /\
  vcheck_signature true [(s2l "idp1", [[]])] (Some (s2l "idp1")) false [{| c_key := 9; c_valid := Valid |}] 9 = Ok tt.
Proof. vm_compute. repeat split. Qed.
Print Assumptions C03_validity_witness.

(* ======================================================================================
   WHERE the issuer's descriptor comes from: metadata sources other than local files
   (Model/CertSource.v): static sources (inline / remote) and the lazy MDQ / MDX source, which
   asks a server per entity id and caches what it got.  [server] is ANY function from the asked
   id to an answer (not found | unparsable | descriptors, each with its own entityID).
   [holds ss d]: one of the sources holds descriptor d; [served_now srv i d]: d is a member of
   the answer of srv to the question i; [declares_signing d k]: k is a certificate of a signing
   or use-less key descriptor of d. *)

(* one check, any store, any answer function, default setting: accepted => the signer's key is
   declared for signing by a descriptor whose entityID IS the issuer, which the store held or the
   server has just sent - never by whatever else the source holds or was sent *)
Theorem C03_source_named_like_issuer :
  forall srv ss issuer embedded signer ss',
    src_check srv ss issuer true embedded signer = (Ok tt, ss') ->
    exists d, d_id d = issuer /\ (holds ss d \/ served_now srv issuer d) /\ declares_signing d signer.
Proof.
  intros srv ss issuer embedded signer ss' H.
  destruct (src_check_sound _ _ _ _ _ _ _ H) as [Hd|[Ho _]]; [exact Hd|discriminate].
Qed.
Print Assumptions C03_source_named_like_issuer.

(* setting off: the only other way in is the embedded certificate *)
Theorem C03_source_setting_off :
  forall srv ss issuer embedded signer ss',
    src_check srv ss issuer false embedded signer = (Ok tt, ss') ->
    (exists d, d_id d = issuer /\ (holds ss d \/ served_now srv issuer d) /\ declares_signing d signer) \/ In signer embedded.
Proof.
  intros srv ss issuer embedded signer ss' H.
  destruct (src_check_sound _ _ _ _ _ _ _ H) as [Hd|[_ He]]; [now left|now right].
Qed.
Print Assumptions C03_source_setting_off.

(* ... and a descriptor named like the issuer that declares a signing certificate closes that way: the verdict is
   the one of the default setting *)
Theorem C03_source_named_descriptor_blocks_fallback :
  forall srv ss issuer embedded signer d ss' c0 l,
    store_lookup srv ss issuer = (Found d, ss') ->
    md_certs [(issuer, d_ent d)] (Some issuer) SIGNING = Some (c0 :: l) ->
    fst (src_check srv ss issuer false embedded signer) = fst (src_check srv ss issuer true [] signer).
Proof.
  intros srv ss issuer embedded signer d ss' c0 l L M. unfold src_check. rewrite L. cbn [fst verdict_of].
  rewrite !check_signature_verdict. unfold chosen_of. rewrite M. reflexivity.
Qed.
Print Assumptions C03_source_named_descriptor_blocks_fallback.

(* a lookup never hands out a descriptor of another name, and everything a store comes to hold it held before or was sent *)
Theorem C03_source_lookup :
  forall srv ss asked r ss',
    store_lookup srv ss asked = (r, ss') ->
    (forall d, r = Found d -> d_id d = asked /\ holds ss' d) /\
    (forall x, holds ss' x -> holds ss x \/ served_now srv asked x).
Proof.
  intros srv ss asked r ss'. apply store_lookup_spec.
Qed.
Print Assumptions C03_source_lookup.

(* histories on one long-lived client (induction over the operation sequence; every step with its own answer
   function - the server may change its mind, replay, mix up): the n-th check is accepted only under a key declared
   by a descriptor NAMED like the n-th issuer that the store held at the start or that was sent in one of the
   answers up to then (first lookup, second lookup, cached or not) *)
Theorem C03_source_history :
  forall qs ss n q,
    nth_error qs n = Some q -> nth_error (run_steps true ss qs) n = Some (Ok tt) ->
    exists d, d_id d = q_issuer q /\ (holds ss d \/ served_in (firstn (S n) qs) d) /\ declares_signing d (q_signer q).
Proof.
  intros qs ss n q Hq Hr. destruct (run_steps_sound true qs ss n q Hq Hr) as [Hd|[Ho _]]; [exact Hd|discriminate].
Qed.
Print Assumptions C03_source_history.

Theorem C03_source_history_setting_off :
  forall qs ss n q,
    nth_error qs n = Some q -> nth_error (run_steps false ss qs) n = Some (Ok tt) ->
    (exists d, d_id d = q_issuer q /\ (holds ss d \/ served_in (firstn (S n) qs) d) /\ declares_signing d (q_signer q)) \/
    In (q_signer q) (q_embedded q).
Proof.
  intros qs ss n q Hq Hr. destruct (run_steps_sound false qs ss n q Hq Hr) as [Hd|[_ He]]; [now left|now right].
Qed.
Print Assumptions C03_source_history_setting_off.

(* A lazy source that files the answer under the ASKED id without comparing it with the descriptor's own entityID
   (lazy_lookup_unchecked) does not have the property: the server answers every question with idpA's descriptor
   (a fallback answer); a signature for issuer idpB made with idpA's key 1 is accepted, although nothing named idpB
   was ever sent.  The code as it is refuses (MissingKey). *)
Definition descA : descriptor := {| d_id := idpA; d_ent := [[ {| kd_use := Some SIGNING; kd_certs := [1] |} ]] |}.
Definition descB : descriptor := {| d_id := idpB; d_ent := [[ {| kd_use := Some SIGNING; kd_certs := [2] |} ]] |}.
Definition fallback_server : server := fun _ => Served [descA].
Theorem C03_source_unchecked_refuted :
  exists srv issuer signer,
    src_check_unchecked srv [] issuer true [] signer = Ok tt /\
    (forall d, served_now srv issuer d -> d_id d <> issuer) /\
    fst (src_check srv [Lazy []] issuer true [] signer) = Err (s2l "MissingKey").
Proof.
  exists fallback_server, idpB, 1. split; [reflexivity|]. split; [|reflexivity].
  intros d (ds & Hs & Hd). injection Hs as <-. destruct Hd as [<-|[]]. vm_compute. discriminate.
Qed.
Print Assumptions C03_source_unchecked_refuted.

(* non-vacuity: own answer, another entity's answer, aggregate, first lookup / second lookup, a static source after the lazy one *)
Example C03_source_witness :
  fst (src_check (fun _ => Served [descB]) [Lazy []] idpB true [] 2) = Ok tt /\
  fst (src_check fallback_server [Lazy []] idpB true [1] 1) = Err (s2l "MissingKey") /\
  fst (src_check fallback_server [Lazy []] idpB false [1] 1) = Ok tt /\
  fst (src_check (fun _ => Served [descA; descB]) [Lazy []] idpB true [] 1) = Err (s2l "SignatureError") /\
  fst (src_check (fun _ => Served [descA; descB]) [Lazy []] idpB false [1] 1) = Err (s2l "SignatureError") /\
  fst (src_check fallback_server [Lazy []; Static [descB]] idpB true [] 2) = Ok tt /\
  fst (src_check (fun _ => Unparsable) [Lazy []] idpB false [2] 2) = Err (s2l "ParseError") /\
  run_steps true [Lazy []] [ {| q_srv := fallback_server; q_issuer := idpB; q_embedded := []; q_signer := 1 |};
                             {| q_srv := fun _ => NotFound; q_issuer := idpA; q_embedded := []; q_signer := 1 |};
                             {| q_srv := fun _ => Served [descB]; q_issuer := idpB; q_embedded := []; q_signer := 1 |};
                             {| q_srv := fallback_server; q_issuer := idpB; q_embedded := []; q_signer := 2 |} ]
    = [Err (s2l "MissingKey"); Ok tt; Err (s2l "SignatureError"); Ok tt].
Proof. vm_compute. repeat split; reflexivity. Qed.
Print Assumptions C03_source_witness.
