(* Props/Glue.v — theorems RELATING the hand-written models of the 20 property checks to each other
   (docs/Glue.md).  Each property's model is tied to the code by its own correspondence tests; the
   statements here are machine-checked bridges between models that describe the same piece of the library,
   so that a property proved over one model is carried to the model another property ties to the code.
   Proved from the lemmas of Proofs/Glue_*.v.  No property file depends on this file; the property files carry one bridge
   theorem each (C03, C10, C15, C16, C17, C18, C19). *)
From PV Require Import Lib.Base.
From PV Require Proofs.Glue_certs Proofs.Glue_enc_certs Proofs.Glue_xsw Proofs.Glue_quote Proofs.Glue_time Proofs.Glue_sigver.
From PV Require Model.TimeUtil Proofs.TimeUtil_lemmas.
Open Scope N_scope.

(* ====================================================================================================
   1. metadata certificates: Model/CertSelect.v md_certs (C03, C08, C10, C17)  vs  Model/MdStore.v
      store_certs (C16), both following the library + proposed_fix/C03-1.  [abs_store num st]: the C16 store st as a CertSelect store - per entity one
      key-descriptor group per descriptor TYPE in the order certs(.., any, ..) visits them, certificate
      texts numbered by num after repack_cert. *)
Module G1.
Import Glue_certs.

(* MetadataStore.__getitem__ : the first source that has the entity, in both models *)
Theorem Glue_getitem_agrees :
  forall num st i, CS.find_entity (abs_store num st) i = option_map (abs_entity num) (MS.store_get st i).
Proof. exact find_entity_abs_store. Qed.
Print Assumptions Glue_getitem_agrees.

(* MetaData.certs(.., any, ..) in C03's and in C16's model is ONE function: same certificates, same order, same
   duplicates dropped, KeyError (unknown entity) there = None here - for every store, entity and use (num injective on
   the texts of the served entity; Glue_md_certs_eq_canonical: no hypothesis).  Both models follow the library with
   proposed_fix/C03-1. *)
Theorem Glue_md_certs_eq :
  forall num st i use,
    inj_on (served_text st i) num ->
    CS.md_certs (abs_store num st) (Some i) use =
    match MS.store_certs st i ANY use with Ok l => Some (map num l) | Err _ => None end.
Proof. exact md_certs_eq. Qed.
Print Assumptions Glue_md_certs_eq.

(* the numbering "position in the list of all certificate texts of the store" always qualifies *)
Theorem Glue_md_certs_eq_canonical :
  forall st i use,
    CS.md_certs (abs_store (num_of (store_texts st)) st) (Some i) use =
    match MS.store_certs st i ANY use with Ok l => Some (map (num_of (store_texts st)) l) | Err _ => None end.
Proof. exact md_certs_eq_canonical. Qed.
Print Assumptions Glue_md_certs_eq_canonical.

Theorem Glue_md_certs_agree :
  forall num st i use l,
    inj_on (served_text st i) num ->
    MS.store_certs st i ANY use = Ok l ->
    CS.md_certs (abs_store num st) (Some i) use = Some (map num l).
Proof. exact md_certs_agree. Qed.
Print Assumptions Glue_md_certs_agree.

Theorem Glue_md_certs_agree_canonical :
  forall st i use l,
    MS.store_certs st i ANY use = Ok l ->
    CS.md_certs (abs_store (num_of (store_texts st)) st) (Some i) use = Some (map (num_of (store_texts st)) l).
Proof. intros st i use l. apply md_certs_agree. apply num_of_store_inj. Qed.
Print Assumptions Glue_md_certs_agree_canonical.

(* unknown entity: KeyError there, None here - and md_certs is None only then *)
Theorem Glue_md_certs_unknown :
  forall num st i use,
    (MS.store_get st i = None ->
       MS.store_certs st i ANY use = Err MS.KeyError /\ CS.md_certs (abs_store num st) (Some i) use = None) /\
    (CS.md_certs (abs_store num st) (Some i) use = None -> MS.store_get st i = None).
Proof.
  intros num st i use.
  rewrite store_certs_any, md_certs_abs. destruct (MS.store_get st i) as [e|]; cbn [option_map]; split; try discriminate; auto.
Qed.
Print Assumptions Glue_md_certs_unknown.

(* certs(.., any, ..) fails for an unknown entity only *)
Theorem Glue_md_certs_keyerror :
  forall num st i use x,
    MS.store_certs st i ANY use = Err x ->
    x = MS.KeyError /\ MS.store_get st i = None /\ CS.md_certs (abs_store num st) (Some i) use = None.
Proof.
  intros num st i use x H. rewrite store_certs_any in H. rewrite md_certs_abs. destruct (MS.store_get st i) as [e|]; [discriminate|].
  split; [congruence|]. split; reflexivity.
Qed.
Print Assumptions Glue_md_certs_keyerror.

(* ... and so are the certificate selection and the verdict of _check_signature (store_check_signature: the selection
   over the C16 store with the KeyError swallowed as sigver.py does) *)
Theorem Glue_check_signature_agrees :
  forall num mp st issuer only_md embedded signer,
    (forall i, issuer = Some i -> inj_on (served_text st i) num) ->
    store_candidate_certs num mp st issuer only_md embedded = CS.candidate_certs mp (abs_store num st) issuer only_md embedded /\
    store_check_signature num mp st issuer only_md embedded signer =
      CS.check_signature mp (abs_store num st) issuer only_md embedded signer.
Proof. exact store_check_agrees. Qed.
Print Assumptions Glue_check_signature_agrees.

Theorem Glue_check_signature_agrees_canonical :
  forall mp st issuer only_md embedded signer,
    let num := num_of (store_texts st) in
    store_candidate_certs num mp st issuer only_md embedded = CS.candidate_certs mp (abs_store num st) issuer only_md embedded /\
    store_check_signature num mp st issuer only_md embedded signer =
      CS.check_signature mp (abs_store num st) issuer only_md embedded signer.
Proof. intros mp st issuer only_md embedded signer. cbv zeta. apply store_check_agrees. intros i _. apply num_of_store_inj. Qed.
Print Assumptions Glue_check_signature_agrees_canonical.

(* the code before proposed_fix/C03-1 (store_certs_before_fix): certs() raised KeyError in exactly one more case, a
   use-matching KeyDescriptor of the served entity without X509Data - where md_certs answers ... *)
Theorem Glue_md_certs_before_fix_keyerror :
  forall num st i use x,
    MS.store_certs_before_fix st i ANY use = Err x ->
    x = MS.KeyError /\
    (MS.store_get st i = None \/
     exists e r k, MS.store_get st i = Some e /\ In r (MS.e_roles e) /\ any_role r /\ In k (MS.r_keys r) /\
                   MS.use_ok use k = true /\ MS.kd_certs k = [] /\
                   exists l', CS.md_certs (abs_store num st) (Some i) use = Some l').
Proof.
  intros num st i use x H. rewrite store_certs_before_fix_any in H. rewrite md_certs_abs. destruct (MS.store_get st i) as [e|].
  - pose proof (MSL.certs_any_before_fix_char use e MS.ANY_ROLES) as C. rewrite H in C.
    destruct C as (-> & d & r & k & Hd & Hr & Hk & Hu & Hc). apply MSL.roles_of_In in Hr as [Hr Ht].
    split; [reflexivity|]. right.
    exists e, r, k. repeat split; auto; [now exists d|]. cbn [option_map]. eexists. reflexivity.
  - split; [congruence|now left].
Qed.
Print Assumptions Glue_md_certs_before_fix_keyerror.

(* ... under the side condition (every key descriptor certs() would read has X509Data) the repair changes nothing ... *)
Theorem Glue_store_certs_before_fix_complete :
  forall st i use, x509_complete use st i -> MS.store_certs_before_fix st i ANY use = MS.store_certs st i ANY use.
Proof.
  intros st i use Hx. rewrite store_certs_before_fix_any, store_certs_any.
  destruct (MS.store_get st i) as [e|] eqn:He; [|reflexivity].
  pose proof (MSL.certs_any_before_fix_char use e MS.ANY_ROLES) as C.
  destruct (MS.certs_any_before_fix use e MS.ANY_ROLES) as [l|x]; [now subst|].
  destruct C as (_ & d & r & k & Hd & Hr & Hk & Hu & Hc). apply MSL.roles_of_In in Hr as [Hr Ht].
  exfalso. apply (Hx e r k He Hr); auto. now exists d.
Qed.
Print Assumptions Glue_store_certs_before_fix_complete.

(* ... and the witness with its consequences for _check_signature (the unpatched library behaves as the _before_fix
   lines say, the patched one as the others: harness/glue_probe.py): the declared key 1 refused with MissingKey under
   the default setting; any embedded key (9) accepted with the setting off although metadata holds a signing key *)
Theorem Glue_md_certs_before_fix_witness :
  MS.store_certs_before_fix ex_bad (s2l "A") ANY MS.U_SIGNING = Err MS.KeyError /\
  MS.store_certs ex_bad (s2l "A") ANY MS.U_SIGNING = Ok [cert_a] /\
  CS.md_certs (abs_store ex_num ex_bad) (Some (s2l "A")) CS.SIGNING = Some [1] /\
  CS.md_certs_before_fix (abs_store ex_num ex_bad) (Some (s2l "A")) CS.SIGNING = None /\
  store_check_signature_before_fix ex_num true ex_bad (Some (s2l "A")) true [1] 1 = Err (s2l "MissingKey") /\
  CS.check_signature_before_fix true (abs_store ex_num ex_bad) (Some (s2l "A")) true [1] 1 = Err (s2l "MissingKey") /\
  store_check_signature ex_num true ex_bad (Some (s2l "A")) true [1] 1 = Ok tt /\
  CS.check_signature true (abs_store ex_num ex_bad) (Some (s2l "A")) true [1] 1 = Ok tt /\
  store_check_signature_before_fix ex_num true ex_bad (Some (s2l "A")) false [9] 9 = Ok tt /\
  CS.check_signature_before_fix true (abs_store ex_num ex_bad) (Some (s2l "A")) false [9] 9 = Ok tt /\
  store_check_signature ex_num true ex_bad (Some (s2l "A")) false [9] 9 = Err (s2l "SignatureError") /\
  CS.check_signature true (abs_store ex_num ex_bad) (Some (s2l "A")) false [9] 9 = Err (s2l "SignatureError").
Proof. vm_compute. repeat split; reflexivity. Qed.
Print Assumptions Glue_md_certs_before_fix_witness.

(* membership in md_certs of an abstracted store, in C16's words *)
Theorem Glue_md_certs_members :
  forall num st i use l x,
    CS.md_certs (abs_store num st) (Some i) use = Some l ->
    (In x l <-> exists e r k c0, MS.store_get st i = Some e /\ In r (MS.e_roles e) /\ any_role r /\ In k (MS.r_keys r) /\
                                 MS.use_ok use k = true /\ In c0 (MS.kd_certs k) /\ x = num (MS.repack_cert c0)).
Proof.
  intros num st i use l x H. transitivity (exists l', CS.md_certs (abs_store num st) (Some i) use = Some l' /\ In x l').
  { split; [intros Hx; now exists l|]. intros (l' & E & Hx). rewrite H in E. now injection E as <-. }
  rewrite CSL.md_certs_In, (abs_store_In num st i (fun u => u = Some use \/ u = None)).
  split; intros (e & r & k & c0 & He & Hr & Ha & Hk & Hu & Hc); exists e, r, k, c0;
    (split; [exact He|]); (split; [exact Hr|]); (split; [exact Ha|]); (split; [exact Hk|]); (split; [|exact Hc]).
  - apply MSL.use_ok_cases. tauto.
  - apply MSL.use_ok_cases in Hu. tauto.
Qed.
Print Assumptions Glue_md_certs_members.

(* C03 carried down: an accepted signature's key stands in a signing / use-less key descriptor of an unexpired
   EntityDescriptor of the issuer in the document of a registered (admissible) source - for the CertSelect check
   (the one C03, C08, C10 are proved about) and for the faithful selection over the C16 store *)
Theorem Glue_accepted_key_in_loaded_documents :
  forall num now srcs mp issuer embedded signer,
    (CS.check_signature mp (abs_store num (MS.load_all now [] srcs)) issuer true embedded signer = Ok tt \/
     store_check_signature num mp (MS.load_all now [] srcs) issuer true embedded signer = Ok tt) ->
    mp = true /\ exists i, issuer = Some i /\ declared_in_documents num now srcs MS.U_SIGNING i signer.
Proof.
  intros num now srcs mp issuer embedded signer [H|H];
    [exact (accepted_key_in_loaded_documents _ _ _ _ _ _ _ H)|exact (store_accepted_key_in_loaded_documents _ _ _ _ _ _ _ H)].
Qed.
Print Assumptions Glue_accepted_key_in_loaded_documents.

(* [trusted_for] - the conclusion of C03_document, C03_accepted_under_own_issuer and the history theorems - is
   C16's "declared by the served entity", and implies "declared in a loaded document" *)
Theorem Glue_trusted_for_declared :
  forall num st i x, IssuerSel_lemmas.trusted_for (abs_store num st) i x <-> declared_signing_key num st i x.
Proof. exact trusted_for_declared. Qed.
Print Assumptions Glue_trusted_for_declared.

(* the example federation meets every hypothesis used above; grouping per role DESCRIPTOR instead of per type
   would not reproduce certs() *)
Example Glue_certs_example :
  (MS.store_certs ex_store (s2l "A") ANY MS.U_SIGNING = Ok [cert_a; cert_b; cert_c; cert_a] /\
   CS.md_certs (abs_store ex_num ex_store) (Some (s2l "A")) CS.SIGNING = Some [1; 2; 3; 1]) /\
  (inj_on (served_text ex_store (s2l "A")) ex_num /\ x509_complete CS.SIGNING ex_store (s2l "A") /\
   ~ x509_complete CS.SIGNING ex_bad (s2l "A")) /\
  flat_map (fun r => CS.extract_certs CS.SIGNING r []) (abs_entity_per_descriptor ex_num ex_A) = [1; 2; 1; 3; 1].
Proof.
  split; [|split].
  - split; apply certs_example.
  - exact certs_example_hypotheses.
  - apply per_descriptor_grouping_differs.
Qed.
Print Assumptions Glue_certs_example.

(* use = encryption (C17, Model/EncryptMd.v) *)
Import Glue_enc_certs.
Theorem Glue_sp_enc_cert_declared :
  forall num st sp x, EM.sp_enc_cert (abs_store num st) sp x <-> declared_enc_key num st sp x.
Proof. exact sp_enc_cert_declared. Qed.
Print Assumptions Glue_sp_enc_cert_declared.

Theorem Glue_md_enc_certs_agree :
  forall num st sp l,
    inj_on (served_text st sp) num ->
    MS.store_certs st sp ANY MS.U_ENCRYPTION = Ok l ->
    EM.md_enc_certs (abs_store num st) sp = map EM.cert_pair (map num l).
Proof.
  intros num st sp l Hinj H. unfold EM.md_enc_certs. rewrite ENCRYPTION_same. now rewrite (md_certs_agree num st sp _ l Hinj H).
Qed.
Print Assumptions Glue_md_enc_certs_agree.

Theorem Glue_ciphertext_keys_from_loaded_documents :
  forall num now srcs g sp i t k,
    EM.idp_build_md g (abs_store num (MS.load_all now [] srcs)) sp i = Ok t -> In k (Encrypt.enc_keys t) ->
    Encrypt.g_cert_assertion g = Encrypt.CGiven k true \/ Encrypt.g_cert_advice g = Encrypt.CGiven k true \/
    (declared_in_documents num now srcs MS.U_ENCRYPTION sp k /\ k <> 0).
Proof. exact ciphertext_keys_from_loaded_documents. Qed.
Print Assumptions Glue_ciphertext_keys_from_loaded_documents.
End G1.

(* ====================================================================================================
   2. symbolic documents and the enveloped-signature pre-check: Model/Xmlsec.v (C10, C16) vs Model/Xsw.v
      (C01) vs Model/Request.v enveloped_ok vs Model/MdSig.v md_precheck.  [emb]: an Xmlsec document as an Xsw
      document (element names + 1: Xsw keeps name 0 for ds:Signature; an embedded signature has no ID, payload
      or element children); pol_of: dupfail = DupFail, first-wins = DupFirst. *)
Module G2.
Import Glue_xsw.

(* the tool: same verdict (any document whose root is an element, any name, any / no node id, any certificate) *)
Theorem Glue_tool_verify_agrees :
  forall dupfail doc nm i cert,
    M.is_sig doc = false ->
    X.tool_verify (pol_of dupfail) (emb doc) (nm' nm) i cert = M.tool_verify dupfail doc nm i cert.
Proof. exact tool_verify_emb. Qed.
Print Assumptions Glue_tool_verify_agrees.

(* the building blocks commute with the embedding: sub-trees, first signature, ID table, digests, enveloped transform *)
Theorem Glue_document_functions_commute :
  (forall p t, X.subtree_at p (emb t) = option_map emb (M.subtree_at p t)) /\
  (forall t, X.first_sig (emb t) = M.first_sig t) /\
  (forall nm t, X.registered (nm' nm) (emb t) = M.registered nm t []) /\
  (forall a b, X.tree_eqb (emb a) (emb b) = M.tree_eqb a b) /\
  (forall p t, X.remove_at p (emb t) = emb (M.remove_at p t)) /\
  (forall v t, List.length (M.with_id v (M.all_ids t [])) = List.length (X.carriers v (emb t))).
Proof.
  split; [exact subtree_emb|]. split; [exact first_sig_emb|]. split; [exact registered_emb_root|].
  split; [exact tree_eqb_emb|]. split; [exact remove_at_emb|exact all_ids_count].
Qed.
Print Assumptions Glue_document_functions_commute.

(* the enveloping pre-check: ONE predicate in the three models - Xmlsec.precheck (C10, C16; it counts the carriers of the
   ID among the elements of ANY name, as sigver._enveloped_signature_ok does), Request.enveloped_ok (which is
   Xmlsec.precheck) and the pre-check C01 is proved about *)
Theorem Glue_xmlsec_precheck_is_C01_precheck :
  forall doc nm i, X.precheck (emb doc) (nm' nm) i = M.precheck doc nm i.
Proof. exact xmlsec_precheck_is_xsw_precheck. Qed.
Print Assumptions Glue_xmlsec_precheck_is_C01_precheck.

Theorem Glue_request_precheck_is_C01_precheck :
  forall doc nm i, X.precheck (emb doc) (nm' nm) i = RQ.enveloped_ok doc nm i /\ RQ.enveloped_ok doc nm i = M.precheck doc nm i.
Proof. intros doc nm i. split; [exact (enveloped_ok_is_xsw_precheck doc nm i)|reflexivity]. Qed.
Print Assumptions Glue_request_precheck_is_C01_precheck.

(* a pre-check that counts the carriers among the elements of the asked NAME only (precheck_registered_only) accepts
   the ID of the AuthnRequest repeated on an element of another name, which the library refuses
   (harness/glue_probe.py); all models refuse it *)
Theorem Glue_xmlsec_precheck_foreign_carrier_witness :
  precheck_registered_only foreign_carrier_doc 1 (Some (s2l "a-1")) = true /\
  M.tool_verify true foreign_carrier_doc 1 (Some (s2l "a-1")) 5 = true /\
  M.precheck foreign_carrier_doc 1 (Some (s2l "a-1")) = false /\
  M.check_signature_x true foreign_carrier_doc 1 (Some (s2l "a-1")) [5] = false /\
  X.precheck (emb foreign_carrier_doc) (nm' 1) (Some (s2l "a-1")) = false /\
  RQ.enveloped_ok foreign_carrier_doc 1 (Some (s2l "a-1")) = false.
Proof. vm_compute. repeat split; reflexivity. Qed.
Print Assumptions Glue_xmlsec_precheck_foreign_carrier_witness.

(* _check_signature after certificate selection: one verdict *)
Theorem Glue_check_signature_x_agrees :
  forall dupfail doc nm i certs,
    X.check_signature_x (pol_of dupfail) (emb doc) (nm' nm) i certs = M.check_signature_x dupfail doc nm i certs /\
    X.check_signature_x (pol_of dupfail) (emb doc) (nm' nm) i certs =
    RQ.enveloped_ok doc nm i && existsb (M.tool_verify dupfail doc nm (RQ.node_id_arg i)) certs.
Proof. intros. split; [apply check_signature_x_is_xmlsec|apply check_signature_x_emb]. Qed.
Print Assumptions Glue_check_signature_x_agrees.

(* C01_relied_is_covered for requests: a signed request that passes the signature check is covered in C01's sense -
   non-empty ID carried by NO other node of the document, exactly one Signature child, first in document order,
   single reference to that ID, intact value under one of the certificates selected for the issuer, digest = the
   request element minus that child *)
Theorem Glue_request_relied_is_covered :
  forall c d nm ovc,
    RQ.check_sig true true c d nm ovc = Ok tt ->
    exists certs v Xn k D,
      RQ.request_certs c d = Ok certs /\ RQ.root_id (RQ.d_tree d) = Some v /\
      XL.covered (emb (RQ.d_tree d)) (nm' nm) v certs [] Xn k D /\ Xn = emb (RQ.d_tree d).
Proof. exact request_relied_is_covered. Qed.
Print Assumptions Glue_request_relied_is_covered.

Theorem Glue_parse_request_relied_is_covered :
  forall c k b w d,
    RQ.parse_request true true c k b w = Ok (Some d) -> RQ.root_signed (RQ.d_tree d) = true ->
    exists certs v Xn j D,
      RQ.request_certs c d = Ok certs /\ RQ.root_id (RQ.d_tree d) = Some v /\
      XL.covered (emb (RQ.d_tree d)) (nm' (RQ.kind_name k)) v certs [] Xn j D /\ Xn = emb (RQ.d_tree d).
Proof. exact parse_request_relied_is_covered. Qed.
Print Assumptions Glue_parse_request_relied_is_covered.

(* C01_accepted_content_was_signed for requests: the attacker cannot forge values of protected keys (C01's
   derivability invariant) => what the receiver relies on was signed by a protected key's owner under that ID *)
Theorem Glue_request_accepted_content_was_signed :
  forall protected (signed : list (str * X.tree) -> Prop) c d nm ovc,
    RQ.check_sig true true c d nm ovc = Ok tt ->
    XL.derivable protected signed (emb (RQ.d_tree d)) ->
    (forall certs x, RQ.request_certs c d = Ok certs -> In x certs -> In x protected) ->
    exists v k D, RQ.root_id (RQ.d_tree d) = Some v /\
      D = X.with_kids (emb (RQ.d_tree d)) (X.remove_nth k (X.t_kids (emb (RQ.d_tree d)))) /\ signed [(X.HASH :: v, D)].
Proof.
  intros protected signed c d nm ovc H Hd Hp. destruct (request_relied_is_covered _ _ _ _ H) as (certs & v & Xn & k & D & Hc & Hi & Hcov & ->).
  exists v, k, D. split; [exact Hi|]. split; [exact (XL.cv_digest _ _ _ _ _ _ _ _ Hcov)|].
  exact (XL.covered_signed protected signed _ _ _ _ _ _ _ _ Hd (fun x => Hp certs x Hc) Hcov).
Qed.
Print Assumptions Glue_request_accepted_content_was_signed.

(* metadata (C16): md_precheck = a reference to the whole document, or C01's pre-check for the root under its own name *)
Theorem Glue_md_precheck_char :
  forall n i pl kids,
    MD.md_precheck (M.El n i pl kids) = whole_ref (M.El n i pl kids) || X.precheck (emb (M.El n i pl kids)) (nm' n) i.
Proof. exact md_precheck_char. Qed.
Print Assumptions Glue_md_precheck_char.
End G2.

(* ====================================================================================================
   3. percent-encoding: Model/Codec.v (C14) vs Model/Redirect.v (C15) vs Model/Ident.v (C18) vs Model/Cache.v (C19).
      [quote_x plus exc]: Codec.quote_byte except where exc names another spelling; one round-trip theorem. *)
Module G3.
Import Codec Base64_lemmas Glue_quote.

Theorem Glue_quote_round_trip_single_source :
  forall plus exc bs, exc_ok plus exc -> Forall byte bs -> unquote_gen plus (quote_x plus exc bs) = bs.
Proof. exact unquote_quote_x. Qed.
Print Assumptions Glue_quote_round_trip_single_source.

Theorem Glue_quote_injective_single_source :
  forall plus exc a b, exc_ok plus exc -> Forall byte a -> Forall byte b -> quote_x plus exc a = quote_x plus exc b -> a = b.
Proof. exact quote_x_injective. Qed.
Print Assumptions Glue_quote_injective_single_source.

(* the four copies are instances of it (exceptions: none / tilde -> %7E when the flag is off / slash kept) *)
Theorem Glue_quote_copies_are_instances :
  forall bs,
    (quote bs = quote_x false exc_none bs /\ quote_plus bs = quote_x true exc_none bs) /\
    (forall ts, RD.quote_plus_g ts bs = quote_x true (exc_tilde ts) bs) /\
    ID.quote_s bs = quote_x false exc_slash bs /\
    CA.quote_id bs = quote_x false exc_slash bs /\
    (forall plus, exc_ok plus exc_none) /\ (forall plus ts, exc_ok plus (exc_tilde ts)) /\ (forall plus, exc_ok plus exc_slash).
Proof.
  intros bs. split; [exact (codec_quote_is_x bs)|]. split; [intros ts; exact (redirect_quote_is_x ts bs)|].
  split; [exact (ident_quote_is_x bs)|]. split; [exact (cache_quote_is_x bs)|].
  split; [exact exc_none_ok|]. split; [exact exc_tilde_ok|exact exc_slash_ok].
Qed.
Print Assumptions Glue_quote_copies_are_instances.

(* equal, or equal up to the documented exception character *)
Theorem Glue_quote_copies_equal :
  forall bs,
    ID.quote_s bs = CA.quote_id bs /\
    (forallb (fun c => negb (c =? 47)) bs = true -> ID.quote_s bs = quote bs) /\
    (forall ts, ts = true \/ forallb (fun c => negb (c =? 126)) bs = true -> RD.quote_plus_g ts bs = quote_plus bs).
Proof.
  intros bs. split; [exact (CAL.quote_same bs)|]. split; [exact (quote_s_is_codec_quote bs)|].
  intros ts. exact (quote_plus_g_is_codec_quote_plus ts bs).
Qed.
Print Assumptions Glue_quote_copies_equal.

Theorem Glue_urlencode_g_is_urlencode :
  forall ts ps, ts = true \/ Forall Redirect_lemmas.no_tilde_pair ps -> RD.urlencode_g ts ps = urlencode ps.
Proof. exact urlencode_g_is_codec_urlencode. Qed.
Print Assumptions Glue_urlencode_g_is_urlencode.

(* the round trips the property files use are the general one *)
Theorem Glue_all_quote_round_trips :
  forall bs, Forall byte bs ->
    unquote (quote bs) = bs /\ unquote_plus (quote_plus bs) = bs /\
    (forall ts, unquote_plus (RD.quote_plus_g ts bs) = bs) /\
    unquote (ID.quote_s bs) = bs /\ unquote (CA.quote_id bs) = bs.
Proof.
  intros bs H. split; [|split; [|split; [|split]]].
  - exact (unquote_quote_x false exc_none bs (exc_none_ok false) H).
  - exact (unquote_quote_x true exc_none bs (exc_none_ok true) H).
  - intros ts. rewrite redirect_quote_is_x. exact (unquote_quote_x true (exc_tilde ts) bs (exc_tilde_ok true ts) H).
  - rewrite ident_quote_is_x. exact (unquote_quote_x false exc_slash bs (exc_slash_ok false) H).
  - rewrite cache_quote_is_x. exact (unquote_quote_x false exc_slash bs (exc_slash_ok false) H).
Qed.
Print Assumptions Glue_all_quote_round_trips.

(* ident.code in C18's and in C19's model: one function (toC: absent / empty attribute = empty string) *)
Theorem Glue_ident_code_same : forall n, CA.code (toC n) = ID.code n.
Proof. exact code_same. Qed.
Print Assumptions Glue_ident_code_same.

(* ident.decode in C18's and in C19's model: ONE function on every string (Model/Cache.v's decode is Model/Ident.v's,
   read into Cache.v's record) *)
Theorem Glue_ident_decode_same :
  forall s, CA.decode s = match ID.decode s with Ok m => Ok (toC m) | Err e => Err e end.
Proof. exact decode_same. Qed.
Print Assumptions Glue_ident_decode_same.

Theorem Glue_ident_decode_same_on_codes :
  forall n, IDL.wfb n -> exists m, ID.decode (ID.code n) = Ok m /\ CA.decode (ID.code n) = Ok (toC m).
Proof.
  intros n H. exists (ID.norm n). split; [exact (IDL.decode_code n H)|].
  rewrite decode_same, (IDL.decode_code n H). reflexivity.
Qed.
Print Assumptions Glue_ident_decode_same_on_codes.

(* a decoder that reads the index as one digit (Cache.decode_one_digit) differs off the image of code(): the library
   follows Model/Ident.v (int("-1"), int("04") are indexes) *)
Theorem Glue_ident_decode_one_digit_witness :
  ID.decode (s2l "-1=a") = Ok (ID.nid_t (s2l "a")) /\ CA.decode_one_digit (s2l "-1=a") = Ok CA.no_nid /\
  CA.decode (s2l "-1=a") = Ok (toC (ID.nid_t (s2l "a"))) /\
  ID.decode (s2l "04=a") = Ok (ID.nid_t (s2l "a")) /\ CA.decode_one_digit (s2l "04=a") = Ok CA.no_nid /\
  CA.decode (s2l "04=a") = Ok (toC (ID.nid_t (s2l "a"))).
Proof. vm_compute. repeat split; reflexivity. Qed.
Print Assumptions Glue_ident_decode_one_digit_witness.
End G3.

(* ====================================================================================================
   4. time tests: time_util.before / valid (Model/MdStore.v, Model/Cache.v), validate_on_or_after / validate_before
      (Model/Response.v), issue_instant_ok (Model/Response.v for C04, Model/Request.v for C10). *)
Module G4.
Import Glue_time.
Open Scope Z_scope.

Theorem Glue_time_specs :
  (forall now p, not_past now p = true <-> now <= p) /\
  (forall now slack t, day_window now slack t = true <-> now - 86400 - slack <= t < now + 86400 + slack).
Proof. split; [exact not_past_spec|exact day_window_spec]. Qed.
Print Assumptions Glue_time_specs.

(* every "has this point passed" test is not_past *)
Theorem Glue_expiry_tests_are_one :
  (forall now t, MS.valid now (Some t) = not_past now t) /\
  (forall now z, CA.t_before now (CA.At z) = not_past now z /\ CA.t_after now (CA.At z) = negb (not_past now z)) /\
  (forall c t, is_ok (RS.validate_on_or_after c (Some t)) = not_past (RS.now c) (t + RS.slack c) /\
               is_ok (RS.validate_before c (Some t)) = not_past t (RS.now c + RS.slack c)).
Proof.
  split; [reflexivity|]. split; [split; reflexivity|]. exact response_lifetime_tests_are_not_past.
Qed.
Print Assumptions Glue_expiry_tests_are_one.

(* the IssueInstant window of responses (C04) and requests (C10) is one predicate *)
Theorem Glue_issue_instant_windows_are_one :
  (forall c t, RS.issue_instant_ok c t = day_window (RS.now c) (RS.slack c) t) /\
  (forall c t, RQ.issue_instant_ok c t = day_window (RQ.c_now c) (RQ.c_slack c) t) /\
  (forall c t, RQ.in_window c t <-> day_window (RQ.c_now c) (RQ.c_slack c) t = true) /\
  (forall now s1 s2 t, s1 <= s2 -> day_window now s1 t = true -> day_window now s2 t = true).
Proof.
  split; [reflexivity|]. split; [reflexivity|]. split; [exact request_in_window_is_day_window|exact day_window_mono].
Qed.
Print Assumptions Glue_issue_instant_windows_are_one.

(* C04 next to C19: accepted inside the allowance = stored already expired (the cache applies no allowance) *)
Theorem Glue_accepted_inside_allowance_is_expired_in_cache :
  forall c nooa, is_ok (RS.validate_on_or_after c (Some nooa)) = true -> nooa < RS.now c ->
    CA.t_after (RS.now c) (CA.At nooa) = true /\ CA.t_before (RS.now c) (CA.At nooa) = false.
Proof.
  intros c nooa _ Hlt. cbn [CA.t_after CA.t_before]. destruct (Z.leb_spec (RS.now c) nooa); [lia|]. split; reflexivity.
Qed.
Print Assumptions Glue_accepted_inside_allowance_is_expired_in_cache.

(* the same tests on the TEXTS the library receives (Model/TimeUtil.v: strptime, timegm, gmtime, tuple comparison): on a text
   that str_to_time reads, time_util.before / after against the clock ARE not_past on timegm of the parsed value - the
   already-parsed instant that MdStore.valid (C16), Cache.t_before / t_after (C19) and validate_on_or_after (C04) start from *)
Theorem Glue_text_expiry_tests_are_one :
  forall now s c, PV.Model.TimeUtil.str_to_time s = Ok (Some c) ->
    let t := PV.Model.TimeUtil.timegm c in
    PV.Model.TimeUtil.before now (PV.Model.TimeUtil.AText s) = Ok (not_past now t) /\
    PV.Model.TimeUtil.after now (PV.Model.TimeUtil.AText s) = Ok (negb (not_past now t)) /\
    MS.valid now (Some t) = not_past now t /\
    CA.t_before now (CA.At t) = not_past now t /\ CA.t_after now (CA.At t) = negb (not_past now t) /\
    (forall cfg, is_ok (RS.validate_on_or_after cfg (Some t)) = not_past (RS.now cfg) (t + RS.slack cfg)).
Proof.
  intros now s c H t. split; [exact (PV.Proofs.TimeUtil_lemmas.before_text now s c H)|].
  split; [exact (PV.Proofs.TimeUtil_lemmas.after_text now s c H)|].
  split; [reflexivity|]. split; [reflexivity|]. split; [reflexivity|].
  intros cfg. apply response_lifetime_tests_are_not_past.
Qed.
Print Assumptions Glue_text_expiry_tests_are_one.
End G4.

(* ====================================================================================================
   5. the last step of _check_signature (Model/Sigver.v for C20 / C03 vs Model/Request.v for C10) and Request.verify
      (Model/Status.v vs Model/Request.v). *)
Module G5.
Import Sigver Glue_sigver.

Theorem Glue_request_check_sig_is_check_signature_runs :
  forall pre fixd c d nm ovc,
    RQ.check_sig pre fixd c d nm ovc =
    match RQ.request_certs c d with
    | Err e => Err e
    | Ok certs =>
        let i := RQ.root_id (RQ.d_tree d) in
        if pre && negb (RQ.enveloped_ok (RQ.d_tree d) nm i) then Err (s2l "SignatureError") else
        let f := Xmlsec.tool_verify (RQ.c_dupfail c) (RQ.d_tree d) nm (RQ.node_id_arg i) in
        (if fixd then check_signature_runs else check_signature_runs_before_fix)
          false (map (fun k => run_of (f k)) certs) ovc (last_tried_valid c (find f certs) certs)
    end.
Proof. exact request_check_sig_is_check_signature_runs. Qed.
Print Assumptions Glue_request_check_sig_is_check_signature_runs.

(* the repaired code (fixd = true): Sigver.check_signature_runs itself, whatever only_valid_cert *)
Theorem Glue_request_check_sig_now :
  forall pre c d nm ovc,
    RQ.check_sig pre true c d nm ovc =
    match RQ.request_certs c d with
    | Err e => Err e
    | Ok certs =>
        let i := RQ.root_id (RQ.d_tree d) in
        if pre && negb (RQ.enveloped_ok (RQ.d_tree d) nm i) then Err (s2l "SignatureError") else
        let f := Xmlsec.tool_verify (RQ.c_dupfail c) (RQ.d_tree d) nm (RQ.node_id_arg i) in
        check_signature_runs false (map (fun k => run_of (f k)) certs) ovc (last_tried_valid c (find f certs) certs)
    end.
Proof. intros pre c d nm ovc. exact (request_check_sig_is_check_signature_runs pre true c d nm ovc). Qed.
Print Assumptions Glue_request_check_sig_now.

(* the code before the F16 repair (check_signature_runs_before_fix) let a valid certificate stand in for a signature
   that verifies under none when only_valid_cert is set; check_signature_runs, the library and Request.v with fixd raise
   SignatureError *)
Theorem Glue_check_signature_runs_before_fix_witness :
  check_signature_runs_before_fix false [run_of false] true true = Ok tt /\
  check_signature_runs false [run_of false] true true = Err (s2l "SignatureError") /\
  check_signature_runs false [run_of false] false true = Err (s2l "SignatureError") /\
  (forall c d nm, RQ.request_certs c d = Ok [7%N] -> RQ.cert_ok c 7 = true ->
      Xmlsec.tool_verify (RQ.c_dupfail c) (RQ.d_tree d) nm (RQ.node_id_arg (RQ.root_id (RQ.d_tree d))) 7 = false ->
      RQ.check_sig false true c d nm true = Err (s2l "SignatureError") /\
      RQ.check_sig false false c d nm true = Ok tt).
Proof.
  split; [reflexivity|]. split; [reflexivity|]. split; [reflexivity|]. intros c d nm Hc Hok Hv.
  rewrite !request_check_sig_is_check_signature_runs, Hc. cbv zeta. cbn [andb find map]. rewrite Hv.
  unfold last_tried_valid. cbn [map last]. rewrite Hok. split; reflexivity.
Qed.
Print Assumptions Glue_check_signature_runs_before_fix_witness.

Theorem Glue_request_verify_same :
  forall c addrs d,
    ST.request_verify (verify_view c addrs d) =
    match RQ.verify c addrs d with Err e => Err e | Ok None => Ok None | Ok (Some _) => Ok (Some tt) end.
Proof.
  intros c addrs d.
  unfold ST.request_verify, RQ.verify, verify_view. cbn [ST.r_version ST.r_dest_present ST.r_have_addrs ST.r_dest_in_addrs ST.r_issue_ok].
  change (ST.version_is_20 (RQ.d_version d)) with (match RQ.d_version d with Some v => str_eqb v RQ.V20 | None => false end).
  destruct (match RQ.d_version d with Some v => str_eqb v RQ.V20 | None => false end); cbn [negb]; [|reflexivity].
  destruct (RQ.truthy (RQ.d_destination d) && negb (CS.nilb addrs) &&
            negb (match RQ.d_destination d with Some x => RQ.addr_mem x addrs | None => false end)); [reflexivity|].
  destruct (RQ.d_issue_instant d) as [t|]; [|reflexivity]. destruct (RQ.issue_instant_ok c t); reflexivity.
Qed.
Print Assumptions Glue_request_verify_same.
End G5.
