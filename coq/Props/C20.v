(* Props/C20.v — failures of the external tool never turn into acceptance.
   The tool is arbitrary: every theorem quantifies over all [tool_result]s. *)
From PV Require Import Lib.Base Model.Sigver Proofs.Sigver_lemmas Model.MdStoreLoad Proofs.MdStoreLoad_lemmas.
Open Scope N_scope.

(* success is recognised only by a LINE that is exactly OK, with neither OK nor
   FAIL on an earlier line *)
Theorem C20_ok_line_exact :
  forall s, parse_xmlsec_output s = Ok true <->
    exists pre post, splitlines s = pre ++ OKs :: post /\ Forall (fun l => l <> OKs /\ l <> FAILs) pre.
Proof.
  intros s. unfold parse_xmlsec_output. rewrite <- scan_lines_spec.
  destruct (scan_lines (splitlines s)); split; congruence.
Qed.
Print Assumptions C20_ok_line_exact.

(* "OK" merely contained in other text on one line is not success *)
Theorem C20_ok_inside_text :
  forall s, forallb (fun c => negb (is_linebreak c)) s = true -> s <> OKs ->
    parse_xmlsec_output s = Err XmlsecError.
Proof.
  intros s Hs Hne. unfold parse_xmlsec_output, splitlines. rewrite (splitlines_aux_nobreak s [] Hs).
  cbn [rev app]. destruct s as [|c s]; [reflexivity|]. cbn [scan_lines].
  destruct (str_eqb_spec (c :: s) OKs) as [E|_]; [contradiction|].
  destruct (str_eqb (c :: s) FAILs); reflexivity.
Qed.
Print Assumptions C20_ok_inside_text.

(* Verification: for EVERY behaviour of the tool on the invocations made for
   the candidate certificates, if none of them reports success (not startable,
   killed by a signal, undecodable/garbled, no OK line, FAIL first, …) the
   signature check fails — it never returns normally. *)
Theorem C20_verify :
  forall (no_certs : bool) (runs : list tool_result) (only_valid_cert cert_valid : bool),
    (forall r, In r runs -> reports_success r = false) ->
    check_signature_runs no_certs runs only_valid_cert cert_valid <> Ok tt.
Proof.
  intros z runs ovc cv Hall H. unfold check_signature_runs in H. destruct z; [discriminate|].
  destruct (cert_loop runs) as [[|]|e] eqn:E; [|discriminate..].
  apply cert_loop_true in E as (r & Hin & Hr). rewrite (Hall r Hin) in Hr. discriminate.
Qed.
Print Assumptions C20_verify.

(* the library before fix 0b54cc6b (F16; check_signature_runs_before_fix) did not satisfy it for only_valid_cert = true:
   a tool run that reports FAIL, a valid certificate - and the check returned normally.  With only_valid_cert off that
   code and the repaired one agree (C20_verify_before_fix_partial). *)
Theorem C20_verify_before_fix_refuted :
  exists runs, (forall r, In r runs -> reports_success r = false) /\
    check_signature_runs_before_fix false runs true true = Ok tt /\
    check_signature_runs false runs true true = Err (s2l "SignatureError").
Proof.
  exists [Ran {| signaled := false; p_out := []; p_err := s2l "FAIL"; undecodable := false; outfile := [] |}].
  split; [intros r [<-|[]]; reflexivity|]. split; reflexivity.
Qed.
Print Assumptions C20_verify_before_fix_refuted.

Theorem C20_verify_before_fix_partial :
  forall (no_certs : bool) (runs : list tool_result) (cert_valid : bool),
    (forall r, In r runs -> reports_success r = false) ->
    check_signature_runs_before_fix no_certs runs false cert_valid <> Ok tt.
Proof.
  intros z runs cv Hall. rewrite check_signature_before_fix_off. now apply C20_verify.
Qed.
Print Assumptions C20_verify_before_fix_partial.

Theorem C20_verify_single_never_false : forall r, validate_signature r <> Ok false.
Proof. intros r H. apply validate_signature_true in H as [H _]. discriminate. Qed.
Print Assumptions C20_verify_single_never_false.

(* Signing / encryption: a returned text is always the tool's own non-empty
   output of a run that was started, not killed, decodable (and, for signing,
   silent on stdout).  In particular the unsigned / unencrypted input is never
   returned as if it were protected. *)
Theorem C20_sign_encrypt :
  (forall r s, sign_statement r = Ok s ->
     exists o, r = Ran o /\ undecodable o = false /\ signaled o = false /\ p_out o = [] /\ s = outfile o /\ s <> []) /\
  (forall r s, encrypt_assertion r = Ok s ->
     exists o, r = Ran o /\ undecodable o = false /\ signaled o = false /\ s = outfile o /\ s <> []).
Proof.
  split; intros r s.
  - unfold sign_statement. destruct (run_xmlsec false r) as [[[out err] outf]|e] eqn:E.
    + apply run_xmlsec_ok in E as (o & -> & Hu & Hs & -> & _ & -> & _).
      destruct (p_out o) eqn:Eo; cbn [is_empty andb]; [|discriminate].
      destruct (outfile o) eqn:Ef; cbn [is_empty negb]; [discriminate|].
      intros H; injection H as <-. exists o. repeat split; auto. discriminate.
    + destruct (str_eqb e (s2l "DecryptError")); discriminate.
  - unfold encrypt_assertion. destruct (run_xmlsec false r) as [[[out err] outf]|e] eqn:E; [|discriminate].
    apply run_xmlsec_ok in E as (o & -> & Hu & Hs & _ & _ & -> & _).
    destruct (outfile o) eqn:Ef; cbn [is_empty]; [discriminate|].
    intros H; injection H as <-. exists o. repeat split; auto. discriminate.
Qed.
Print Assumptions C20_sign_encrypt.

(* Decryption: the text handed on is either a real non-empty tool output or the
   UNCHANGED ciphertext document (which contains no readable assertion) *)
Theorem C20_decrypt :
  forall enc runs t, decrypt_keys enc runs = Ok t ->
    t = enc \/ exists o, In (Ran o) runs /\ undecodable o = false /\ signaled o = false /\ t = outfile o /\ t <> [].
Proof.
  intros enc runs t. induction runs as [|r runs IH]; cbn [decrypt_keys].
  - intros H; injection H as <-. now left.
  - unfold crypto_decrypt. destruct (run_xmlsec false r) as [[[out err] outf]|e] eqn:E; [|discriminate].
    apply run_xmlsec_ok in E as (o & -> & Hu & Hs & _ & _ & -> & _).
    destruct (outfile o) eqn:Ef; cbn [is_empty].
    + intros H. destruct (IH H) as [->|(o' & Hin & Hrest)]; [now left|]. right. exists o'. split; [now right|assumption].
    + intros H; injection H as <-. right. exists o. repeat split; auto; [now left|discriminate].
Qed.
Print Assumptions C20_decrypt.

(* the fault catalogue, instantiated (non-vacuity + documentation) *)
Definition mk sig out err und outf := Ran {| signaled := sig; p_out := out; p_err := err; undecodable := und; outfile := outf |}.
Definition catalogue : list tool_result := [
  NotStartable;
  mk false [] [] false [];                                   (* exit 1, silent *)
  mk false [] (s2l "FAIL") false [];                          (* explicit FAIL *)
  mk true  [] [] false [];                                    (* killed by signal *)
  mk true  [] (OKs ++ [10]) false [];                         (* OK, then killed by signal *)
  mk false [] (s2l "everything is OK here") false [];         (* OK inside other text *)
  mk false [] (s2l "ok") false [];                            (* wrong case *)
  mk false [] (s2l " OK ") false [];                          (* padded *)
  mk false OKs [] false [];                                   (* OK on stdout only *)
  mk false [] (s2l "O") false [];                             (* truncated *)
  mk false [] (FAILs ++ [10] ++ OKs) false [];                (* FAIL then OK *)
  mk false [] OKs true []                                     (* garbled / undecodable bytes *)
].
Example C20_fault_catalogue :
  forallb (fun r => negb (reports_success r)) catalogue = true /\
  (forall ovc cv, check_signature_runs false catalogue ovc cv <> Ok tt) /\
  forallb (fun r => negb (is_ok (sign_statement r)) && negb (is_ok (encrypt_assertion r))) catalogue = true /\
  reports_success (mk false [] (s2l "OK") false []) = true /\
  reports_success (mk false [] (s2l "func=xmlSec" ++ [13;10] ++ OKs ++ [10] ++ s2l "SignedInfo References (ok/all): 1/1") false []) = true.
Proof.
  assert (forallb (fun r => negb (reports_success r)) catalogue = true) as H by (vm_compute; reflexivity).
  split; [exact H|]. split.
  - intros ovc cv. apply C20_verify. intros r Hin.
    rewrite forallb_forall in H. specialize (H r Hin). now destruct (reports_success r).
  - vm_compute. repeat split; reflexivity.
Qed.
Print Assumptions C20_fault_catalogue.

(* ---------- what a FAILED load leaves behind (Model/MdStoreLoad.v) ----------
   store = dict key -> source; load = (parse into a new source; verify; register);
   the application catches the exception and keeps using the store. *)

(* one operation: a load that raises leaves the store exactly as it was; a load
   that has to verify and whose tool run does not report success does raise *)
Theorem C20_failed_load_unchanged :
  (forall o s e, snd (load o s) = Err e -> fst (load o s) = s) /\
  (forall o s, op_must_verify o = true -> reports_success (op_tool o) = false -> exists e, load o s = (s, Err e)).
Proof.
  split.
  - intros o s e. unfold load. destruct (op_check o); cbn; [discriminate|reflexivity].
  - intros o s Hm Hr. pose proof (op_fails o Hm Hr) as Hf. unfold op_succeeds in Hf. unfold load.
    destruct (op_check o) as [b|e]; [discriminate|]. now exists e.
Qed.
Print Assumptions C20_failed_load_unchanged.

(* every history (induction over the operation list): the failed operations are
   invisible - the final store is the one the successful operations alone
   produce; a failed operation anywhere in a history leaves no trace; a history
   of failures only is the identity *)
Theorem C20_history_failed_loads_invisible :
  (forall ops s, run_history ops s = run_history (filter op_succeeds ops) s) /\
  (forall ops1 o ops2 s, op_must_verify o = true -> reports_success (op_tool o) = false ->
     run_history (ops1 ++ o :: ops2) s = run_history (ops1 ++ ops2) s) /\
  (forall ops s, (forall o, In o ops -> op_must_verify o = true /\ reports_success (op_tool o) = false) ->
     run_history ops s = s).
Proof.
  split; [|split].
  - induction ops as [|o ops IH]; intros s; [reflexivity|].
    cbn [run_history filter]. rewrite load_fst. destruct (op_succeeds o) eqn:Ho; [|apply IH].
    cbn [run_history]. rewrite load_fst, Ho. apply IH.
  - intros ops1 o ops2 s Hm Hr. rewrite !run_history_app. cbn [run_history].
    now rewrite load_fst, (op_fails o Hm Hr).
  - induction ops as [|o ops IH]; intros s H; [reflexivity|].
    destruct (H o (or_introl eq_refl)) as [Hm Hr]. cbn [run_history]. rewrite load_fst, (op_fails o Hm Hr).
    apply IH. intros o' Hin. apply H. now right.
Qed.
Print Assumptions C20_history_failed_loads_invisible.

(* nothing from a document that could not be verified: a (key, document) the
   store holds after any history was there before, or was registered by an
   operation that did not have to verify (no certificate configured / unsigned
   document) or whose tool run reported success *)
Theorem C20_history_provenance :
  forall ops s k d, In (k, d) (run_history ops s) ->
    In (k, d) s \/
    exists o, In o ops /\ op_key o = k /\ op_doc o = d /\
              (op_must_verify o = false \/ reports_success (op_tool o) = true).
Proof.
  intros ops s k d H. apply run_history_provenance in H as [H|(o & Hin & Hk & Hd & Hs)]; [now left|].
  right. exists o. repeat split; try assumption. now apply op_succeeds_cases.
Qed.
Print Assumptions C20_history_provenance.

(* a store that registers before it verifies (NOT the library; the variant the
   correspondence unit on load histories, harness/c20_hist.py, is there to tell apart) violates both: the failed load replaces the
   verified source under the same key, and leaves a new one under a new key *)
Theorem C20_register_before_verify_refuted :
  exists o1 o2 s,
    op_must_verify o1 = true /\ reports_success (op_tool o1) = false /\
    snd (load_register_first o1 s) <> Ok tt /\ fst (load_register_first o1 s) <> s /\ fst (load o1 s) = s /\
    op_must_verify o2 = true /\ reports_success (op_tool o2) = false /\
    run_history_register_first [o1; o2] s = [(1, 3); (2, 3)] /\ run_history [o1; o2] s = s.
Proof.
  exists (1, 3, true, true, mk true [] [] false []), (2, 3, true, true, NotStartable), [(1, 1)].
  vm_compute. repeat split; discriminate.
Qed.
Print Assumptions C20_register_before_verify_refuted.

Example C20_history_example :
  run_history [ (1, 1, true, true, mk false [] (s2l "OK") false []);      (* verified load of document 1 under key 1 *)
                (1, 3, true, true, mk false [] (s2l "FAIL") false []);    (* refresh with document 3: bad signature *)
                (2, 3, true, true, mk true [] (s2l "OK") false []);       (* new key, tool killed by a signal *)
                (1, 2, true, true, mk false [] (s2l "OK") false []) ] []  (* verified refresh *)
  = [(1, 2)].
Proof. vm_compute. reflexivity. Qed.
Print Assumptions C20_history_example.
