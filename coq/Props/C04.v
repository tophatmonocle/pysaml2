(* Props/C04.v — assertions are honoured only inside their validity windows.
   Times are whole seconds (the code truncates fractions before comparing). *)
From PV Require Import Lib.Base Model.Status Model.Response Model.C04Kinds Proofs.Response_lemmas Proofs.C04_lemmas Proofs.C05_lemmas Proofs.C04_kinds.
From PV Require Import Model.C04Entry Proofs.C04_entry.
From PV Require Model.TimeUtil Proofs.TimeUtil_lemmas.
Open Scope Z_scope.
Module TU := PV.Model.TimeUtil.
Module TL := PV.Proofs.TimeUtil_lemmas.

(* Acceptance implies, for every clock value, every allowance and every subset of
   present bounds: no NotOnOrAfter (Conditions, EVERY bearer confirmation data —
   retained or not —, SessionNotOnOrAfter) lies more than the allowance in the
   past, no NotBefore more than the allowance in the future, Conditions
   NotBefore <= NotOnOrAfter, and IssueInstant strictly within one day plus the
   allowance of now (the code's window is closed at the old end, open at the
   future end).  (Contrapositive: any violated bound => rejected.) *)
Theorem C04_reject_outside :
  forall c r o, parse_response c r = Ok o -> test_mode c = false ->
    (now c - 86400 - slack c <= r_issue_instant r < now c + 86400 + slack c) /\
    Forall (fun a =>
      (forall k, a_conditions a = Some k -> k_empty k = false ->
          (forall n, k_nooa k = Some n -> now c <= n + slack c) /\ (forall n, k_nb k = Some n -> n <= now c + slack c) /\
          (forall n m, k_nb k = Some n -> k_nooa k = Some m -> n <= m)) /\
      (forall n, a_authn a = [Some n] -> now c <= n + slack c) /\
      (forall sc d, In sc (a_confirmations a) -> c_method sc = Bearer -> c_data sc = Some d ->
          (forall n, d_nooa d = Some n -> now c <= n + slack c) /\ (forall n, d_nb d = Some n -> n <= now c + slack c)))
      (processed r).
Proof. exact reject_outside. Qed.
Print Assumptions C04_reject_outside.

(* a bearer confirmation whose NotBefore is later than its NotOnOrAfter never
   counts as a confirmation (it is not among the retained ones) *)
Theorem C04_inconsistent_confirmation_not_retained :
  forall c r o, parse_response c r = Ok o ->
    Forall (fun a => exists kept, kept <> [] /\ incl kept (a_confirmations a) /\
       Forall (fun sc => forall d n m, c_method sc = Bearer -> c_data sc = Some d -> d_nb d = Some n -> d_nooa d = Some m -> n <= m) kept)
      (processed r).
Proof.
  intros c r o H. apply (retained_of_accepted c r o _ H). intros sc (d & rcp & Hd & _ & _ & Hb) d' n m Hm Hd' Hn Ho.
  rewrite Hd in Hd'. injection Hd' as <-. destruct (Hb Hm) as (_ & _ & _ & _ & L).
  unfold later_than in L. rewrite Hn, Ho in L. lia.
Qed.
Print Assumptions C04_inconsistent_confirmation_not_retained.

(* the session expiry handed to the application (web-SSO shape: one plain
   assertion): SessionNotOnOrAfter when present, else the Conditions NotOnOrAfter, else 0 *)
Theorem C04_session_expiry :
  forall c r o a, parse_response c r = Ok o -> test_mode c = false ->
    r_assertions r = [a] -> r_encrypted r = [] ->
    o_nooa o = match a_authn a with
               | [Some n] => if n >? 0 then n else match cond_nooa a with Some m => m | None => 0 end
               | _ => match cond_nooa a with Some m => m | None => 0 end
               end.
Proof.
  intros c r o a H Ht Ha He.
  destruct (parse_response_accepted c r o H) as [_ _ (req & s & s' & Hver & _ & S0 & N0 & _ & _ & Hn) _].
  destruct (verify_some _ _ _ _ _ Hver) as (_ & Hpa & _).
  unfold parse_assertion in Hpa. rewrite Ha, He in Hpa. cbn [List.length Nat.eqb orb negb check_assertions] in Hpa.
  destruct (check_assertion c (r_irt r) req false s a) as [s1|] eqn:Ec; [|discriminate].
  injection Hpa as <-. destruct (check_assertion_expiry _ _ _ _ _ _ _ Ec Ht) as [A B].
  rewrite Hn. cbn [push_all session_nooa not_on_or_after]. rewrite A, B, S0, N0.
  destruct (a_authn a) as [|[n|] [|? ?]]; reflexivity.
Qed.
Print Assumptions C04_session_expiry.

(* [windows_ok now slack r] is exactly the conclusion of C04_reject_outside *)
Theorem C04_windows_ok_meaning : forall nowv slackv r,
  windows_ok nowv slackv r <->
    (nowv - 86400 - slackv <= r_issue_instant r < nowv + 86400 + slackv) /\
    Forall (fun a =>
      (forall k, a_conditions a = Some k -> k_empty k = false ->
          (forall n, k_nooa k = Some n -> nowv <= n + slackv) /\ (forall n, k_nb k = Some n -> n <= nowv + slackv) /\
          (forall n m, k_nb k = Some n -> k_nooa k = Some m -> n <= m)) /\
      (forall n, a_authn a = [Some n] -> nowv <= n + slackv) /\
      (forall sc d, In sc (a_confirmations a) -> c_method sc = Bearer -> c_data sc = Some d ->
          (forall n, d_nooa d = Some n -> nowv <= n + slackv) /\ (forall n, d_nb d = Some n -> n <= nowv + slackv)))
      (processed r).
Proof. intros. split; intros H; exact H. Qed.
Print Assumptions C04_windows_ok_meaning.

(* C04_reject_outside for every binding value of parse_authn_request_response: POST and
   Redirect (asynchop), SOAP and PAOS (asynchop = False) — the synchronous bindings relax
   no time check; and for either value of the asynchop switch as such *)
Theorem C04_reject_outside_every_binding :
  forall b c r o, parse_authn_via b c r = Ok o -> test_mode c = false -> windows_ok (now c) (slack c) r.
Proof. exact authn_via_windows. Qed.
Print Assumptions C04_reject_outside_every_binding.

Theorem C04_reject_outside_either_asynchop :
  forall v c r o, parse_response (with_asynch c v) r = Ok o -> test_mode c = false -> windows_ok (now c) (slack c) r.
Proof. intros v c r o. exact (reject_outside (with_asynch c v) r o). Qed.
Print Assumptions C04_reject_outside_either_asynchop.

(* the code as it is: unravel does not know PAOS, nothing is ever accepted over it *)
Theorem C04_paos_never_accepted : forall c r, is_ok (parse_authn_via BPaos c r) = false.
Proof. reflexivity. Qed.
Print Assumptions C04_paos_never_accepted.

(* several confirmations: ONE bearer confirmation out of its window, at any position among
   any others (bearer or not, however generous their bounds), rejects — over every binding *)
Theorem C04_one_bad_confirmation_rejects :
  forall c r a pre sc post d, test_mode c = false -> In a (processed r) -> a_confirmations a = pre ++ sc :: post ->
    c_method sc = Bearer -> c_data sc = Some d ->
    (exists n, d_nooa d = Some n /\ n + slack c < now c) \/ (exists n, d_nb d = Some n /\ now c + slack c < n) ->
    forall b, is_ok (parse_authn_via b c r) = false.
Proof.
  intros c r a pre sc post d Ht Ha Hc Hm Hd Hbad b. destruct (parse_authn_via b c r) as [o|] eqn:E; [|reflexivity]. exfalso.
  destruct (authn_via_windows _ _ _ _ E Ht) as [_ Hall]. rewrite Forall_forall in Hall.
  destruct (Hall a Ha) as (_ & _ & Hb).
  assert (In sc (a_confirmations a)) as Hin by (rewrite Hc; apply in_elt).
  destruct (Hb sc d Hin Hm Hd) as [H1 H2].
  destruct Hbad as [(n & Hn & L)|(n & Hn & L)]; [specialize (H1 n Hn)|specialize (H2 n Hn)]; lia.
Qed.
Print Assumptions C04_one_bad_confirmation_rejects.

(* attribute-query and authn-query responses: IssueInstant window, every bearer confirmation's
   bounds, and (attribute query) the Conditions bounds *)
Theorem C04_query_kinds :
  forall k b c r o, parse_query k b c r = Ok o ->
    (now c - 86400 - slack c <= r_issue_instant r < now c + 86400 + slack c) /\
    Forall (fun a => bearer_windows_ok (now c) (slack c) a /\ (k = QAttr -> conditions_window_ok (now c) (slack c) a)) (processed r).
Proof. exact query_windows. Qed.
Print Assumptions C04_query_kinds.

(* the IssueInstant window for EVERY response kind sharing StatusResponse._verify (authn,
   attribute query, authn query, logout, name-id mapping, manage-name-id) over every binding *)
Theorem C04_issue_instant_every_kind :
  forall k b c r, accepted k b c r = true -> now c - 86400 - slack c <= r_issue_instant r < now c + 86400 + slack c.
Proof. intros k b c r H. exact (kind_windows_issue _ _ _ _ _ (every_kind_windows k b c r H)). Qed.
Print Assumptions C04_issue_instant_every_kind.

(* a long-lived SP: after any sequence of parse calls (any kinds, bindings, clock values) the
   configuration is what it was, every accepted call satisfied the windows at ITS clock value,
   and a call's verdict does not depend on the calls before it (induction over the sequence) *)
Theorem C04_history :
  forall sp ks,
    fst (run_history sp ks) = sp /\
    Forall2 (fun k ok => ok = true -> kind_windows_ok (k_kind k) (test_mode sp) (k_now k) (slack sp) (k_msg k))
            ks (snd (run_history sp ks)) /\
    forall before, snd (run_history sp (before ++ ks)) = snd (run_history sp before) ++ snd (run_history sp ks).
Proof.
  intros sp ks. rewrite run_history_eq. split; [reflexivity|]. split.
  - cbn [snd]. induction ks as [|k rest IH]; constructor; [apply every_kind_windows|exact IH].
  - intros before. rewrite !run_history_eq. apply map_app.
Qed.
Print Assumptions C04_history.

(* non-vacuity + the edges the code implements (instant equal to a bound is accepted) *)
Definition me := s2l "https://sp.example.org/sp".
Definition acs := s2l "https://sp.example.org/acs/post".
Definition cfgT (nowv slackv : Z) := {| entity_id := me; return_addrs := Some [acs]; wrs := false; was := false; waors := false;
  allow_unsolicited := false; dest_regex_set := false; dest_regex_match := false; slack := slackv; now := nowv;
  asynch := true; outstanding := [(s2l "req-1", s2l "/home")]; conv_info := None; test_mode := false |}.
Definition respT (sess : option Z) := {| r_sig := None; r_valid_instance := true; r_irt := Some (s2l "req-1");
  r_version := Some V20; r_ver_lt2 := Some false; r_destination := Some acs; r_issue_instant := 1000000;
  r_status := Some {| st_code := Some (Code (Some Gen.StatusTable.STATUS_SUCCESS) None); st_msg := false |};
  r_assertions := [{| a_id := 1%N; a_sig := None; a_authn := [sess];
     a_conditions := Some {| k_empty := false; k_nb := Some 999700; k_nooa := Some 1000300; k_audiences := [[me]]; k_unknown_condition := false |};
     a_has_subject := true;
     a_confirmations := [{| c_method := Bearer; c_data := Some {| d_address := None; d_address_valid := true; d_nooa := Some 1000300;
                             d_nb := None; d_irt := Some (s2l "req-1"); d_recipient := Some acs |} |}];
     a_name_id := Some (s2l "alice") |}]; r_encrypted := [] |}.
Example C04_witness :
  is_ok (parse_response (cfgT 1000000 0) (respT None)) = true /\
  is_ok (parse_response (cfgT 1000300 0) (respT None)) = true /\        (* now = NotOnOrAfter: accepted by the code *)
  is_ok (parse_response (cfgT 1000301 0) (respT None)) = false /\
  is_ok (parse_response (cfgT 1000301 1) (respT None)) = true /\
  is_ok (parse_response (cfgT 999699 0) (respT None)) = false /\
  match parse_response (cfgT 1000000 0) (respT (Some 1000100)) with Ok o => o_nooa o | Err _ => -1 end = 1000100 /\
  match parse_response (cfgT 1000000 0) (respT None) with Ok o => o_nooa o | Err _ => -1 end = 1000300.
Proof. vm_compute. repeat split; reflexivity. Qed.
Print Assumptions C04_witness.

(* the same edges over SOAP (asynchop = False, nothing outstanding needed), PAOS, and for a logout response *)
Definition logoutT (ii : Z) := {| r_sig := None; r_valid_instance := true; r_irt := Some (s2l "req-1");
  r_version := Some V20; r_ver_lt2 := Some false; r_destination := None; r_issue_instant := ii;
  r_status := Some {| st_code := Some (Code (Some Gen.StatusTable.STATUS_SUCCESS) None); st_msg := false |};
  r_assertions := []; r_encrypted := [] |}.
Example C04_witness_kinds :
  is_ok (parse_authn_via BSoap (cfgT 1000300 0) (respT None)) = true /\
  is_ok (parse_authn_via BSoap (cfgT 1000301 0) (respT None)) = false /\
  is_ok (parse_authn_via BSoap (cfgT 1000301 1) (respT None)) = true /\
  is_ok (parse_authn_via BPaos (cfgT 1000000 0) (respT None)) = false /\
  accepted (KQuery QAttr) BSoap (cfgT 1000300 0) (respT None) = true /\
  accepted (KQuery QAttr) BSoap (cfgT 1000301 0) (respT None) = false /\
  accepted (KStatus SLogout) BSoap (cfgT 1000000 0) (logoutT 913600) = true /\
  accepted (KStatus SLogout) BSoap (cfgT 1000000 0) (logoutT 913599) = false /\
  accepted (KStatus SLogout) BSoap (cfgT 1000000 5) (logoutT 913595) = true /\
  accepted (KStatus SManageNameId) BPost (cfgT 1000000 0) (logoutT 1086400) = false /\
  accepted (KStatus SManageNameId) BPost (cfgT 1000000 0) (logoutT 1086399) = true.
Proof. vm_compute. repeat split; reflexivity. Qed.
Print Assumptions C04_witness_kinds.

(* ---- the OTHER public ways in (Model/C04Entry.v): response_factory, authn_response, attribute_response and the classes
   AuthnResponse / AttributeResponse / AuthnQueryResponse / ArtifactResponse / AuthzResponse built directly, then
   .loads(..).verify().  [args] is what the caller wrote (an argument given or left out), [flags_of] what the constructor
   chain of that entry point stores, [asked] what the call means by the def lines' defaults. ---- *)

(* every constructor passes on exactly what the caller wrote; `test` is on only when a caller names test=True on an entry
   point that has the parameter; the allowance is the caller's (0 / left out: conf.accepted_time_diff for the three functions) *)
Theorem C04_entry_points_pass_flags_on :
  forall e cf a,
    flags_of e cf a = asked e cf a /\
    (f_test (flags_of e cf a) = true -> has_test e = true /\ a_test a = Some true) /\
    f_slack (flags_of e cf a) =
      match a_slack a with
      | Some t => if t =? 0 then (if reads_conf e then dflt (cf_time_diff cf) 0 else 0) else t
      | None => if reads_conf e then dflt (cf_time_diff cf) 0 else 0
      end.
Proof.
  intros e cf a. rewrite flags_passed_on. split; [reflexivity|]. split; [exact (test_only_when_named e cf a)|].
  unfold asked, conf_slack. cbn [f_slack]. destruct (reads_conf e), (a_slack a) as [t|]; cbn [dflt]; try reflexivity.
  destruct (Z.eqb_spec t 0) as [->|]; reflexivity.
Qed.
Print Assumptions C04_entry_points_pass_flags_on.

(* every entry point computes verify of the SAME flags the caller gave *)
Theorem C04_entry_points_verify_the_callers_flags :
  forall e cf nowv a r,
    entry_verify e cf nowv a r =
    object_verify (ctx_of e) (match e with EFactory => true | _ => false end) (cfg_of cf nowv (asked e cf a)) r.
Proof. intros e cf nowv a r. unfold entry_verify. rewrite flags_passed_on. reflexivity. Qed.
Print Assumptions C04_entry_points_verify_the_callers_flags.

(* C04_reject_outside through every entry point, for every way of writing the call (so: every combination of asynchop /
   allow_unsolicited, given or left out): accepted => every window of the context holds at the clock value and at the
   allowance the caller gave — unless the caller named test=True where that parameter exists.
   ctx_windows_ok: authn = windows_ok (all of C04_reject_outside); attribute / authz / artifact = IssueInstant, every bearer
   bound, Conditions; authn query = IssueInstant, every bearer bound (the library's contexts, as in C04_query_kinds) *)
Theorem C04_reject_outside_every_entry_point :
  forall e cf nowv a r s,
    entry_verify e cf nowv a r = Ok (Some s) -> (has_test e = true -> a_test a <> Some true) ->
    ctx_windows_ok (ctx_of e) nowv (f_slack (asked e cf a)) r.
Proof. exact entry_windows. Qed.
Print Assumptions C04_reject_outside_every_entry_point.

Theorem C04_reject_outside_any_switches :
  forall e cf nowv a r asy uns s,
    entry_verify e cf nowv {| a_return_addrs := a_return_addrs a; a_outstanding := a_outstanding a; a_slack := a_slack a;
                             a_asynch := asy; a_unsol := uns; a_was := a_was a; a_test := None |} r = Ok (Some s) ->
    ctx_windows_ok (ctx_of e) nowv (f_slack (asked e cf a)) r.
Proof. intros e cf nowv a r asy uns s H. apply entry_windows in H; [exact H|intros _; discriminate]. Qed.
Print Assumptions C04_reject_outside_any_switches.

(* non-vacuity: the edges through the factory, the function and the class; all switch combinations reject a Conditions
   NotBefore 700 s ahead; naming test=True on the class accepts it (lax), on the factory it cannot be asked *)
Definition confT := {| cf_entity_id := me; cf_time_diff := Some 5 |}.
Definition argsT (slackv : option Z) (asy uns test : option bool) :=
  {| a_return_addrs := Some [acs]; a_outstanding := Some [(s2l "req-1", s2l "/home")]; a_slack := slackv;
     a_asynch := asy; a_unsol := uns; a_was := None; a_test := test |}.
Example C04_witness_entry_points :
  entry_accepts EFactory confT 1000305 (argsT None None None None) (respT None) = true /\      (* allowance from conf: 5 *)
  entry_accepts EFactory confT 1000306 (argsT None None None None) (respT None) = false /\
  entry_accepts EFactory confT 1000306 (argsT (Some 6) None None None) (respT None) = true /\
  entry_accepts EAuthnCls confT 1000300 (argsT None None None None) (respT None) = true /\     (* the class does not read conf *)
  entry_accepts EAuthnCls confT 1000301 (argsT None None None None) (respT None) = false /\
  forallb (fun asy => forallb (fun uns => forallb (fun e =>
     negb (entry_accepts e confT 999000 (argsT None asy uns None) (respT None)))
     [EFactory; EAuthnFn; EAuthnCls; EAttrFn; EAttrCls; EArtifactCls; EAuthzCls])
     [None; Some true; Some false]) [None; Some true; Some false] = true /\
  entry_accepts EAuthnCls confT 999000 (argsT None None None (Some true)) (respT None) = true /\      (* lax, asked by name *)
  entry_accepts EAttrCls confT 999000 (argsT None None None (Some true)) (respT None) = true /\
  entry_accepts EFactory confT 999000 (argsT None None None (Some true)) (respT None) = false /\      (* no such parameter *)
  entry_accepts EAuthzCls confT 999000 (argsT None None None (Some true)) (respT None) = false /\
  entry_accepts EAuthnQueryCls confT 999000 (argsT None None None None) (respT None) = true /\        (* Conditions not consulted there *)
  entry_accepts EAuthnQueryCls confT 1003900 (argsT None None None None) (respT None) = false /\       (* its bearer bound *)
  entry_accepts EAttrCls confT 1000000 (argsT None None None None) (respT (Some 5)) = true /\          (* no session check there *)
  entry_accepts EAuthnCls confT 1000000 (argsT None None None None) (respT (Some 5)) = false.
Proof. vm_compute. repeat split; reflexivity. Qed.
Print Assumptions C04_witness_entry_points.

(* ---- the time zone of the PROCESS ----
   A zone is its offset from UTC in seconds; localtime zone t = gmtime (t + zone), mktime zone c = timegm c - zone.
   Every reading the library takes is gmtime / timegm based (utc_now = timegm (gmtime now), str_to_time =
   gmtime (timegm (strptime ..)), tuple order = instant order by C04_tuple_order_is_instant_order): no offset enters,
   whatever the zone *)
Theorem C04_no_zone_offset_enters :
  forall zone nowv,
    utc_now zone nowv = nowv /\ mktime zone (localtime zone nowv) = nowv /\
    (forall s c, Model.TimeUtil.str_to_time s = Ok (Some c) ->
       Model.TimeUtil.before nowv (Model.TimeUtil.AText s) = Ok (utc_now zone nowv <=? Model.TimeUtil.timegm c) /\
       Model.TimeUtil.after nowv (Model.TimeUtil.AText s) = Ok (negb (utc_now zone nowv <=? Model.TimeUtil.timegm c))).
Proof.
  intros zone nowv. unfold utc_now, mktime, localtime. rewrite !TL.timegm_gmtime.
  split; [reflexivity|]. split; [lia|].
  intros s c H. split; [exact (TL.before_text nowv s c H)|exact (TL.after_text nowv s c H)].
Qed.
Print Assumptions C04_no_zone_offset_enters.

(* ... which is NOT so for a comparison that mixes mktime(gmtime()) with timegm: the full statement
     forall zone now t, (mktime zone (gmtime now) <=? t) = (now <=? t)
   fails — the witness is Tokyo (nine hours ahead of UTC), where a bound that expired two seconds ago still passes *)
Theorem C04_mktime_gmtime_against_timegm_refuted :
  (forall zone nowv, utc_now_mktime zone nowv = nowv - zone) /\
  exists zone nowv s c, Model.TimeUtil.str_to_time s = Ok (Some c) /\
    (utc_now_mktime zone nowv <=? Model.TimeUtil.timegm c) = true /\ (nowv <=? Model.TimeUtil.timegm c) = false.
Proof.
  split; [exact mixing_mktime_with_timegm|].
  exists 32400, 1790000002, (s2l "2026-09-21T14:13:20Z"), (Model.TimeUtil.gmtime 1790000000).
  vm_compute. repeat split; reflexivity.
Qed.
Print Assumptions C04_mktime_gmtime_against_timegm_refuted.
Theorem C04_mktime_gmtime_against_timegm_partial :
  forall nowv t, (utc_now_mktime 0 nowv <=? t) = (nowv <=? t).
Proof. intros nowv t. rewrite mixing_mktime_with_timegm, Z.sub_0_r. reflexivity. Qed.
Print Assumptions C04_mktime_gmtime_against_timegm_partial.

(* ==== the TEXT of a time stamp (Model/TimeUtil.v, Proofs/TimeUtil_lemmas.v) ====================================
   Everything above takes instants (Z).  The library starts from attribute texts: time_util.str_to_time
   (time.strptime, the fall-back pattern, calendar.timegm, time.gmtime) and compares time.struct_time TUPLES in
   before / after / later_than / issue_instant_ok.  The theorems below bring that step inside the model: the calendar
   functions are inverse to each other, tuple order of normalised values IS the order of instants, what strptime reads,
   and the text-level tests equal the integer tests used above. *)

(* gmtime and timegm are inverse: for EVERY integer t (Python restricts t to years 1..9999:
   -62135596800 <= t <= 253402300799; calendar.timegm raises outside, the model is total), and for every normalised
   civil time (valid month / day of that month / hour / minute / second, wday and yday as the calendar gives them, isdst 0) *)
Theorem C04_gmtime_timegm :
  (forall t, TU.timegm (TU.gmtime t) = t) /\
  (forall t, TU.valid_tm (TU.gmtime t)) /\
  (forall c, TU.valid_tm c -> TU.gmtime (TU.timegm c) = c).
Proof. split; [exact TL.timegm_gmtime|]. split; [exact TL.gmtime_valid|exact TL.gmtime_timegm]. Qed.
Print Assumptions C04_gmtime_timegm.

(* the day number is strictly monotone in (year, month, day) read lexicographically — all years, proved *)
Theorem C04_day_number_strictly_monotone :
  forall y m d y' m' d', TU.valid_date y m d -> TU.valid_date y' m' d' ->
    (y < y' \/ (y = y' /\ (m < m' \/ (m = m' /\ d < d')))) -> TU.days_from_civil y m d < TU.days_from_civil y' m' d'.
Proof. intros y m d y' m' d' V V' H. unfold TU.days_from_civil. pose proof (TL.ordinal_lt _ _ _ _ _ _ V V' H). lia. Qed.
Print Assumptions C04_day_number_strictly_monotone.

(* Python compares struct_time values as 9-tuples (year, month, day, hour, minute, second, wday, yday, isdst), first
   difference decides.  For ALL normalised a b that comparison is the comparison of the instants: <=, >=, < alike *)
Theorem C04_tuple_order_is_instant_order :
  forall a b, TU.valid_tm a -> TU.valid_tm b ->
    TU.tuple_cmp a b = (TU.timegm a ?= TU.timegm b) /\
    (TU.tuple_leb a b = true <-> TU.timegm a <= TU.timegm b) /\
    (TU.tuple_geb a b = true <-> TU.timegm a >= TU.timegm b) /\
    (TU.tuple_ltb a b = true <-> TU.timegm a < TU.timegm b).
Proof.
  intros a b Va Vb. split; [exact (TL.tuple_cmp_is_instant_cmp a b Va Vb)|].
  rewrite (TL.tuple_leb_instant a b Va Vb), (TL.tuple_geb_instant a b Va Vb), (TL.tuple_ltb_instant a b Va Vb).
  rewrite Z.leb_le, Z.geb_le, Z.ltb_lt. repeat split; lia.
Qed.
Print Assumptions C04_tuple_order_is_instant_order.

(* instant(t) read back by str_to_time is gmtime t — years 1000..9999 (this platform's strftime does not pad %Y:
   year 999 is written with three digits, which strptime's \d\d\d\d does not read; the harness shows the real
   functions do the same) *)
Theorem C04_instant_round_trip :
  forall t, -30610224000 <= t <= 253402300799 ->
    TU.str_to_time (TU.instant_of t) = Ok (Some (TU.gmtime t)) /\
    (forall now, t <> 0 -> TU.str_to_time (TU.instant now t) = Ok (Some (TU.gmtime t))).
Proof.
  intros t R. pose proof (TL.instant_round_trip t (TL.gmtime_year_range t R)) as H. split; [exact H|].
  intros now NZ. unfold TU.instant. destruct (Z.eqb_spec t 0) as [E|_]; [destruct (NZ E)|exact H].
Qed.
Print Assumptions C04_instant_round_trip.

(* THE BRIDGE.  On every text str_to_time reads, before / after / later_than (tuple comparisons against the clock
   reading) are the integer tests of the models above on timegm of the parsed value: before = not-past (now <= point),
   later_than = Response.later_than, and the IssueInstant test on tuples (bounds from datetime.timetuple(), whose
   tm_isdst = -1 breaks the tie) is Response.issue_instant_ok: closed at the old end, open at the future end.
   validate_on_or_after / validate_before call calendar.timegm on the parsed value themselves: the instant they use
   is the same timegm c. *)
Theorem C04_text_tests_are_instant_tests :
  (forall now s c, TU.str_to_time s = Ok (Some c) ->
     TU.before now (TU.AText s) = Ok (now <=? TU.timegm c) /\
     TU.after now (TU.AText s) = Ok (negb (now <=? TU.timegm c))) /\
  (forall a b ca cb, TU.str_to_time a = Ok (Some ca) -> TU.str_to_time b = Ok (Some cb) ->
     TU.later_than (TU.AText a) (TU.AText b) = Ok (later_than (Some (TU.timegm ca)) (Some (TU.timegm cb)))) /\
  (forall cfg s c, TU.str_to_time s = Ok (Some c) ->
     TU.issue_window (now cfg) (slack cfg) c = issue_instant_ok cfg (TU.timegm c)) /\
  (forall now z, z <> 0 -> TU.before now (TU.AInt z) = Ok (now <=? z) /\ TU.after now (TU.AInt z) = Ok (negb (now <=? z))) /\
  (forall now, TU.before now TU.ANone = Ok true /\ TU.before now (TU.AText []) = Ok true /\ TU.before now (TU.AInt 0) = Ok true /\
               TU.after now TU.ANone = Ok true /\ TU.after now (TU.AText []) = Ok true /\ TU.after now (TU.AInt 0) = Ok true).
Proof.
  split; [intros nowv s c H; split; [exact (TL.before_text nowv s c H)|exact (TL.after_text nowv s c H)]|].
  split; [intros a b ca cb Ha Hb; exact (TL.later_than_text a b ca cb Ha Hb)|].
  split; [intros cfg s c H; exact (TL.issue_window_text (now cfg) (slack cfg) s c H)|].
  split; [exact TL.before_int|]. intros nowv. repeat split; reflexivity.
Qed.
Print Assumptions C04_text_tests_are_instant_tests.

(* what str_to_time returns is always normalised, is the tuple of exactly one instant, and that instant is timegm of
   the fields strptime read from the text itself or from group 1 of the fall-back pattern + Z *)
Theorem C04_accepted_text_denotes_one_instant :
  forall s c, TU.str_to_time s = Ok (Some c) ->
    TU.valid_tm c /\ c = TU.gmtime (TU.timegm c) /\
    ((exists p, TU.strptime_iso s = Some p /\ TU.timegm c = TU.timegm p) \/
     (TU.strptime_iso s = None /\ exists g p, TU.fragment_group s = Some g /\ TU.strptime_iso (g ++ [TU.c_Z]) = Some p /\
        TU.timegm c = TU.timegm p)).
Proof. exact TL.str_to_time_denotes. Qed.
Print Assumptions C04_accepted_text_denotes_one_instant.

(* WHAT strptime ACCEPTS, exactly: 4 digits - month - day T hour : minute : second Z to the end of the text, T / Z in
   either case, every field one or two characters read by field_m .. field_S (the alternatives of CPython's expression:
   \d is any Unicode decimal digit, the bracket classes are ASCII), year >= 1 and the day inside its month *)
Theorem C04_strptime_accepts_exactly :
  forall s c, TU.strptime_iso s = Some c <->
    exists y1 y2 y3 y4 fm fd cT fH fM fS cZ y mo d h mi sec,
      s = TL.iso_text y1 y2 y3 y4 fm fd cT fH fM fS cZ /\ TU.is_T cT = true /\ TU.is_Z cZ = true /\
      TU.field_Y y1 y2 y3 y4 = Some y /\ TU.field_m fm = Some mo /\ TU.field_d fd = Some d /\
      TU.field_H fH = Some h /\ TU.field_M fM = Some mi /\ TU.field_S fS = Some sec /\
      1 <= y /\ d <= TU.days_in_month y mo /\ c = TU.mk_parsed y mo d h mi sec.
Proof. exact TL.strptime_iso_characterised. Qed.
Print Assumptions C04_strptime_accepts_exactly.

(* ... and what it reads is a date of the calendar with hour 0..23, minute 0..59, second 0..61 (60 and 61 are carried
   into the next minute by timegm), year 1..9999 *)
Theorem C04_strptime_ranges :
  forall s c, TU.strptime_iso s = Some c ->
    1 <= TU.tm_year c <= 9999 /\ TU.valid_date (TU.tm_year c) (TU.tm_mon c) (TU.tm_mday c) /\
    0 <= TU.tm_hour c <= 23 /\ 0 <= TU.tm_min c <= 59 /\ 0 <= TU.tm_sec c <= 61 /\ TU.tm_isdst c = -1.
Proof. exact TL.strptime_iso_ranges. Qed.
Print Assumptions C04_strptime_ranges.

(* two DIFFERENT accepted spellings of one instant (padded / unpadded, Z / z / none, with a fraction, other digits ...)
   are the same value and get the same verdict from every test, against any clock reading and any other argument *)
Theorem C04_spellings_of_one_instant_agree :
  forall now s1 s2 c1 c2 other, TU.str_to_time s1 = Ok (Some c1) -> TU.str_to_time s2 = Ok (Some c2) -> TU.timegm c1 = TU.timegm c2 ->
    c1 = c2 /\ TU.before now (TU.AText s1) = TU.before now (TU.AText s2) /\ TU.after now (TU.AText s1) = TU.after now (TU.AText s2) /\
    TU.later_than (TU.AText s1) other = TU.later_than (TU.AText s2) other /\
    TU.later_than other (TU.AText s1) = TU.later_than other (TU.AText s2).
Proof. exact TL.same_instant_same_verdict. Qed.
Print Assumptions C04_spellings_of_one_instant_agree.

(* non-vacuity: leap day, month ends, one-digit fields, blank + digit day, other digits, lower case, fractions, the epoch,
   the 2038 boundary, year 1 and 9999, carried seconds; and what is refused *)
Definition tt_of (s : string) : val := TU.run_str_to_time (s2l s).
Definition inst_of (s : string) : option Z :=
  match TU.str_to_time (s2l s) with Ok (Some c) => Some (TU.timegm c) | _ => None end.
Example C04_time_text_witness :
  inst_of "1970-01-01T00:00:00Z" = Some 0 /\
  inst_of "2038-01-19T03:14:07Z" = Some 2147483647 /\ inst_of "2038-01-19T03:14:08Z" = Some 2147483648 /\
  inst_of "2024-02-29T23:59:59Z" = Some 1709251199 /\ inst_of "2024-03-01T00:00:00Z" = Some 1709251200 /\
  inst_of "2023-02-29T00:00:00Z" = None /\ inst_of "1900-02-29T00:00:00Z" = None /\ inst_of "2000-02-29T00:00:00Z" = Some 951782400 /\
  inst_of "2026-9-1T1:2:3Z" = Some 1788224523 /\ inst_of "2026-09-01t01:02:03z" = Some 1788224523 /\
  inst_of "2026-09- 1T01:02:03Z" = Some 1788224523 /\ inst_of "2026-09-01T01:02:03.999" = Some 1788224523 /\
  inst_of "2026-09-01T01:02:03" = Some 1788224523 /\ inst_of "2026-9-1T1:2:3" = None /\
  inst_of "9999-12-31T23:59:59Z" = Some 253402300799 /\ inst_of "0001-01-01T00:00:00Z" = Some (-62135596800) /\
  inst_of "0000-01-01T00:00:00Z" = None /\ inst_of "2026-12-31T23:59:60Z" = Some 1798761600 /\ inst_of "2027-01-01T00:00:00Z" = Some 1798761600 /\
  inst_of "2026-09-01T24:00:00Z" = None /\ inst_of "2026-09-01T01:02:03+00:00" = None /\ inst_of " 2026-09-01T01:02:03Z" = None /\
  TU.str_to_time (s2l "2026-13-01T00:00:00") = Err TU.ValueError /\ TU.str_to_time (s2l "2026-09-01T01:02:03+00:00") = Err TU.AttributeError /\
  TU.str_to_time [] = Ok None /\
  TU.str_to_time [50; 48; 50; 54; 45; 48; 57; 45; 48; 49; 84; 49; 1636; 58; 48; 50; 58; 48; 51; 90]%N = Ok (Some (TU.gmtime 1788271323)) /\
  TU.instant_of 1788224523 = s2l "2026-09-01T01:02:03Z" /\ TU.instant_of (-30610224001) = s2l "999-12-31T23:59:59Z" /\
  TU.tm_list (TU.gmtime 0) = [1970; 1; 1; 0; 0; 0; 3; 1; 0] /\
  TU.before 1788224523 (TU.AText (s2l "2026-9-1T1:2:3Z")) = Ok true /\ TU.before 1788224524 (TU.AText (s2l "2026-9-1T1:2:3Z")) = Ok false /\
  TU.later_than (TU.AText (s2l "2027-01-01T00:00:00Z")) (TU.AText (s2l "2026-12-31T23:59:59.5")) = Ok true /\
  TU.later_than (TU.AText (s2l "2026-12-31T23:59:59Z")) (TU.AText (s2l "2027-1-1T0:0:0z")) = Ok false /\
  TU.later_than (TU.AText []) (TU.AText (s2l "2027-01-01T00:00:00Z")) = Err TU.TypeError.
Proof. vm_compute. repeat split; reflexivity. Qed.
Print Assumptions C04_time_text_witness.
