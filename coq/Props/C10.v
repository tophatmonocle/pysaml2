(* Props/C10.v — incoming requests are validated before an IdP / AA / SP acts
   on them.  Statements, short proofs from the lemmas of Proofs/, and Print Assumptions.

   parse_request pre fixd c k b w  models  Entity._parse_request for the entry
   point of request kind k (Model/Request.v: documented table), an entity with
   configuration c, binding b and received text w (classified by what the
   transport decoder makes of it).  Its result is Err <exception class>,
   Ok None (Request.verify swallowed an AssertionError) or Ok (Some d): the
   request document d is handed to the application.
     pre  = the enveloping pre-check of the C01 repair is in _check_signature;
     fixd = the last step of _check_signature insists on a verified signature
            (the F16 repair, proposed_fix/C10-1.diff).  The theorems that say
            what a handed-over request satisfies are about fixd = true;
            C10_before_fix_refuted is the witness for fixd = false; those that
            hold of both states quantify over fixd. *)
From Coq Require Import Lia.
From PV Require Import Lib.Base Model.Sigver Model.CertSelect Model.Xmlsec Model.Request Gen.RequestTable
  Proofs.Request_lemmas.
From PV Require Model.Xsw Proofs.Xsw_lemmas Proofs.Glue_xsw.
Open Scope N_scope.

(* (0) the entry-point table RECORDED from the code on this run (which request
   class, msgtype and service each public parse_* method hands to
   _parse_request; which msgtype each class's signature_check asks for and that
   the text and must are passed through; which root tags
   <msgtype>_from_string and the SOAP reader accept) is the documented table the
   model is written against *)
Theorem C10_table_is_documented : rows_eqb request_table documented_table = true.
Proof. vm_compute. reflexivity. Qed.
Print Assumptions C10_table_is_documented.

(* (1) FULL STATEMENT, first half.  For every code state of the pre-check,
   every configuration, request kind, binding and received text: a request is
   handed over only if
   - the text is the clean encoding of that document for the binding,
   - its root element is the expected request type of the entry point,
   - valid_instance passed,
   - Version is 2.0,
   - Destination is absent / empty, or the receiver has no address for this
     service and binding, or it is one of those addresses,
   - IssueInstant lies in [now - 1 day - slack, now + 1 day + slack),
   - if the root carries a Signature child: the tool verified (Model/Xmlsec.v
     semantics, either duplicate-ID policy) the document for the root's name
     and ID under a candidate certificate that also passed certificate
     validation, and with only_use_keys_in_metadata (the default) that
     certificate is one the metadata holds for the issuer, use signing,
   - if want_authn_requests_signed or ..._only_with_valid_cert is on: the root
     carries a Signature child. *)
Theorem C10_handed_over_only_if_valid :
  forall pre c k b w d,
    parse_request pre true c k b w = Ok (Some d) ->
    carries k b w d /\
    root_name (d_tree d) = Some (kind_name k) /\
    d_valid d = true /\
    d_version d = Some V20 /\
    destination_ok c k b d /\
    (exists t, d_issue_instant d = Some t /\ in_window c t) /\
    (root_signed (d_tree d) = true ->
       exists certs cert,
         request_certs c d = Ok certs /\ In cert certs /\
         tool_verify (c_dupfail c) (d_tree d) (kind_name k) (node_id_arg (root_id (d_tree d))) cert = true /\
         cert_ok c cert = true /\
         (c_only_md c = true -> issuer_signing_cert c d cert)) /\
    (c_want_signed c = true \/ c_only_valid_cert c = true -> root_signed (d_tree d) = true).
Proof. exact handed_over_only_if_valid. Qed.
Print Assumptions C10_handed_over_only_if_valid.

(* (2) FULL STATEMENT, second half (the signature covers the request element
   itself), for the code state WITH the enveloping pre-check: the root has
   exactly one Signature child, intact, by the certificate's key, whose single
   reference is "#" + the root's ID and digests exactly the root without it *)
Theorem C10_signature_covers_request :
  forall c k b w d,
    parse_request true true c k b w = Ok (Some d) ->
    root_signed (d_tree d) = true ->
    exists certs cert,
      request_certs c d = Ok certs /\ In cert certs /\ cert_ok c cert = true /\
      signature_covers_root (d_tree d) cert.
Proof. intros c k b w d H Hs. exact (Glue_xsw.signature_covers_request true c k b w d H Hs (or_introl eq_refl)). Qed.
Print Assumptions C10_signature_covers_request.

(* (3) corollary in the quantifier's own terms, same code state: if the only
   intact signatures under the issuer's candidate certificates occurring
   anywhere in the received document are copies of one signature (reference
   "#v" over [content]) - the sender signed nothing else, signatures cannot be
   forged - then a handed-over signed request IS [content] plus that signature:
   every modification of a signed request (field edit, destination swap,
   re-dated instant, added / removed child, wrapping, transplanted signature)
   is refused *)
Theorem C10_tamper :
  forall c k b w d v content,
    parse_request true true c k b w = Ok (Some d) ->
    root_signed (d_tree d) = true ->
    (forall certs refs key, request_certs c d = Ok certs -> In key certs ->
        In (Sg refs key true) (doc_sigs (d_tree d)) -> refs = [(HASH :: v, content)]) ->
    exists n pl kids k0 key,
      d_tree d = El n (Some v) pl kids /\
      nth_error kids k0 = Some (Sg [(HASH :: v, content)] key true) /\
      content = El n (Some v) pl (remove_nth k0 kids).
Proof. intros c k b w d v content H Hs. exact (Glue_xsw.tamper_refused true c k b w d v content H Hs (or_introl eq_refl)). Qed.
Print Assumptions C10_tamper.

(* the code state the correspondence runs against (Model/Request.v) IS the one of (1)-(3):
   pre-check in force (fix: f6d4380b), F16 repaired (fix: 0b54cc6b), options read in the
   entity's own section (fix: dace676c) *)
Theorem C10_code_state :
  parse_request_now = parse_request true true /\ OPTIONS_OWN_CONTEXT = true.
Proof. split; reflexivity. Qed.
Print Assumptions C10_code_state.

(* (2'), (3') BEFORE fix: f6d4380b the library had no pre-check (pre = false):
   there (2) is REFUTED - a forged request carrying the genuine content inside
   Extensions and the genuine signature as its own child is handed over, and no
   signature child of the root covers the root - ... *)
Theorem C10_covers_refuted_without_precheck :
  exists c k b w d,
    parse_request false true c k b w = Ok (Some d) /\
    root_signed (d_tree d) = true /\
    (forall cert, ~ signature_covers_root (d_tree d) cert) /\
    parse_request true true c k b w = Err (E "IncorrectlySigned").
Proof.
  exists (w_cfg true false), KAuthn, BPost, (WText (Xml (w_doc w_wrapped (Some w_sso) 0))), (w_doc w_wrapped (Some w_sso) 0).
  split; [vm_compute; reflexivity|]. split; [reflexivity|]. split; [|vm_compute; reflexivity].
  (* no child of the forged root is a signature over the root's own ID *)
  intros cert (n & v & pl & kids & k & Et & _ & Hn & _). injection Et as <- <- <- <-.
  destruct k as [|[|[|k]]]; [vm_compute in Hn; discriminate Hn ..|]. cbn in Hn. destruct k; discriminate Hn.
Qed.
Print Assumptions C10_covers_refuted_without_precheck.

(* ... and (2), (3) hold under the hypothesis that the pre-check predicate is
   true of the received document *)
Theorem C10_covers_partial :
  forall c k b w d,
    parse_request false true c k b w = Ok (Some d) ->
    root_signed (d_tree d) = true ->
    enveloped_ok (d_tree d) (kind_name k) (root_id (d_tree d)) = true ->
    exists certs cert,
      request_certs c d = Ok certs /\ In cert certs /\ cert_ok c cert = true /\
      signature_covers_root (d_tree d) cert.
Proof. intros c k b w d H Hs He. exact (Glue_xsw.signature_covers_request false c k b w d H Hs (or_intror He)). Qed.
Print Assumptions C10_covers_partial.

Theorem C10_tamper_partial :
  forall c k b w d v content,
    parse_request false true c k b w = Ok (Some d) ->
    root_signed (d_tree d) = true ->
    enveloped_ok (d_tree d) (kind_name k) (root_id (d_tree d)) = true ->
    (forall certs refs key, request_certs c d = Ok certs -> In key certs ->
        In (Sg refs key true) (doc_sigs (d_tree d)) -> refs = [(HASH :: v, content)]) ->
    exists n pl kids k0 key,
      d_tree d = El n (Some v) pl kids /\
      nth_error kids k0 = Some (Sg [(HASH :: v, content)] key true) /\
      content = El n (Some v) pl (remove_nth k0 kids).
Proof. intros c k b w d v content H Hs He. exact (Glue_xsw.tamper_refused false c k b w d v content H Hs (or_intror He)). Qed.
Print Assumptions C10_tamper_partial.

(* (4) F16, the code before repair 0b54cc6b: with `if verified or only_valid_cert:` as the last step of
   _check_signature (fixd = false) statement (1) FAILS: with
   want_authn_requests_only_with_valid_cert on, a request with an edited
   attribute, whose signature verifies under neither candidate certificate, is
   handed over.  The repaired step refuses it, with or without the pre-check. *)
Theorem C10_before_fix_refuted :
  exists c k b w d,
    c_only_valid_cert c = true /\
    parse_request false false c k b w = Ok (Some d) /\
    root_signed (d_tree d) = true /\
    (exists certs, request_certs c d = Ok certs /\
       forall cert, In cert certs ->
         tool_verify (c_dupfail c) (d_tree d) (kind_name k) (node_id_arg (root_id (d_tree d))) cert = false) /\
    parse_request false true c k b w = Err (E "IncorrectlySigned") /\
    parse_request true true c k b w = Err (E "IncorrectlySigned").
Proof.
  exists (w_cfg false true), KAuthn, BPost, (WText (Xml (w_doc w_tampered (Some w_sso) 0))), (w_doc w_tampered (Some w_sso) 0).
  split; [reflexivity|]. split; [vm_compute; reflexivity|]. split; [reflexivity|]. split; [|split; vm_compute; reflexivity].
  exists [3; 5]. split; [vm_compute; reflexivity|]. intros cert [<-|[<-|[]]]; vm_compute; reflexivity.
Qed.
Print Assumptions C10_before_fix_refuted.

(* the repair changes nothing for a receiver that does not set only_valid_cert *)
Theorem C10_repair_keeps_the_rest :
  forall pre c k b w, c_only_valid_cert c = false ->
    parse_request pre false c k b w = parse_request pre true c k b w.
Proof. exact parse_request_fix_agrees. Qed.
Print Assumptions C10_repair_keeps_the_rest.

(* (4b) which section the want options are read from.  With the repair of
   proposed_fix/C10-2 (mk_cfg true: the section of the entity's own type - an
   IdP's idp section, an attribute authority's aa section): whenever that section
   sets want_authn_requests_signed or ..._only_with_valid_cert, a handed-over
   request carries a signature (the last clause of (1) in terms of the
   CONFIGURATION rather than of what _parse_request read) ... *)
Theorem C10_own_options_honoured :
  forall pre etype eps secs slack now mdp md only vc dup k b w d,
    parse_request pre true (mk_cfg true etype eps secs slack now mdp md only vc dup) k b w = Ok (Some d) ->
    fst (lookup_opts etype secs) = true \/ snd (lookup_opts etype secs) = true ->
    root_signed (d_tree d) = true.
Proof.
  intros pre etype eps secs slack now mdp md only vc dup k b w d H Hw.
  destruct (handed_over_only_if_valid _ _ _ _ _ _ H) as (_ & _ & _ & _ & _ & _ & _ & Hwant). exact (Hwant Hw).
Qed.
Print Assumptions C10_own_options_honoured.

(* ... the code before repair dace676c read them in the idp section whatever the entity is (mk_cfg
   false): an attribute authority of its own (Server(stype="aa")) whose aa section
   wants signed requests hands over an unsigned AttributeQuery *)
Theorem C10_options_before_fix_refuted :
  exists etype eps secs slack now mdp md only vc dup k b w d,
    fst (lookup_opts etype secs) = true /\
    parse_request false true (mk_cfg false etype eps secs slack now mdp md only vc dup) k b w = Ok (Some d) /\
    root_signed (d_tree d) = false /\
    parse_request false true (mk_cfg true etype eps secs slack now mdp md only vc dup) k b w = Err (E "IncorrectlySigned").
Proof.
  exists CAa, [(CAa, [(s2l "attribute_service", [EP (s2l "https://idp.example.org/aa/soap") (s2l "urn:oasis:names:tc:SAML:2.0:bindings:SOAP")])])],
         w_aa_secs, 0%Z, 1790000000%Z, true, [(w_sp, [[{| kd_use := Some SIGNING; kd_certs := [5] |}]])], true, None, true,
         KAttrQ, BSoap, (WSoap (SoapPart w_query)), w_query.
  vm_compute. repeat split; reflexivity.
Qed.
Print Assumptions C10_options_before_fix_refuted.

(* (5) truncated / garbled encodings and wrong roots, for every code state *)
Theorem C10_undecodable_refused :
  forall pre fixd c k b, b <> BUri -> b <> BNone ->
    (exists e, parse_request pre fixd c k b WFail = Err e) /\
    (exists e, parse_request pre fixd c k b (WText NotXml) = Err e).
Proof.
  intros pre fixd c k b H1 H2. unfold parse_request, unravel.
  split; destruct b; try congruence; try (eexists; reflexivity); destruct (kind_soap k); eexists; reflexivity.
Qed.
Print Assumptions C10_undecodable_refused.

Theorem C10_wrong_root_refused :
  forall pre fixd c k b w d,
    parse_request pre fixd c k b w = Ok (Some d) -> root_name (d_tree d) = Some (kind_name k).
Proof.
  intros pre fixd c k b w d H. destruct (parse_request_ok _ _ _ _ _ _ _ H) as (_ & Hc & _).
  exact (proj1 (proj2 (csm_ok _ _ _ _ _ _ _ _ Hc))).
Qed.
Print Assumptions C10_wrong_root_refused.

(* (6) non-vacuity: a genuine signed AuthnRequest (two candidate certificates,
   the second verifies; allowance 60 s) is handed over in every code state and
   under every want / only_valid_cert setting, its signature covers it and it
   passes the pre-check; an edited one, one addressed to the other binding's
   endpoint or to a near-miss URL, one dated 86460 s ahead or 86461 s back, an
   unsigned one when signatures are wanted, and one sent to the logout entry
   point are refused; 86459 s ahead and an absent Destination are accepted *)
Example C10_witness :
  let g := w_doc w_genuine (Some w_sso) 0 in
  (forall pre fixd want ovc, w_run pre fixd want ovc g = Ok (Some g)) /\
  signature_covers_root w_genuine 5 /\
  enveloped_ok w_genuine (kind_name KAuthn) (root_id w_genuine) = true /\
  w_run true true true false (w_doc w_tampered (Some w_sso) 0) = Err (E "IncorrectlySigned") /\
  w_run true true false false (w_doc w_genuine (Some (s2l "https://idp.example.org/sso/redirect")) 0) = Err (E "OtherError") /\
  w_run true true false false (w_doc w_genuine (Some (s2l "https://idp.example.org/sso/post/")) 0) = Err (E "OtherError") /\
  w_run true true false false (w_doc w_genuine (Some w_sso) 86460) = Ok None /\
  w_run true true false false (w_doc w_genuine (Some w_sso) (-86461)) = Ok None /\
  w_run true true true false (w_doc w_unsigned (Some w_sso) 0) = Err (E "IncorrectlySigned") /\
  parse_request true true (w_cfg false false) KLogout BPost (WText (Xml g)) = Err (E "TypeError").
Proof.
  cbv zeta. split; [intros [] [] [] []; vm_compute; reflexivity|].
  split; [exists 1, w_id, 2, [El 9 None 1 []; w_sig], 1%nat; repeat split; try reflexivity; discriminate|].
  vm_compute. repeat split; reflexivity.
Qed.
Print Assumptions C10_witness.

(* (7) NO KIND-SPECIFIC EXCEPTION.  There is one _loads, one _verify and one issue_instant_ok for all eight request
   kinds (C10_table_is_documented: no request class resolves one of those steps to a definition of its own), and
   none of them reads the kind-specific optional content of the message - LogoutRequest/@NotOnOrAfter, Reason,
   SessionIndex; AuthnRequest Conditions (NotBefore / NotOnOrAfter), Subject, ForceAuthn / IsPassive, Scoping; the
   optional children of the queries and of ManageNameID / NameIDMapping requests ([d_opts], Model/Request.v).
   (7a) for every kind, binding, configuration and received text: replacing the optional content by ANY other
   leaves the outcome (exception class / None / handed over) unchanged *)
Theorem C10_blind_to_optional_content :
  forall pre fixd c k b w o,
    parse_request pre fixd c k b (wire_set_opts o w) = res_set_opts o (parse_request pre fixd c k b w).
Proof.
  intros pre fixd c k b w o. unfold parse_request. rewrite unravel_set_opts.
  destruct (unravel k b w) as [x|e]; [|reflexivity]. rewrite loads_set_opts.
  destruct (loads pre fixd c k (c_want_signed c || c_only_valid_cert c) (c_only_valid_cert c) x) as [d|e]; [|reflexivity].
  apply verify_set_opts.
Qed.
Print Assumptions C10_blind_to_optional_content.

(* (7b) statement (1) in refusal form, over the kind parameter: a request document that is stale / dated ahead /
   without instant, or addressed elsewhere, or unsigned though signatures are wanted, or of another version, or
   schema-invalid, or of another root, is handed over by NO entry point, whatever optional content it carries *)
Theorem C10_no_kind_specific_exception :
  forall pre c k b w d, must_be_refused c k b d -> parse_request pre true c k b w <> Ok (Some d).
Proof. exact no_kind_specific_exception. Qed.
Print Assumptions C10_no_kind_specific_exception.

(* (7c) in particular: a NotOnOrAfter in the future (on a LogoutRequest, or any other dateTime among the optional
   content of any kind) does not excuse an IssueInstant outside the window *)
Theorem C10_future_not_on_or_after_does_not_excuse :
  forall pre c k b w d t name noa,
    In (name, Some noa) (d_opts d) -> (c_now c < noa)%Z ->
    d_issue_instant d = Some t -> (t < c_now c - 86400 - c_slack c \/ c_now c + 86400 + c_slack c <= t)%Z ->
    parse_request pre true c k b w <> Ok (Some d).
Proof.
  intros pre c k b w d t name noa _ _ Ht Hout. apply no_kind_specific_exception. left.
  intros t' Ht' [H1 H2]. rewrite Ht in Ht'. inversion Ht'; subst t'. lia.
Qed.
Print Assumptions C10_future_not_on_or_after_does_not_excuse.

(* (8) ONE LONG-LIVED RECEIVER taking in any sequence of messages (induction over the sequence): everything it has
   handed over at any point was handed over by _parse_request on that message alone - hence satisfies (1)-(3),
   (7) - and what came before changes nothing: valid requests taken in earlier excuse nothing later *)
Theorem C10_history :
  forall pre fixd c ops,
    Forall (handed_by pre fixd c) (run_history pre fixd c ops []) /\
    (forall ops1 ops2, ops = ops1 ++ ops2 ->
       run_history pre fixd c ops [] = run_history pre fixd c ops1 [] ++ run_history pre fixd c ops2 []).
Proof.
  intros pre fixd c ops. split.
  - apply Forall_forall. intros [o d] H. apply In_run_history in H. apply H.
  - intros ops1 ops2 ->. rewrite !run_history_eq, flat_map_app. reflexivity.
Qed.
Print Assumptions C10_history.

Theorem C10_history_handed_over_only_if_valid :
  forall pre c ops k b w d,
    In ((k, b, w), d) (run_history pre true c ops []) ->
    In (k, b, w) ops /\ ~ must_be_refused c k b d.
Proof.
  intros pre c ops k b w d Hin. apply In_run_history in Hin as [Hin H]. split; [exact Hin|].
  intros Hr. exact (no_kind_specific_exception _ _ _ _ _ _ Hr H).
Qed.
Print Assumptions C10_history_handed_over_only_if_valid.

(* non-vacuity of (7), (8): a LogoutRequest carrying NotOnOrAfter one hour ahead and a Reason (allowance 60 s) is
   handed over when issued now; issued 86461 s ago or 86460 s ahead it is not (None); addressed to the SOAP endpoint
   but sent by POST, and unsigned when signatures are wanted, it is refused; and a receiver that took in the valid
   one first still refuses the stale one and takes the next valid one *)
Example C10_logout_witness :
  let run want d := parse_request true true (w_lcfg want) KLogout BPost (WText (Xml d)) in
  run false (w_logout (Some w_slo) 0 w_noa_future) = Ok (Some (w_logout (Some w_slo) 0 w_noa_future)) /\
  run false (w_logout (Some w_slo) (-86461) w_noa_future) = Ok None /\
  run false (w_logout (Some w_slo) 86460 w_noa_future) = Ok None /\
  run false (w_logout (Some (s2l "https://idp.example.org/slo/soap")) 0 w_noa_future) = Err (E "OtherError") /\
  run true (w_logout (Some w_slo) 0 w_noa_future) = Err (E "IncorrectlySigned") /\
  List.length (run_history true true (w_lcfg false)
    [(KLogout, BPost, WText (Xml (w_logout (Some w_slo) 0 w_noa_future)));
     (KLogout, BPost, WText (Xml (w_logout (Some w_slo) (-86461) w_noa_future)));
     (KLogout, BPost, WText (Xml (w_logout (Some w_slo) 0 [])))] []) = 2%nat.
Proof.
  vm_compute. repeat split; reflexivity.
Qed.
Print Assumptions C10_logout_witness.

(* GLUE to C01 (Proofs/Glue_xsw.v, docs/Glue.md).  The symbolic documents above are Model/Xmlsec.v's; C01 is proved
   over Model/Xsw.v (signatures with their own ID / Object children, three duplicate-ID policies, Dolev-Yao closure).
   Through the embedding [emb] the tool and the pre-check of this file are C01's (Glue_tool_verify_agrees,
   Glue_request_precheck_is_C01_precheck in Props/Glue.v), so C01's conclusion holds for every SIGNED request handed
   to the application: it is COVERED - its ID is non-empty and carried by no other node of the document, it has
   exactly one Signature child, the first signature in document order, with the single reference to that ID, an
   intact value under a certificate selected for the issuer, digesting exactly the request minus that child. *)
Theorem C10_signed_request_is_covered_as_in_C01 :
  forall c k b w d,
    parse_request true true c k b w = Ok (Some d) -> root_signed (d_tree d) = true ->
    exists certs v X j D,
      request_certs c d = Ok certs /\ root_id (d_tree d) = Some v /\
      Xsw_lemmas.covered (Glue_xsw.emb (d_tree d)) (N.succ (kind_name k)) v certs [] X j D /\
      X = Glue_xsw.emb (d_tree d).
Proof. exact Glue_xsw.parse_request_relied_is_covered. Qed.
Print Assumptions C10_signed_request_is_covered_as_in_C01.

(* (9) SCHEMA VALIDITY IS THE C13 JUDGEMENT; REQUIRED ATTRIBUTES PRESENT BUT EMPTY (Model/RequestValid.v).
   In (1)-(8) d_valid is an input bit.  Here the received document comes with the instance tree [i] that
   <msgtype>_from_string makes of it (Model/Schema.v; an attribute written X="" is the member holding the EMPTY value) and
   d_valid is COMPUTED: vi prim i = validate.valid_instance of Model/Validate.v (C13) over Gen/SchemaTables.v, the tables
   regenerated from the working tree on this run.  parse_request_v = _parse_request on such a text. *)
From PV Require Import Model.Schema Model.Validate Gen.SchemaTables Proofs.Validate_lemmas Model.RequestValid
  Proofs.RequestValid_lemmas Gen.RequestInst.

(* (9a) handed over => valid_instance accepted the instance tree (and everything (1) says holds of the document) *)
Theorem C10_handed_over_only_if_valid_instance :
  forall pre prim c k b w i d,
    parse_request_v pre true prim c k b w i = Ok (Some d) ->
    vi prim i = ok /\ exists d0, d = judged prim i d0 /\ carries k b w d0.
Proof. exact handed_over_valid_instance. Qed.
Print Assumptions C10_handed_over_only_if_valid_instance.

(* (9b) REFUSAL.  If the root or ANY node reachable below it through declared child members, at any depth (IDPEntry under
   Scoping/IDPList, SubjectConfirmation under Subject, Attribute, Action, the Assertion inside Evidence, EncryptionMethod
   inside EncryptedID ...), has a required attribute that is missing OR EMPTY, the request is handed over by no entry
   point, over no binding, under no configuration, signed or not, for every primitive validator function *)
Theorem C10_empty_required_attribute_refused :
  forall pre prim c k b w i j d,
    reach actual_schema i j -> required_missing_or_empty j ->
    parse_request_v pre true prim c k b w i <> Ok (Some d).
Proof.
  intros pre prim c k b w i j d Hr He H. destruct (handed_over_valid_instance _ _ _ _ _ _ _ _ H) as [Hv _].
  pose proof (empty_required_not_valid prim i j Hr He) as Hf. unfold vi_ok in Hf. rewrite Hv in Hf. discriminate.
Qed.
Print Assumptions C10_empty_required_attribute_refused.

(* the executable reading of the hypothesis: the members it names *)
Theorem C10_empty_required_members_sound :
  forall j m, In m (empty_required_members j) -> required_missing_or_empty j.
Proof.
  intros [|c attrs t K xa xe] m; unfold empty_required_members, required_missing_or_empty; [intros []|].
  destruct (find_row actual_schema c) as [r|] eqn:Hrow; [|intros []].
  intros Hin. apply in_map_iff in Hin as [a [_ Ha]]. apply filter_In in Ha as [Hin Hb].
  apply andb_true_iff in Hb as [Hreq Ht]. exists r, a. repeat split; try assumption.
  destruct (alookup (a_member a) attrs) as [[|c0 v]|]; [right; reflexivity|discriminate|left; reflexivity].
Qed.
Print Assumptions C10_empty_required_members_sound.

(* (9c) EXACTLY AS IF ABSENT: the judgement cannot tell X="" from no X - per attribute row (required or optional, typed or
   not), hence per node and for the root of a request: two instance trees whose root attribute lists agree except that
   one has "" where the other has nothing get the same verdict, so the same outcome of _parse_request *)
Theorem C10_empty_is_judged_as_absent :
  forall prim c attrs1 attrs2 t K xa xe,
    same_but_empty attrs1 attrs2 ->
    vi prim (I c attrs1 t K xa xe) = vi prim (I c attrs2 t K xa xe) /\
    forall pre fixd cf k b w,
      parse_request_v pre fixd prim cf k b w (I c attrs1 t K xa xe) = parse_request_v pre fixd prim cf k b w (I c attrs2 t K xa xe).
Proof.
  intros prim c attrs1 attrs2 t K xa xe Hs.
  pose proof (root_empty_as_absent prim c attrs1 attrs2 t K xa xe Hs) as Hv. split; [exact Hv|].
  intros pre fixd cf k b w. unfold parse_request_v, wire_judged, judged, vi_ok. rewrite Hv. reflexivity.
Qed.
Print Assumptions C10_empty_is_judged_as_absent.

(* (9d) one long-lived receiver: whatever it has handed over at any point of a sequence passed valid_instance itself *)
Theorem C10_history_only_valid_instances :
  forall pre prim c ops k b w d,
    In ((k, b, w), d) (run_history_v pre true prim c ops) ->
    exists w0 i, In (k, b, w0, i) ops /\ w = wire_judged prim i w0 /\ vi prim i = ok.
Proof.
  intros pre prim c ops k b w d Hin. apply In_run_history in Hin as [Hop H].
  apply in_map_iff in Hop as [[[[k0 b0] w0] i] [[= -> -> <-] Hin0]].
  exists w0, i. split; [exact Hin0|split; [reflexivity|]]. exact (proj1 (handed_over_valid_instance pre prim c k b w0 i d H)).
Qed.
Print Assumptions C10_history_only_valid_instances.

(* (9e) non-vacuity, on instance trees REGENERATED on this run from requests built with the library's own classes
   (Gen/RequestInst.v): an AuthnRequest carrying Scoping/IDPList/IDPEntry is judged valid and handed over; the same with
   ID="" at the root, with IDPEntry ProviderID="" two levels below Scoping, and with that ProviderID absent are judged
   invalid - a violation is reachable - and refused (NotValid), the empty and the absent one with the same verdict *)
Example C10_empty_required_witness :
  let P := prim_of [] in
  let run i := parse_request_v_now P (w_cfg false false) KAuthn BPost (WText (Xml (w_doc w_unsigned None 0))) i in
  vi P ri_good = ok /\ (exists d, run ri_good = Ok (Some d)) /\
  vi_ok P ri_empty_root = false /\ empty_required_members ri_empty_root <> [] /\ run ri_empty_root = Err (E "NotValid") /\
  vi_ok P ri_empty_deep = false /\ has_violation P validator_keys actual_schema ri_empty_deep = true /\
  run ri_empty_deep = Err (E "NotValid") /\
  vi P ri_empty_deep = vi P ri_absent_deep /\ run ri_absent_deep = Err (E "NotValid").
Proof.
  cbv zeta. repeat split; try (vm_compute; reflexivity); try (vm_compute; discriminate).
  eexists. vm_compute. reflexivity.
Qed.
Print Assumptions C10_empty_required_witness.

(* (10) THE PROCESS TIME ZONE AND THE CLOCK SOURCES.  Model/RequestWindow.v: Request.issue_instant_ok on the TEXT of
   IssueInstant, through Model/TimeUtil.v (strptime / str_to_time, calendar.timegm, time.gmtime, datetime.timetuple,
   the order on time tuples), with the clock of the process explicit: pclock = (the instant, what the wall clock of the
   zone in force is ahead of UTC).  The code reads datetime.utcnow() for now and calendar.timegm for the text. *)
From PV Require Import Model.TimeUtil Model.RequestWindow Proofs.TimeUtil_lemmas Proofs.RequestWindow_lemmas.

(* (10a) the verdict on a text that denotes the tuple c is the window on instants [now-86400-slack, now+86400+slack),
   now = the UTC instant, timegm c = the UTC reading of the text *)
Theorem C10_window_text :
  forall k slack s c, str_to_time s = Ok (Some c) ->
    window_text k slack s = Ok (within (pc_now k) slack (timegm c)).
Proof. exact window_text_spec. Qed.
Print Assumptions C10_window_text.

(* (10b) the verdict is a function of (now_utc, text, allowance) only: two processes whose clocks read the same instant
   give the same verdict on every text whatever their zones *)
Theorem C10_window_verdict_is_zone_free :
  forall k k' slack s, pc_now k = pc_now k' -> window_text k slack s = window_text k' slack s.
Proof. intros k k' slack s H. unfold window_text, dt_utcnow. rewrite H. reflexivity. Qed.
Print Assumptions C10_window_verdict_is_zone_free.

(* (10c) it IS the IssueInstant clause of the request model (Model/Request.v issue_instant_ok on d_issue_instant) when
   the document's instant is the one its text denotes; so C10_handed_over_only_if_valid speaks about texts *)
Theorem C10_window_text_is_the_request_window :
  forall k (c : rcfg) s tm, c_now c = pc_now k -> str_to_time s = Ok (Some tm) ->
    window_text k (c_slack c) s = Ok (issue_instant_ok c (timegm tm)).
Proof.
  intros k c s tm Hn H. rewrite (window_text_spec k _ s tm H). unfold within, issue_instant_ok. rewrite Hn. reflexivity.
Qed.
Print Assumptions C10_window_text_is_the_request_window.

(* (10d) accepted by the test => the text parses and lies strictly within a day plus allowance of the UTC now - in
   every zone; a request more than a day + allowance away is never accepted *)
Theorem C10_window_never_beyond_a_day :
  forall k slack s, window_text k slack s = Ok true ->
    exists c, str_to_time s = Ok (Some c) /\ (pc_now k - 86400 - slack <= timegm c < pc_now k + 86400 + slack)%Z.
Proof.
  intros k slack s H.
  destruct (str_to_time s) as [[c|]|e] eqn:Hs; try (unfold window_text, window_on in H; rewrite Hs in H; discriminate).
  exists c. split; [reflexivity|]. apply within_iff. rewrite (window_text_spec k slack s c Hs) in H. now injection H.
Qed.
Print Assumptions C10_window_never_beyond_a_day.

(* (10e) a message stamped by time_util.instant at t (years 1000..9999) gets the window on t *)
Theorem C10_window_of_stamped_instant :
  forall k slack t, (-30610224000 <= t <= 253402300799)%Z ->
    window_text k slack (instant_of t) = Ok (within (pc_now k) slack t).
Proof.
  intros k slack t R. rewrite (window_text_spec k slack _ (gmtime t) (instant_round_trip t (gmtime_year_range t R))).
  rewrite timegm_gmtime. reflexivity.
Qed.
Print Assumptions C10_window_of_stamped_instant.

(* (10f) REFUTED for a window that takes mktime(gmtime()) (time_util.utc_time_sans_frac: the UTC tuple read as LOCAL
   time) as now: in New York a request dated a day and an hour ahead passes, in Tokyo one dated 23 h ahead is refused;
   likewise for datetime.now() as now and for mktime instead of timegm on the text.  Under UTC the three variants ARE
   the code (the partial statement) - which is why a run in a UTC process cannot tell them apart. *)
Theorem C10_window_mktime_now_refuted :
  (exists c, str_to_time s_ahead_1d_1h = Ok (Some c) /\ timegm c = (W_NOW + 86400 + 3600)%Z /\
             window_text_mktime_now k_new_york 0 s_ahead_1d_1h = Ok true /\
             window_text k_new_york 0 s_ahead_1d_1h = Ok false /\ window_text_mktime_now k_utc 0 s_ahead_1d_1h = Ok false) /\
  (exists c, str_to_time s_ahead_23h = Ok (Some c) /\ timegm c = (W_NOW + 82800)%Z /\
             window_text_mktime_now k_tokyo 0 s_ahead_23h = Ok false /\
             window_text k_tokyo 0 s_ahead_23h = Ok true).
Proof.
  split.
  - exists (gmtime (W_NOW + 90000)). split; [exact s_ahead_1d_1h_time|]. split; [apply timegm_gmtime|].
    split; [apply (window_mktime_now_at s_ahead_1d_1h_time)|].
    split; [apply (window_text_at s_ahead_1d_1h_time)|apply (window_mktime_now_at s_ahead_1d_1h_time)].
  - exists (gmtime (W_NOW + 82800)). split; [exact s_ahead_23h_time|]. split; [apply timegm_gmtime|].
    split; [apply (window_mktime_now_at s_ahead_23h_time)|apply (window_text_at s_ahead_23h_time)].
Qed.
Print Assumptions C10_window_mktime_now_refuted.

Theorem C10_window_local_now_refuted :
  window_text_local_now k_tokyo 60 s_ahead_1d_1h = Ok true /\ window_text k_tokyo 60 s_ahead_1d_1h = Ok false /\
  window_text_local_now k_new_york 60 s_ahead_23h = Ok false /\ window_text k_new_york 60 s_ahead_23h = Ok true.
Proof.
  split; [apply (window_local_now_at s_ahead_1d_1h_time)|]. split; [apply (window_text_at s_ahead_1d_1h_time)|].
  split; [apply (window_local_now_at s_ahead_23h_time)|apply (window_text_at s_ahead_23h_time)].
Qed.
Print Assumptions C10_window_local_now_refuted.

Theorem C10_window_mktime_text_refuted :
  window_text_mktime_text k_tokyo 0 s_ahead_1d_1h = Ok true /\ window_text k_tokyo 0 s_ahead_1d_1h = Ok false.
Proof.
  split; [apply (window_mktime_text_at s_ahead_1d_1h_time)|apply (window_text_at s_ahead_1d_1h_time)].
Qed.
Print Assumptions C10_window_mktime_text_refuted.

Theorem C10_window_variants_partial :
  forall k slack s, pc_ahead k = 0%Z ->
    window_text_mktime_now k slack s = window_text k slack s /\ window_text_local_now k slack s = window_text k slack s /\
    window_text_mktime_text k slack s = window_text k slack s.
Proof.
  intros k slack s Z0. unfold window_text_mktime_now, window_text_local_now, window_text_mktime_text, window_text, dt_now, dt_utcnow.
  rewrite utc_time_sans_frac_eq, Z0, Z.sub_0_r, Z.add_0_r. repeat split.
  unfold window_on. destruct (str_to_time s) as [[c|]|e] eqn:Hs; try reflexivity.
  unfold t_mktime. rewrite Z0, Z.sub_0_r.
  rewrite (gmtime_timegm c (str_to_time_valid s c Hs)). reflexivity.
Qed.
Print Assumptions C10_window_variants_partial.

(* the shifted windows, in general *)
Theorem C10_window_variants_shift :
  forall k slack s c, str_to_time s = Ok (Some c) ->
    window_text_mktime_now k slack s = Ok (within (pc_now k - pc_ahead k) slack (timegm c)) /\
    window_text_local_now k slack s = Ok (within (pc_now k + pc_ahead k) slack (timegm c)) /\
    window_text_mktime_text k slack s = Ok (within (pc_now k) slack (timegm c - pc_ahead k)).
Proof.
  intros k slack s c H. repeat split.
  - exact (window_mktime_now_spec k slack s c H).
  - exact (window_local_now_spec k slack s c H).
  - exact (window_mktime_text_spec k slack s c H).
Qed.
Print Assumptions C10_window_variants_shift.

(* non-vacuity: a text the code accepts in every zone, one it refuses in every zone *)
Example C10_window_witness :
  window_text k_tokyo 0 s_ahead_23h = Ok true /\ window_text k_new_york 0 s_ahead_23h = Ok true /\
  window_text k_utc 0 s_ahead_23h = Ok true /\ window_text k_tokyo 3600 s_ahead_1d_1h = Ok false /\
  window_text k_tokyo 3601 s_ahead_1d_1h = Ok true /\ window_text k_utc 0 [] = Err TypeError.
Proof.
  split; [apply (window_text_at s_ahead_23h_time)|]. split; [apply (window_text_at s_ahead_23h_time)|].
  split; [apply (window_text_at s_ahead_23h_time)|]. split; [apply (window_text_at s_ahead_1d_1h_time)|].
  split; [apply (window_text_at s_ahead_1d_1h_time)|reflexivity].
Qed.
Print Assumptions C10_window_witness.
