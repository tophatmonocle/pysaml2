(* Props/C09.v — the IdP answers only to endpoints registered for the
   requesting SP.

   response_args c md r bindings dt  models  Entity.response_args(message,
   bindings, descr_type) of an entity with configuration c and metadata store
   md; its result is Err <exception class>, Ok None (no binding/destination
   keys) or Ok (Some (binding, destination)). *)
From PV Require Import Lib.Base Model.PickBinding Proofs.PickBinding_lemmas Proofs.PickBinding_bindstr.
Open Scope N_scope.

(* (1) For every metadata store, configuration, request, bindings argument and
   descr_type: whatever (binding, destination) is produced is an endpoint that
   the metadata registers for the (stripped) issuer of the request, under the
   role and service response_args consults for that message class — with
   exactly that binding and exactly that location string.  The only other
   answer is the empty destination of the bindings == [SOAP] short-cut (reply
   on the same connection). *)
Theorem C09_destination_registered :
  forall c md r bindings dt b d,
    response_args c md r bindings dt = Ok (Some (b, d)) ->
    (soap_only bindings /\ b = B_SOAP /\ d = []) \/
    (exists s eid, kind_service (rq_kind r) = Some s /\ request_entity r = Ok eid /\
                   registered md eid (kind_role c (rq_kind r) dt) s b d).
Proof. exact (response_args_registered true). Qed.
Print Assumptions C09_destination_registered.

(* (2a) a consumer URL supplied in the request is answered only to itself and
   only when it is string-equal to a location registered for the issuer *)
Theorem C09_url_exact :
  forall c md r bindings dt u b d,
    rq_url r = Has (Some u) -> py_truthy u = true -> ~ soap_only bindings ->
    response_args c md r bindings dt = Ok (Some (b, d)) ->
    d = u /\ exists s eid, kind_service (rq_kind r) = Some s /\ request_entity r = Ok eid /\
                           registered md eid (kind_role c (rq_kind r) dt) s b u.
Proof. exact (response_args_url true). Qed.
Print Assumptions C09_url_exact.

(* (2b) … hence a URL that differs from every registered location (in case, by
   a trailing slash, an extra query, being a prefix or extension of one, being
   another SP's URL — any string inequality) yields an error, never that URL
   nor any other destination *)
Theorem C09_unregistered_url_refused :
  forall c md r bindings dt u s eid,
    rq_url r = Has (Some u) -> py_truthy u = true -> ~ soap_only bindings ->
    kind_service (rq_kind r) = Some s -> request_entity r = Ok eid ->
    (forall b, ~ registered md eid (kind_role c (rq_kind r) dt) s b u) ->
    exists e, response_args c md r bindings dt = Err e.
Proof. exact (response_args_url_unregistered true). Qed.
Print Assumptions C09_unregistered_url_refused.

(* (2c) the other direction: over metadata whose endpoint dicts all carry
   Binding and Location, a URL that is the location of an endpoint which
   MetadataStore.service returns for one of the admitted bindings is honoured *)
Theorem C09_registered_url_honoured :
  forall c md r bindings dt s eid bl u,
    kind_service (rq_kind r) = Some s -> ~ soap_only bindings ->
    request_entity r = Ok eid -> rq_url r = Has (Some u) -> py_truthy u = true ->
    binding_list c s bindings (Some r) = Ok bl -> Forall (fun b => py_truthy b = true) bl ->
    store_complete md eid (kind_role c (rq_kind r) dt) (svc_name s) ->
    (exists b l sv, In b bl /\
        store_service md eid (kind_role c (rq_kind r) dt) (svc_name s) b = Ok (SList l) /\
        In sv l /\ sv_location sv = Some u) ->
    exists b', response_args c md r bindings dt = Ok (Some (b', u)).
Proof. exact (response_args_url_honoured true). Qed.
Print Assumptions C09_registered_url_honoured.

(* (3) no source describes the issuer under the consulted role (in particular:
   the issuer is absent from metadata): an error, no destination; likewise
   when the request has no issuer (text) at all *)
Theorem C09_unknown_requester :
  forall c md r bindings dt s,
    ~ soap_only bindings -> kind_service (rq_kind r) = Some s ->
    (forall eid, request_entity r = Ok eid ->
       forall src e descs, In src md -> In e src -> en_id e = eid ->
                           ~ In (kind_role c (rq_kind r) dt, descs) (en_roles e)) ->
    exists e, response_args c md r bindings dt = Err e.
Proof. exact (response_args_unknown true). Qed.
Print Assumptions C09_unknown_requester.

Theorem C09_absent_requester :
  forall c md r bindings dt s eid,
    ~ soap_only bindings -> kind_service (rq_kind r) = Some s -> request_entity r = Ok eid ->
    ~ entity_known md eid ->
    exists e, response_args c md r bindings dt = Err e.
Proof.
  intros c md r bindings dt s eid Hns Hk He Hno.
  apply (response_args_unknown true c md r bindings dt s Hns Hk).
  intros eid' He' src e descs H1 H2 H3 _. apply Hno. exists src, e.
  repeat split; try assumption. congruence.
Qed.
Print Assumptions C09_absent_requester.

Theorem C09_no_issuer :
  forall c md r bindings dt s e0,
    ~ soap_only bindings -> kind_service (rq_kind r) = Some s -> request_entity r = Err e0 ->
    exists e, response_args c md r bindings dt = Err e.
Proof. exact (response_args_no_issuer true). Qed.
Print Assumptions C09_no_issuer.

(* (4) the index half, full statement: an AuthnRequest that names no URL but an
   AssertionConsumerService index is answered only to an endpoint carrying that index — so an unknown
   index is refused. *)
Definition index_statement (both : bool) : Prop :=
  forall c md r bindings dt i b d,
    rq_kind r = KAuthn -> class_shape r ->
    (rq_url r = Has None \/ rq_url r = Has (Some [])) ->
    rq_index r = Has (Some i) -> py_truthy i = true -> ~ soap_only bindings ->
    response_args_with both c md r bindings dt = Ok (Some (b, d)) ->
    exists eid sv, request_entity r = Ok eid /\
                   registered_sv md eid (s2l "spsso_descriptor") ACS sv /\
                   sv_binding sv = Some b /\ sv_location sv = Some d /\ sv_index sv = Some i.

(* (4) holds for the code as it stands (both attributes read independently,
   fix: 05de9b7d in /repo); class_shape is not needed here: it restricts the statement to
   requests the samlp classes can build, which the refuting witness below is *)
Theorem C09_index : index_statement true.
Proof.
  intros c md r bindings dt i b d Hk _ Hu Hi Ht Hns H.
  destruct (response_args_index true c md r bindings dt i b d) as (s & eid & sv & Hs & He & Hreg & Hb & Hl & Hx);
    try assumption.
  - unfold read_url_index. destruct Hu as [-> | ->]; reflexivity.
  - unfold read_url_index. destruct Hu as [-> | ->]; rewrite Hi; reflexivity.
  - rewrite Hk in Hs, Hreg. cbn in Hs. injection Hs as <-. exists eid, sv. repeat split; assumption.
Qed.
Print Assumptions C09_index.

(* the same in terms of response_args itself: an AuthnRequest naming an index
   and no URL is answered only to an endpoint that carries exactly that index;
   if no registered endpoint carries it the request is refused *)
Theorem C09_unknown_index_refused :
  forall c md r bindings dt i,
    rq_kind r = KAuthn -> class_shape r ->
    (rq_url r = Has None \/ rq_url r = Has (Some [])) ->
    rq_index r = Has (Some i) -> py_truthy i = true -> ~ soap_only bindings ->
    (forall eid sv, registered_sv md eid (s2l "spsso_descriptor") ACS sv -> sv_index sv <> Some i) ->
    forall b d, response_args c md r bindings dt <> Ok (Some (b, d)).
Proof.
  intros c md r bindings dt i Hk Hc Hu Hi Ht Hns Hno b d H.
  destruct (C09_index c md r bindings dt i b d Hk Hc Hu Hi Ht Hns H) as (eid & sv & _ & Hreg & _ & _ & Hx).
  exact (Hno eid sv Hreg Hx).
Qed.
Print Assumptions C09_unknown_index_refused.

(* witness: one SP, one POST endpoint with index 0; the request names index 7 *)
Definition w_sp   : str := s2l "https://sp.example.org/sp".
Definition w_acs  : str := s2l "https://sp.example.org/acs/a".
Definition w_sp2  : str := s2l "https://sp2.example.org/sp".
Definition w_acs2 : str := s2l "https://sp2.example.org/acs".
Definition w_md : mdstore := [[mk_sp w_sp [[mk_sv ACS B_POST w_acs (Some (s2l "0")) None]]]].
Definition w_cfg : config := idp_config default_preferred.
Definition w_req (url idx : option str) : request :=
  mk_req KAuthn (Some (Some w_sp)) (Has None) (Has url) (Has idx).

(* the code before the repair REFUTES the statement: it reads the index only
   inside the except-branch of the URL read, an AuthnRequest always has the URL
   attribute, so index 7 — which no endpoint carries — is answered to the
   first endpoint of the preferred binding. *)
Theorem C09_index_before_fix_refuted :
  exists c md r i b d,
    rq_kind r = KAuthn /\ class_shape r /\ rq_url r = Has None /\ rq_index r = Has (Some i) /\
    py_truthy i = true /\
    response_args_before_fix c md r None [] = Ok (Some (b, d)) /\
    (forall eid role s sv, registered_sv md eid role s sv -> sv_index sv <> Some i).
Proof.
  exists w_cfg, w_md, (w_req None (Some (s2l "7"))), (s2l "7"), B_POST, w_acs.
  split; [reflexivity|]. split; [cbn; repeat split; discriminate|].
  split; [reflexivity|]. split; [reflexivity|]. split; [reflexivity|].
  split; [vm_compute; reflexivity|].
  intros eid role s sv H. apply registered_sv_single in H as [<-|[]]. vm_compute. discriminate.
Qed.
Print Assumptions C09_index_before_fix_refuted.

(* … for any request object that has the <service>_url attribute (every
   AuthnRequest) the index has no influence whatsoever in the code before the repair *)
Theorem C09_index_ignored_before_fix :
  forall c md r bindings dt i,
    rq_url r <> Missing ->
    response_args_before_fix c md (set_index r i) bindings dt = response_args_before_fix c md r bindings dt.
Proof.
  intros c md r bindings dt i Hu.
  unfold response_args_before_fix, response_args_with, pick_binding_with, binding_list, read_url_index, request_entity, set_index.
  cbn [rq_kind rq_issuer rq_pbind rq_url rq_index].
  destruct (rq_url r) as [|u]; [contradiction|]. reflexivity.
Qed.
Print Assumptions C09_index_ignored_before_fix.

(* the repair changed nothing else: clause (1) held before it as well *)
Theorem C09_before_fix_destination_registered :
  forall c md r bindings dt b d,
    response_args_before_fix c md r bindings dt = Ok (Some (b, d)) ->
    (soap_only bindings /\ b = B_SOAP /\ d = []) \/
    (exists s eid, kind_service (rq_kind r) = Some s /\ request_entity r = Ok eid /\
                   registered md eid (kind_role c (rq_kind r) dt) s b d).
Proof. exact (response_args_registered false). Qed.
Print Assumptions C09_before_fix_destination_registered.

(* non-vacuity: the hypotheses are met by concrete requests *)
Definition w_md2 : mdstore :=
  [[mk_sp w_sp [[mk_sv ACS B_POST w_acs (Some (s2l "0")) (Some (s2l "true"));
                 mk_sv ACS B_REDIRECT (s2l "https://sp.example.org/acs/ab") (Some (s2l "1")) None;
                 mk_sv SLO B_POST (s2l "https://sp.example.org/slo") None None]]];
   [mk_sp w_sp2 [[mk_sv ACS B_POST w_acs2 (Some (s2l "0")) None]]]].

Example C09_witness :
  (* a registered URL is honoured, under the binding it is registered for *)
  response_args w_cfg w_md2 (w_req (Some w_acs) None) None [] = Ok (Some (B_POST, w_acs)) /\
  response_args w_cfg w_md2 (w_req (Some (s2l "https://sp.example.org/acs/ab")) None) None []
    = Ok (Some (B_REDIRECT, s2l "https://sp.example.org/acs/ab")) /\
  (* near misses and foreign URLs are refused *)
  forallb (fun u => negb (is_ok (response_args w_cfg w_md2 (w_req (Some u) None) None [])))
    [ s2l "https://sp.example.org/acs/A"; s2l "https://SP.example.org/acs/a";
      s2l "https://sp.example.org/acs/a/"; s2l "https://sp.example.org/acs/a?x=1";
      s2l "https://sp.example.org/acs/"; s2l "https://sp.example.org/acs/abc";
      s2l " https://sp.example.org/acs/a"; w_acs2; s2l "https://evil.example.com/acs" ] = true /\
  (* unknown issuer; logout request with a bindings argument *)
  response_args w_cfg w_md2 (mk_req KAuthn (Some (Some (s2l "https://nobody.example.org/sp"))) (Has None) (Has None) (Has None)) None []
    = Err E_UnknownEnt /\
  response_args w_cfg w_md2 (mk_req KLogout (Some (Some w_sp)) Missing Missing Missing) (Some [B_SOAP; B_POST]) []
    = Ok (Some (B_POST, s2l "https://sp.example.org/slo")) /\
  (* unknown index refused, known index honoured; the defect before the repair on the same input *)
  response_args w_cfg w_md2 (w_req None (Some (s2l "7"))) None [] = Err E_SAML /\
  response_args w_cfg w_md2 (w_req None (Some (s2l "1"))) None []
    = Ok (Some (B_REDIRECT, s2l "https://sp.example.org/acs/ab")) /\
  response_args_before_fix w_cfg w_md2 (w_req None (Some (s2l "7"))) None [] = Ok (Some (B_POST, w_acs)).
Proof. vm_compute. repeat split; reflexivity. Qed.
Print Assumptions C09_witness.

(* (5) binding strings and entity ids that contain each other.  Bindings are
   compared with str_eqb: a binding that properly contains a registered one
   (HTTP-POST-SimpleSign / HTTP-POST, a trailing slash or space) or is properly
   contained in it (the prefix ...:bindings:HTTP) is a DIFFERENT binding. *)
Theorem C09_contained_binding_differs :
  forall x y, contain_each_other x y -> str_eqb x y = false /\ str_eqb y x = false.
Proof.
  intros x y H. pose proof (contain_each_other_neq _ _ H) as Hne.
  split; apply str_eqb_neq; congruence.
Qed.
Print Assumptions C09_contained_binding_differs.

(* the answered binding is, as a string, one of the admitted bindings (the
   bindings argument, else [ProtocolBinding], else the configured preference)
   AND (C09_destination_registered) the binding of the registered endpoint *)
Theorem C09_answered_binding_admitted :
  forall c md r bindings dt b d,
    response_args c md r bindings dt = Ok (Some (b, d)) -> ~ soap_only bindings ->
    exists s bl, kind_service (rq_kind r) = Some s /\
                 binding_list c s bindings (Some r) = Ok bl /\ In b bl.
Proof. exact (response_args_admitted true). Qed.
Print Assumptions C09_answered_binding_admitted.

(* the issuer's endpoints are registered only under binding strings different
   from every admitted one: refused, whatever URL or index the request names *)
Theorem C09_no_equal_binding_refused :
  forall c md r bindings dt s eid bl,
    kind_service (rq_kind r) = Some s -> request_entity r = Ok eid -> ~ soap_only bindings ->
    binding_list c s bindings (Some r) = Ok bl ->
    (forall b loc, registered md eid (kind_role c (rq_kind r) dt) s b loc -> ~ In b bl) ->
    exists e, response_args c md r bindings dt = Err e.
Proof. exact (response_args_no_equal_binding true). Qed.
Print Assumptions C09_no_equal_binding_refused.

(* ... in particular when every registered binding contains / is contained in
   every admitted one (endpoint under HTTP-POST-SimpleSign, request names
   HTTP-POST; endpoint under HTTP-POST, request names the prefix ...:HTTP) *)
Theorem C09_contained_binding_refused :
  forall c md r bindings dt s eid bl,
    kind_service (rq_kind r) = Some s -> request_entity r = Ok eid -> ~ soap_only bindings ->
    binding_list c s bindings (Some r) = Ok bl ->
    (forall b loc, registered md eid (kind_role c (rq_kind r) dt) s b loc ->
                   forall x, In x bl -> contain_each_other b x) ->
    exists e, response_args c md r bindings dt = Err e.
Proof. exact (response_args_contained_binding_refused true). Qed.
Print Assumptions C09_contained_binding_refused.

(* the same for entity ids: when the store only knows ids that contain / are
   contained in the stripped issuer (trailing slash, one character less) the
   request is refused *)
Theorem C09_contained_entity_id_refused :
  forall c md r bindings dt s eid,
    ~ soap_only bindings -> kind_service (rq_kind r) = Some s -> request_entity r = Ok eid ->
    (forall src e, In src md -> In e src -> contain_each_other (en_id e) eid) ->
    exists e, response_args c md r bindings dt = Err e.
Proof. exact (response_args_contained_entity_refused true). Qed.
Print Assumptions C09_contained_entity_id_refused.

(* non-vacuity: SP with one endpoint under HTTP-POST-SimpleSign and one under
   HTTP-POST; the longer id (trailing slash) registered in a LATER source *)
Definition B_SS : str := B_POST ++ s2l "-SimpleSign".
Definition w_md3 : mdstore :=
  [[mk_sp w_sp [[mk_sv ACS B_SS w_acs (Some (s2l "0")) None;
                 mk_sv ACS B_POST (s2l "https://sp.example.org/acs/b") (Some (s2l "1")) None]]];
   [mk_sp (w_sp ++ s2l "/") [[mk_sv ACS B_POST (s2l "https://sp.example.org/acs/slash") (Some (s2l "0")) None]]]].
Definition w_reqb (iss : str) (pb url : option str) : request :=
  mk_req KAuthn (Some (Some iss)) (Has pb) (Has url) (Has None).

Example C09_binding_string_witness :
  contain_each_other B_POST B_SS /\ contain_each_other (w_sp ++ s2l "/") w_sp /\
  (* each binding answers with its own endpoint only *)
  response_args w_cfg w_md3 (w_reqb w_sp (Some B_POST) None) None [] = Ok (Some (B_POST, s2l "https://sp.example.org/acs/b")) /\
  response_args w_cfg w_md3 (w_reqb w_sp (Some B_SS) None) None [] = Ok (Some (B_SS, w_acs)) /\
  (* the URL registered under SimpleSign is not answered under HTTP-POST, nor the other way round *)
  response_args w_cfg w_md3 (w_reqb w_sp (Some B_POST) (Some w_acs)) None [] = Err E_SAML /\
  response_args w_cfg w_md3 (w_reqb w_sp (Some B_SS) (Some (s2l "https://sp.example.org/acs/b"))) None [] = Err E_SAML /\
  (* prefix, trailing slash / space, case variants of a registered binding: refused *)
  forallb (fun b => negb (is_ok (response_args w_cfg w_md3 (w_reqb w_sp (Some b) None) None [])))
    [ s2l "urn:oasis:names:tc:SAML:2.0:bindings:HTTP"; B_POST ++ s2l "/"; B_POST ++ s2l " ";
      s2l "urn:oasis:names:tc:saml:2.0:bindings:http-post"; s2l "HTTP-POST"; B_SOAP ++ s2l "-x" ] = true /\
  response_args w_cfg w_md3 (w_reqb w_sp None None) (Some [B_SOAP ++ s2l " "]) [] = Err E_SAML /\
  (* the issuer with the trailing slash gets its own endpoint, the short issuer never that one *)
  response_args w_cfg w_md3 (w_reqb (w_sp ++ s2l "/") None None) None [] = Ok (Some (B_POST, s2l "https://sp.example.org/acs/slash")) /\
  response_args w_cfg w_md3 (w_reqb w_sp None (Some (s2l "https://sp.example.org/acs/slash"))) None [] = Err E_SAML /\
  response_args w_cfg w_md3 (w_reqb (w_sp ++ s2l "/") None (Some w_acs)) None [] = Err E_SAML.
Proof.
  split. { left. apply proper_sub_suffix. discriminate. }
  split. { right. apply proper_sub_suffix. discriminate. }
  vm_compute. repeat split; reflexivity.
Qed.
Print Assumptions C09_binding_string_witness.
