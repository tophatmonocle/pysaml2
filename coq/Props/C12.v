(* Props/C12.v — schema element objects survive serialise / parse without loss *)
From PV Require Import Lib.Base Model.Schema Model.SchemaBeforeFix Gen.SchemaTables Proofs.Schema_lemmas Proofs.Schema_table.
From PV Require Import Model.SchemaDoc Gen.SchemaNames Proofs.SchemaDoc_lemmas Proofs.SchemaNames_table.
Open Scope N_scope.

(* Round trip, for EVERY schema and every instance tree (unbounded depth and list
   cardinalities) whose classes have well-formed rows (wf_inst checks wf_row at every
   node): serialising and parsing back gives the canonical representative norm i of
   the same object, and that object serialises to the very same tree again.
   NIL / TYPE / XMLNS_XS are the interned names xsi:nil, xsi:type, xmlns:xs. *)
Theorem C12_roundtrip :
  forall NIL TYPE XMLNS_XS S i, NIL <> TYPE -> wf_inst NIL TYPE XMLNS_XS S i = true ->
  exists c x, cls_of i = Some c /\ serialise S i = Ok x /\
    parse NIL TYPE XMLNS_XS S c x = Ok (norm S i) /\ serialise S (norm S i) = Ok x.
Proof.
  intros NIL TYPE XM S i Hnt Hwf.
  destruct (roundtrip_parse NIL TYPE XM Hnt S i Hwf) as (c & r & Hc & Hr & Hs & Ht & Hp & Hn).
  exists c, (ser_tot S i). repeat split; try assumption.
  rewrite (norm_serialise NIL TYPE XM S i Hwf). exact Hs.
Qed.
Print Assumptions C12_roundtrip.

(* norm loses nothing: same class, same value of every declared attribute, the same
   (normalised) children under every declared member, same text, same extension
   attributes and elements - it only puts the association lists into table order *)
Theorem C12_norm_same_object :
  forall NIL TYPE XMLNS_XS S c a t K xa xe r,
  wf_inst NIL TYPE XMLNS_XS S (I c a t K xa xe) = true -> find_row S c = Some r ->
  exists a' K', norm S (I c a t K xa xe) = I c a' t K' xa xe /\
    (forall x, In x (k_attrs r) -> alookup (a_member x) a' = alookup (a_member x) a) /\
    (forall ch, In ch (k_children r) -> kids_of (c_member ch) K' = map (norm S) (kids_of (c_member ch) K)).
Proof.
  intros * Hwf Hrow0.
  destruct (wf_inst_I _ _ _ _ _ _ _ _ _ _ Hwf) as (r' & Hrow & Hwr & _).
  rewrite Hrow0 in Hrow. injection Hrow as <-.
  destruct (wf_row_facts S r Hwr) as (_ & _ & Hnd & _).
  eexists. eexists. split; [apply (norm_I S c r); exact Hrow0|]. split.
  - intros x Hx. exact (norm_attrs_lookup r a x Hnd Hx).
  - intros ch Hch. exact (norm_kids_of r (norm S) K _ Hnd (in_map c_member _ ch Hch)).
Qed.
Print Assumptions C12_norm_same_object.

(* Children are emitted in the schema's sequence order: the child list of the
   serialised tree is, member by member in c_child_order order, the serialised
   children of that member in list order, followed by the extension elements; the
   attribute list is the known attributes in c_attributes order, then the
   extension attributes. *)
Theorem C12_sequence_order :
  forall NIL TYPE XMLNS_XS S c a t K xa xe r, NIL <> TYPE ->
  wf_inst NIL TYPE XMLNS_XS S (I c a t K xa xe) = true -> find_row S c = Some r ->
  serialise S (I c a t K xa xe)
  = Ok (X (k_qtag r) (known_attrs r a ++ xa) t
          (flat_map (fun m => map (ser_tot S) (kids_of m K)) (order_of r) ++ xe))
  /\ (forall m k, In (m, k) K -> serialise S k = Ok (ser_tot S k)).
Proof. intros * _. apply serialise_shape. Qed.
Print Assumptions C12_sequence_order.

(* Foreign content: whatever class (hence at whatever depth the generic parser is
   applied) - every child whose tag is not a key of the class's c_children and every
   attribute that is not in c_attributes ends up, in document order, in the object's
   extension elements / attributes; C12_roundtrip and C12_sequence_order then say it is
   kept by norm and re-emitted by serialise. *)
Theorem C12_foreign_preserved :
  forall NIL TYPE XMLNS_XS S c tag attrs text kids c2 a t K xa xe r,
  parse NIL TYPE XMLNS_XS S c (X tag attrs text kids) = Ok (I c2 a t K xa xe) ->
  find_row S c = Some r -> over_kind r = OGeneric ->
  xe = filter (fun k => negb (memN (xtag k) (map c_tagkey (k_children r)))) kids /\
  xa = filter (fun p => negb (memN (fst p) (map a_xml (k_attrs r)))) attrs /\ t = text.
Proof. exact foreign_kept. Qed.
Print Assumptions C12_foreign_preserved.

(* ---- look-alike names.  Attributes and child tags are keyed by their FULL name.  nm gives an
   interned name its text back; the statements hold for any such function (the tie to the
   library's strings is C12_names_faithful below). *)

(* a namespace-qualified name is never an unqualified one; {ns}l has the local name of l and is
   another name *)
Theorem C12_qualified_never_unqualified :
  forall s d, unqualified s = false -> unqualified d = true -> s <> d.
Proof. intros s d Hs Hd He. subst s. rewrite Hd in Hs. discriminate. Qed.
Print Assumptions C12_qualified_never_unqualified.

Theorem C12_qualified_is_lookalike :
  forall ns l, ~ In 125 ns -> unqualified l = true ->
  unqualified (qualify ns l) = false /\ local_of (qualify ns l) = local_of l /\ qualify ns l <> l.
Proof.
  intros ns l Hn Hu. split; [reflexivity|]. split.
  - rewrite (local_of_qualify ns l Hn), (local_of_unqualified l Hu). reflexivity.
  - apply C12_qualified_never_unqualified; [reflexivity|exact Hu].
Qed.
Print Assumptions C12_qualified_is_lookalike.

(* ... hence, in a class whose declared xml attribute names are all unqualified, a qualified
   attribute (own namespace, xml namespace, any namespace) is never taken for a declared one: it
   is kept with its value as extension attribute, and every declared attribute - also the one
   with the same local name, present in the same document or not - is read from the attribute
   of exactly its own name (else it keeps the value __init__ preset, else it is unset) *)
Theorem C12_qualified_attr_is_extension :
  forall (nm : N -> str) NIL TYPE XMLNS_XS S c tag attrs text kids c2 a t K xa xe r q v,
  parse NIL TYPE XMLNS_XS S c (X tag attrs text kids) = Ok (I c2 a t K xa xe) ->
  find_row S c = Some r -> over_kind r = OGeneric ->
  forallb (fun d => unqualified (nm d)) (map a_xml (k_attrs r)) = true ->
  unqualified (nm q) = false -> In (q, v) attrs ->
  In (q, v) xa /\
  (forall d, In d (k_attrs r) ->
     alookup (a_member d) a
     = match alookup (a_xml d) attrs with Some w => Some w | None => alookup (a_member d) (k_defaults r) end).
Proof.
  intros nm NIL TYPE XM S c tag attrs text kids c2 a t K xa xe r q v Hp Hr Hg Hall Hq Hin. split.
  - destruct (foreign_one_kept NIL TYPE XM S c tag attrs text kids c2 a t K xa xe r Hp Hr Hg) as [Ha _].
    apply Ha; [exact Hin|]. intros Hk. rewrite forallb_forall in Hall. rewrite (Hall q Hk) in Hq. discriminate.
  - intros d Hd. exact (declared_attr_read NIL TYPE XM S c tag attrs text kids c2 a t K xa xe r d Hp Hr Hg Hd).
Qed.
Print Assumptions C12_qualified_attr_is_extension.

(* the same for ANY look-alike (same local name, another full name: unqualified against a
   declared xml:lang, a foreign namespace ...) in any class whose table has no two keys with
   one local name; and for children: an unknown child whose tag has the local name of a known
   child but another namespace is kept WHOLE (attributes, text, children at every depth) *)
Theorem C12_lookalike_is_extension :
  forall (nm : N -> str) NIL TYPE XMLNS_XS S c tag attrs text kids c2 a t K xa xe r,
  parse NIL TYPE XMLNS_XS S c (X tag attrs text kids) = Ok (I c2 a t K xa xe) ->
  find_row S c = Some r -> over_kind r = OGeneric -> row_lookalike_free nm r = true ->
  (forall d q v, In d (k_attrs r) -> lookalike nm q (a_xml d) = true -> In (q, v) attrs ->
     In (q, v) xa /\
     alookup (a_member d) a
     = match alookup (a_xml d) attrs with Some w => Some w | None => alookup (a_member d) (k_defaults r) end) /\
  (forall ch k, In ch (k_children r) -> lookalike nm (xtag k) (c_tagkey ch) = true -> In k kids -> In k xe).
Proof.
  intros nm NIL TYPE XM S c tag attrs text kids c2 a t K xa xe r Hp Hr Hg Hf.
  apply andb_true_iff in Hf as [Hfa Hfk].
  destruct (foreign_one_kept NIL TYPE XM S c tag attrs text kids c2 a t K xa xe r Hp Hr Hg) as [Ha Hk]. split.
  - intros d q v Hd Hl Hin. split.
    + apply Ha; [exact Hin|]. apply (lookalike_not_key nm _ q (a_xml d) Hfa); [apply in_map; exact Hd|exact Hl].
    + exact (declared_attr_read NIL TYPE XM S c tag attrs text kids c2 a t K xa xe r d Hp Hr Hg Hd).
  - intros ch k Hch Hl Hin. apply Hk; [exact Hin|].
    apply (lookalike_not_key nm _ (xtag k) (c_tagkey ch) Hfk); [apply in_map; exact Hch|exact Hl].
Qed.
Print Assumptions C12_lookalike_is_extension.

(* the regenerated tables and names (Gen/SchemaNames.v, regenerated on every run): the intern
   table is injective - two ids are equal exactly when the library's strings are - and no class
   has two attribute names or two child keys with one local name *)
Theorem C12_names_faithful :
  names_distinct name_strings = true /\
  (forall a b, (N.to_nat a < List.length name_strings)%nat -> (N.to_nat b < List.length name_strings)%nat ->
     nm a = nm b -> a = b).
Proof. split; [exact names_distinct_ok|]. intros a b. exact (name_of_inj name_strings a b names_distinct_ok). Qed.
Print Assumptions C12_names_faithful.

Theorem C12_actual_lookalike_free : forall r, In r actual_schema -> row_lookalike_free nm r = true.
Proof. exact actual_row_lookalike_free. Qed.
Print Assumptions C12_actual_lookalike_free.

(* so a look-alike satisfies the side condition obj_ok asks of extension content (its name is
   not a declared one): C12_roundtrip_actual covers objects that carry it, alone or together
   with the declared attribute / child *)
Theorem C12_lookalike_is_foreign_actual :
  forall c r, find_row actual_schema c = Some r ->
  (forall d q, In d (k_attrs r) -> lookalike nm q (a_xml d) = true -> memN q (map a_xml (k_attrs r)) = false) /\
  (forall ch q, In ch (k_children r) -> lookalike nm q (c_tagkey ch) = true -> memN q (map c_tagkey (k_children r)) = false).
Proof.
  intros c r Hr. pose proof (actual_row_lookalike_free r (find_row_In _ _ _ Hr)) as Hf.
  apply andb_true_iff in Hf as [Hfa Hfk]. split.
  - intros d q Hd Hl. apply memN_false. exact (lookalike_not_key nm _ q (a_xml d) Hfa (in_map a_xml _ d Hd) Hl).
  - intros ch q Hch Hl. apply memN_false. exact (lookalike_not_key nm _ q (c_tagkey ch) Hfk (in_map c_tagkey _ ch Hch) Hl).
Qed.
Print Assumptions C12_lookalike_is_foreign_actual.

(* the look-alike names the harness feeds to the library on every run (own namespace, foreign
   namespace, xml namespace, unqualified) are look-alikes in this sense, and there is at least
   one for every declared attribute and every child key of every class *)
Theorem C12_lookalikes_generated :
  forallb (lookalike_row_ok nm actual_schema true) lookalike_attrs = true /\
  forallb (lookalike_row_ok nm actual_schema false) lookalike_kids = true /\
  forallb (fun r => forallb (fun a => covered lookalike_attrs (k_id r) (a_xml a)) (k_attrs r)
                    && forallb (fun ch => covered lookalike_kids (k_id r) (c_tagkey ch)) (k_children r))
          actual_schema = true.
Proof. split; [exact lookalike_attrs_ok|split; [exact lookalike_kids_ok|exact lookalikes_cover]]. Qed.
Print Assumptions C12_lookalikes_generated.

(* a two-attribute document of a one-class schema (7 8 9 stand for NIL TYPE XMLNS_XS): the declared
   attribute 50 and its look-alike 51 both survive with their own values *)
Example C12_lookalike_witness :
  parse 7 8 9 [KR 0 100 [] [AR 50 2 TNone false] [] [] None [] [] [] [] true] 0
        (X 100 [(51, s2l "qualified"); (50, s2l "plain")] None [])
  = Ok (I 0 [(2, s2l "plain")] None [] [(51, s2l "qualified")] []).
Proof. vm_compute. reflexivity. Qed.
Print Assumptions C12_lookalike_witness.

(* ---- documents.  An ElementTree element also has a tail; the engine never reads or writes it.
   parse_doc / serialise_doc are create_class_from_element_tree / _to_element_tree on documents
   with tails (Model/SchemaDoc.v). *)
Theorem C12_tails_ignored :
  forall NIL TYPE XMLNS_XS S c d1 d2, forget d1 = forget d2 ->
  parse_doc NIL TYPE XMLNS_XS S c d1 = parse_doc NIL TYPE XMLNS_XS S c d2.
Proof. intros * He. unfold parse_doc. rewrite He. reflexivity. Qed.
Print Assumptions C12_tails_ignored.

Theorem C12_doc_roundtrip :
  forall NIL TYPE XMLNS_XS S i, NIL <> TYPE -> wf_inst NIL TYPE XMLNS_XS S i = true ->
  exists c d, cls_of i = Some c /\ serialise_doc S i = Ok d /\ no_tail d = true /\
    parse_doc NIL TYPE XMLNS_XS S c d = Ok (norm S i) /\ serialise_doc S (norm S i) = Ok d.
Proof.
  intros NIL TYPE XM S i Hnt Hwf.
  destruct (roundtrip_parse NIL TYPE XM Hnt S i Hwf) as (c & r & Hc & Hr & Hs & Ht & Hp & Hn).
  exists c, (embed (ser_tot S i)). split; [exact Hc|].
  unfold serialise_doc, parse_doc. rewrite Hs. split; [reflexivity|].
  split; [apply no_tail_embed|]. rewrite forget_embed. split; [exact Hp|].
  rewrite (norm_serialise NIL TYPE XM S i Hwf), Hs. reflexivity.
Qed.
Print Assumptions C12_doc_roundtrip.

(* unknown children of a document are kept whole and in order - text (also white space only)
   and children at every depth, verbatim; only their tails are not part of any object *)
Theorem C12_doc_foreign_preserved :
  forall NIL TYPE XMLNS_XS S c tag attrs text tail kids c2 a t K xa xe r,
  parse_doc NIL TYPE XMLNS_XS S c (D tag attrs text tail kids) = Ok (I c2 a t K xa xe) ->
  find_row S c = Some r -> over_kind r = OGeneric ->
  xe = map forget (filter (fun k => negb (memN (dtag k) (map c_tagkey (k_children r)))) kids) /\
  xa = filter (fun p => negb (memN (fst p) (map a_xml (k_attrs r)))) attrs /\ t = text.
Proof.
  intros * Hp Hrow Hgen.
  unfold parse_doc in Hp. cbn [forget] in Hp.
  destruct (foreign_kept _ _ _ _ _ _ _ _ _ _ _ _ _ _ _ _ Hp Hrow Hgen) as (Hxe & Hxa & Ht).
  split; [|split; assumption]. rewrite Hxe, filter_map. f_equal.
  apply filter_ext. intros k. rewrite xtag_forget. reflexivity.
Qed.
Print Assumptions C12_doc_foreign_preserved.

(* Whole-schema form: when EVERY row of the schema is well-formed, the round trip holds for
   every object of every class that satisfies the object-level conditions obj_ok (declared
   members only, children of the member's class, single-valued members hold at most one
   child, extension content does not collide with the class's own names, attributes that
   __init__ presets are set, AttributeValue objects as constructor / parser leave them). *)
Theorem C12_roundtrip_schema :
  forall NIL TYPE XMLNS_XS S i, NIL <> TYPE -> wf_schema S = true -> obj_ok NIL TYPE XMLNS_XS S i = true ->
  exists c x, cls_of i = Some c /\ serialise S i = Ok x /\
    parse NIL TYPE XMLNS_XS S c x = Ok (norm S i) /\ serialise S (norm S i) = Ok x.
Proof.
  intros NIL TYPE XM S i Hnt HS Hok. apply C12_roundtrip; [exact Hnt|].
  apply obj_ok_wf_inst; assumption.
Qed.
Print Assumptions C12_roundtrip_schema.

(* The tables of ALL classes, REGENERATED from the working tree on this run, are
   well-formed: the kernel evaluates wf_row on every row; there is no exception list. *)
Theorem C12_actual_schema_wf : wf_schema actual_schema = true.
Proof. exact actual_schema_wf. Qed.
Print Assumptions C12_actual_schema_wf.

Theorem C12_actual_rows_wf : forall r, In r actual_schema -> wf_row actual_schema r = true.
Proof. exact actual_row_wf. Qed.
Print Assumptions C12_actual_rows_wf.

Definition C12_bad_rows : list N := bad_rows actual_schema.
Theorem C12_no_bad_rows : C12_bad_rows = [] /\ bad_members actual_schema = [].
Proof. split; [exact no_bad_rows|exact no_bad_members]. Qed.
Print Assumptions C12_no_bad_rows.

Theorem C12_element_maps_agree : maps_ok class_local_tag element_maps = true.
Proof. exact element_maps_agree. Qed.
Print Assumptions C12_element_maps_agree.

(* hence, for the regenerated pysaml2 tables: the round trip for every object of every class *)
Theorem C12_roundtrip_actual :
  forall i, obj_ok x_xsi_nil x_xsi_type x_xmlns_xs actual_schema i = true ->
  exists c x, cls_of i = Some c /\ serialise actual_schema i = Ok x /\
    parse x_xsi_nil x_xsi_type x_xmlns_xs actual_schema c x = Ok (norm actual_schema i) /\
    serialise actual_schema (norm actual_schema i) = Ok x.
Proof.
  intros i. apply C12_roundtrip_schema; [exact xsi_names_distinct|exact actual_schema_wf].
Qed.
Print Assumptions C12_roundtrip_actual.

(* ... and no class is left out vacuously: for each of them the object cls() satisfies
   obj_ok and round-trips (evaluated by the kernel on every regenerated row) *)
Theorem C12_every_class_has_instances :
  forall r, In r actual_schema -> fresh_roundtrips r = true.
Proof. apply forallb_forall. exact every_class_fresh_roundtrips. Qed.
Print Assumptions C12_every_class_has_instances.

(* ---- before the repairs (proposed_fix/C12-1..3).  The rows are in Model/SchemaBeforeFix.v,
   next to the repaired ones.  NIL / TYPE / XMLNS_XS are 7 / 8 / 9 there. *)
Notation bf_parse := (parse bf_xsi_nil bf_xsi_type bf_xmlns_xs).
Notation bf_obj_ok := (obj_ok bf_xsi_nil bf_xsi_type bf_xmlns_xs).

(* C12-1a, xmldsig.KeyInfo keyed EncryptedKey under the 2000/09 namespace: the object-level
   conditions hold, the object serialises and parses, but the member comes back empty and
   the EncryptedKey element has moved to the extension elements *)
Theorem C12_tagkey_before_fix_refuted :
  exists i x j e,
    bf_obj_ok keyinfo_schema_before_fix i = true /\
    serialise keyinfo_schema_before_fix i = Ok x /\
    bf_parse keyinfo_schema_before_fix c_KeyInfo x = Ok j /\
    j <> norm keyinfo_schema_before_fix i /\
    j = I c_KeyInfo [] None [] [] [e] /\ xtag e = t_EncKey_2001.
Proof.
  exists keyinfo_with_key. eexists. eexists. eexists.
  split; [vm_compute; reflexivity|]. split; [vm_compute; reflexivity|].
  split; [vm_compute; reflexivity|]. split; [vm_compute; discriminate|].
  split; vm_compute; reflexivity.
Qed.
Print Assumptions C12_tagkey_before_fix_refuted.

(* C12-1b, the placeholder child class None under the 2000/09 key (xmldsig.KeyInfoType_,
   xmlenc.OriginatorKeyInfo, xmlenc.RecipientKeyInfo): the member of a serialised object is
   lost to the extension elements in the same way, and a document that carries a child
   under the key the table lists cannot be parsed at all (None.c_namespace) *)
Theorem C12_none_child_before_fix_refuted :
  (exists i x j e,
     serialise keyinfo_schema_before_fix i = Ok x /\
     bf_parse keyinfo_schema_before_fix c_KeyInfoType x = Ok j /\
     j <> norm keyinfo_schema_before_fix i /\
     j = I c_KeyInfoType [] None [] [] [e] /\ xtag e = t_EncKey_2001) /\
  bf_parse keyinfo_schema_before_fix c_KeyInfoType
    (X t_KeyInfoType [] None [X t_EncKey_2000 [] None []]) = Err ATTRIBUTE_ERROR.
Proof.
  split.
  - exists keyinfotype_with_key. eexists. eexists. eexists.
    split; [vm_compute; reflexivity|]. split; [vm_compute; reflexivity|].
    split; [vm_compute; discriminate|]. split; vm_compute; reflexivity.
  - vm_compute. reflexivity.
Qed.
Print Assumptions C12_none_child_before_fix_refuted.

(* C12-2 / C12-3, a declared member that __init__ never creates (sslcert key_validation, wsdl
   import): the object cls() satisfies the object-level conditions and cannot be serialised *)
Theorem C12_member_missing_before_fix_refuted :
  (bf_obj_ok sslcert_schema_before_fix (fresh_first sslcert_schema_before_fix) = true /\
   serialise sslcert_schema_before_fix (fresh_first sslcert_schema_before_fix) = Err ATTRIBUTE_ERROR) /\
  (bf_obj_ok wsdl_schema_before_fix (fresh_first wsdl_schema_before_fix) = true /\
   serialise wsdl_schema_before_fix (fresh_first wsdl_schema_before_fix) = Err ATTRIBUTE_ERROR).
Proof. repeat split; vm_compute; reflexivity. Qed.
Print Assumptions C12_member_missing_before_fix_refuted.

(* the repaired rows are well-formed, so C12_roundtrip_schema covers every object over them;
   in particular the witnesses above round-trip over them *)
Theorem C12_repaired_rows_wf :
  wf_schema keyinfo_schema = true /\ wf_schema sslcert_schema = true /\ wf_schema wsdl_schema = true /\
  wf_schema keyinfo_schema_before_fix = false /\ wf_schema sslcert_schema_before_fix = false /\
  wf_schema wsdl_schema_before_fix = false.
Proof. repeat split; vm_compute; reflexivity. Qed.
Print Assumptions C12_repaired_rows_wf.

Theorem C12_repaired_witnesses_roundtrip :
  forall S i, In (S, i) [(keyinfo_schema, keyinfo_with_key); (keyinfo_schema, keyinfotype_with_key);
                         (sslcert_schema, fresh_first sslcert_schema); (wsdl_schema, fresh_first wsdl_schema)] ->
  exists c x, cls_of i = Some c /\ serialise S i = Ok x /\
    bf_parse S c x = Ok (norm S i) /\ serialise S (norm S i) = Ok x.
Proof.
  intros S i Hin. apply C12_roundtrip_schema; [vm_compute; discriminate| |];
    repeat (destruct Hin as [Hin|Hin]; [inversion Hin; subst; vm_compute; reflexivity|]); destruct Hin.
Qed.
Print Assumptions C12_repaired_witnesses_roundtrip.

(* ---- deviations of the engine that remain (not table rows), on a two-class toy schema (they are about the
   engine, not about a particular table) *)
Definition toy : schema :=
  [ KR 0 100 [] [AR 50 2 TNone false] [] [] None [] [(2, s2l "dflt")] [] [] true;
    KR 1 101 [] [] [] [] None [] [] AV_OVER [] true ].
(* an attribute that __init__ presets (Attribute.name_format, Scope.regexp ...) and that was
   reset to None afterwards comes back with the default *)
Theorem C12_default_deviation :
  exists i x j, serialise toy i = Ok x /\ parse 7 8 9 toy 0 x = Ok j /\ norm toy i <> j.
Proof.
  exists (I 0 [] None [] [] []). eexists. eexists. split; [vm_compute; reflexivity|].
  split; [vm_compute; reflexivity|]. vm_compute. discriminate.
Qed.
Print Assumptions C12_default_deviation.
(* an empty AttributeValue without xsi:nil (say, one holding a NameID extension child) comes
   back with xsi:nil="true" added *)
Theorem C12_av_nil_deviation :
  exists i x j, serialise toy i = Ok x /\ parse 7 8 9 toy 1 x = Ok j /\ norm toy i <> j /\
    alookup 7 (match j with I _ _ _ _ xa _ => xa | INone => [] end) = Some (s2l "true").
Proof.
  exists (I 1 [] (Some []) [] [] [X 300 [] (Some (s2l "n")) []]). eexists. eexists.
  split; [vm_compute; reflexivity|]. split; [vm_compute; reflexivity|].
  split; [vm_compute; discriminate|vm_compute; reflexivity].
Qed.
Print Assumptions C12_av_nil_deviation.

(* hypotheses are satisfiable: a real samlp.Response object (assertion, subject, conditions,
   two attributes with typed and empty values, foreign elements and attributes at two
   levels) read back by the translator satisfies obj_ok over the regenerated tables; serialising, parsing and serialising again all succeed *)
Example C12_witness :
  obj_ok x_xsi_nil x_xsi_type x_xmlns_xs actual_schema example_inst = true /\
  match serialise actual_schema example_inst with
  | Ok x => match parse x_xsi_nil x_xsi_type x_xmlns_xs actual_schema (match cls_of example_inst with Some c => c | None => 0 end) x with
            | Ok j => match serialise actual_schema j with Ok y => true | Err _ => false end
            | Err _ => false end
  | Err _ => false
  end = true.
Proof. split; [exact example_ok|exact example_roundtrip]. Qed.
Print Assumptions C12_witness.
