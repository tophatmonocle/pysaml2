(* Props/C02.v — SP signature requirements decide acceptance exactly as documented.
   present / verifies are pysaml2's own view: item.signature after parsing, and the
   outcome of SecurityContext._check_signature for that element (C01/C03/C20 say
   what a positive outcome means). *)
From PV Require Import Lib.Base Model.Status Model.Response Model.Client Proofs.Response_lemmas Proofs.Rel_lemmas Proofs.C02_lemmas Proofs.Client_lemmas Model.AdviceSig Proofs.AdviceSig_lemmas.
Open Scope Z_scope.

(* For EVERY configuration, clock, content and signature state:
   accepted  <->  all non-signature checks pass  /\  every present signature verifies
                  /\ (want_response_signed -> response signed)
                  /\ (want_assertions_signed -> every assertion read is signed)
                  /\ (want_assertions_or_response_signed -> response signed \/ every assertion signed) *)
Theorem C02_accept_iff :
  forall c r, is_ok (parse_response c r) = otherwise_valid c r && documented c r.
Proof. exact accept_iff. Qed.
Print Assumptions C02_accept_iff.

(* a signature that is present but invalid is never ignored — whatever the three options *)
Theorem C02_invalid_never_ignored :
  forall c r, (sigok (r_sig r) = false \/ exists a, In a (processed r) /\ sigok (a_sig a) = false) ->
    is_ok (parse_response c r) = false.
Proof.
  intros c r H. destruct (parse_response c r) as [o|] eqn:E; [|reflexivity]. exfalso.
  destruct (accepted_documented c r o E) as (Hr & Hall & _).
  destruct H as [H|(a & Ha & Hs)]; [|rewrite (Hall a Ha) in Hs]; congruence.
Qed.
Print Assumptions C02_invalid_never_ignored.

(* a missing required signature is never compensated by another one *)
Theorem C02_no_compensation :
  forall c r,
    (wrs c = true /\ present (r_sig r) = false) \/ (was c = true /\ all_present r = false) ->
    is_ok (parse_response c r) = false.
Proof.
  intros c r H. rewrite accept_iff. unfold documented. destruct H as [[-> ->]|[-> ->]]; cbn [implb];
    rewrite ?andb_false_r; reflexivity.
Qed.
Print Assumptions C02_no_compensation.

(* the documented table, evaluated on a concrete otherwise-valid response (non-vacuity):
   8 settings x response signature {absent, verifies, fails} x assertion signature {absent, verifies, fails} x {plain, encrypted} *)
Definition me := s2l "https://sp.example.org/sp".
Definition acs := s2l "https://sp.example.org/acs/post".
Definition cfgS (b1 b2 b3 : bool) := {| entity_id := me; return_addrs := Some [acs]; wrs := b1; was := b2; waors := b3;
  allow_unsolicited := false; dest_regex_set := false; dest_regex_match := false; slack := 0; now := 1000000;
  asynch := true; outstanding := [(s2l "req-1", s2l "/home")]; conv_info := None; test_mode := false |}.
Definition asrtS (sg : option (result unit)) := {| a_id := 1%N; a_sig := sg; a_authn := [None];
  a_conditions := Some {| k_empty := false; k_nb := Some 999700; k_nooa := Some 1000300; k_audiences := [[me]]; k_unknown_condition := false |};
  a_has_subject := true;
  a_confirmations := [{| c_method := Bearer; c_data := Some {| d_address := None; d_address_valid := true; d_nooa := Some 1000300;
                          d_nb := None; d_irt := Some (s2l "req-1"); d_recipient := Some acs |} |}];
  a_name_id := Some (s2l "alice") |}.
Definition respS (rsg asg : option (result unit)) (enc : bool) := {| r_sig := rsg; r_valid_instance := true; r_irt := Some (s2l "req-1");
  r_version := Some V20; r_ver_lt2 := Some false; r_destination := Some acs; r_issue_instant := 1000000;
  r_status := Some {| st_code := Some (Code (Some Gen.StatusTable.STATUS_SUCCESS) None); st_msg := false |};
  r_assertions := if enc then [] else [asrtS asg];
  r_encrypted := if enc then [{| e_opens := true; e_inner := asrtS asg |}] else [] |}.
Definition sigstates : list (option (result unit)) := [None; Some (Ok tt); Some (Err SignatureError)].
Definition bools := [false; true].
Definition table_ok : bool :=
  forallb (fun b1 => forallb (fun b2 => forallb (fun b3 => forallb (fun rsg => forallb (fun asg => forallb (fun enc =>
    let c := cfgS b1 b2 b3 in let r := respS rsg asg enc in
    otherwise_valid c r &&
    Bool.eqb (is_ok (parse_response c r))
             (sigok rsg && sigok asg && implb b1 (present rsg) && implb b2 (present asg) && implb b3 (present rsg || present asg)))
    bools) sigstates) sigstates) bools) bools) bools.
Example C02_table : table_ok = true.
Proof. vm_compute. reflexivity. Qed.
Print Assumptions C02_table.

(* ================= where the options come from: every configuration class, every section ================= *)
(* the client reads the three options from the sp section of the dictionary — explicit value, else the
   default (want_response_signed: true, the others: false) — whatever the configuration class
   (SPConfig: def_context sp; the generic Config: def_context empty; ...) and whatever other roles
   the same configuration serves *)
Theorem C02_options_from_sp_section :
  forall def_context service,
    client_opts def_context service =
    {| o_wrs := opt_value (find_section (E "sp") service) WRS true;
       o_was := opt_value (find_section (E "sp") service) WAS false;
       o_waors := opt_value (find_section (E "sp") service) WAORS false |}.
Proof. exact client_opts_spec. Qed.
Print Assumptions C02_options_from_sp_section.

Theorem C02_config_class_irrelevant :
  forall dc dc' service, client_opts dc service = client_opts dc' service.
Proof. intros dc dc' service. now rewrite !client_opts_spec. Qed.
Print Assumptions C02_config_class_irrelevant.

Theorem C02_other_sections_irrelevant :
  forall dc service service',
    find_section (E "sp") service = find_section (E "sp") service' -> client_opts dc service = client_opts dc service'.
Proof. intros dc service service' H. now rewrite !client_opts_spec, H. Qed.
Print Assumptions C02_other_sections_irrelevant.

(* what opt_value means: absent (no section / not in the section / None) -> default; a boolean or the strings true / false -> that value *)
Theorem C02_option_meaning :
  forall name d,
    opt_value None name d = d /\
    (forall s, assigned name s = None -> opt_value (Some s) name d = d) /\
    (forall s, assigned name s = Some CNone -> opt_value (Some s) name d = d) /\
    (forall s b, assigned name s = Some (CBool b) -> opt_value (Some s) name d = b) /\
    (forall s, assigned name s = Some (CStr (E "true")) -> opt_value (Some s) name d = true) /\
    (forall s, assigned name s = Some (CStr (E "false")) -> opt_value (Some s) name d = false).
Proof.
  intros name d. repeat split; intros; unfold opt_value; try rewrite H; try reflexivity.
Qed.
Print Assumptions C02_option_meaning.

Definition documented_opts (o : opts) (r : response) : bool :=
  sigok (r_sig r) && all_sigok r &&
  implb (o_wrs o) (present (r_sig r)) && implb (o_was o) (all_present r) &&
  implb (o_waors o) (present (r_sig r) || all_present r).

(* the documented iff for a client built from ANY configuration class and dictionary *)
Theorem C02_client_accept_iff :
  forall dc service c r,
    let o := client_opts dc service in
    is_ok (parse_on (new_client dc service) c r) = otherwise_valid (with_opts o c) r && documented_opts o r.
Proof. intros dc service c r o. unfold parse_on. cbn [new_client cl_opts]. fold o. now rewrite accept_iff. Qed.
Print Assumptions C02_client_accept_iff.

(* ================= histories on one long-lived client / one shared SecurityContext ================= *)
(* the verdict of a step depends only on that step's message (and call context) and on the options in force
   (the last SetOpts before it, else the configured ones) — for EVERY prefix of earlier operations, every
   client state (cached subjects, identifiers and signature values seen before) and every continuation *)
Theorem C02_history :
  forall cl pre w c r post,
    nth_error (run_ops cl (pre ++ Parse w c r :: post)) (parses pre) =
    Some (parse_response (with_opts (opts_after (cl_opts cl) pre) c) r).
Proof. exact history_step. Qed.
Print Assumptions C02_history.

Theorem C02_history_state_irrelevant :
  forall cl cl' ops, cl_opts cl = cl_opts cl' -> run_ops cl ops = run_ops cl' ops.
Proof. intros cl cl' ops H. now rewrite !run_ops_verdicts, H. Qed.
Print Assumptions C02_history_state_irrelevant.

(* ... hence the documented iff holds at every step of every history *)
Theorem C02_history_accept_iff :
  forall cl pre w c r post,
    let o := opts_after (cl_opts cl) pre in
    exists v, nth_error (run_ops cl (pre ++ Parse w c r :: post)) (parses pre) = Some v /\
              is_ok v = otherwise_valid (with_opts o c) r && documented_opts o r.
Proof. intros cl pre w c r post o. eexists. split; [apply history_step|]. fold o. now rewrite accept_iff. Qed.
Print Assumptions C02_history_accept_iff.

(* a message with a present-but-invalid signature is refused at every point of every history — in particular
   right after a genuine message with the same identifiers and the same signature values was accepted *)
Theorem C02_history_invalid_never_accepted :
  forall cl pre w c r post,
    (sigok (r_sig r) = false \/ exists a, In a (processed r) /\ sigok (a_sig a) = false) ->
    exists v, nth_error (run_ops cl (pre ++ Parse w c r :: post)) (parses pre) = Some v /\ is_ok v = false.
Proof. intros cl pre w c r post H. eexists. split; [apply history_step|]. now apply C02_invalid_never_ignored. Qed.
Print Assumptions C02_history_invalid_never_accepted.

Theorem C02_history_no_compensation :
  forall cl pre w c r post,
    let o := opts_after (cl_opts cl) pre in
    (o_wrs o = true /\ present (r_sig r) = false) \/ (o_was o = true /\ all_present r = false) ->
    exists v, nth_error (run_ops cl (pre ++ Parse w c r :: post)) (parses pre) = Some v /\ is_ok v = false.
Proof. intros cl pre w c r post o H. eexists. split; [apply history_step|]. apply C02_no_compensation. exact H. Qed.
Print Assumptions C02_history_no_compensation.

(* non-vacuity: three configuration classes (def_context sp / empty / idp) x each option absent / false / true (27) x {none, response, assertion, both}
   signed x {plain, encrypted}: [genuine; tampered copy, same identifiers and signature values; genuine;
   options flipped; the same three again] evaluates to [rule; refused-if-signed; rule; ...] *)
Definition raws : list (option cv) := [None; Some (CBool false); Some (CBool true)].
Definition secS (x1 x2 x3 : option cv) : section :=
  (match x1 with Some v => [(WRS, v)] | None => [] end) ++ (match x2 with Some v => [(WAS, v)] | None => [] end) ++
  (match x3 with Some v => [(WAORS, v)] | None => [] end).
Definition val_of (x : option cv) (d : bool) : bool := match x with Some (CBool b) => b | _ => d end.
Definition tamper (s : option (result unit)) : option (result unit) :=
  match s with None => None | Some _ => Some (Err SignatureError) end.
Definition rule (b1 b2 b3 : bool) (rsg asg : option (result unit)) : bool :=
  sigok rsg && sigok asg && implb b1 (present rsg) && implb b2 (present asg) && implb b3 (present rsg || present asg).
Definition wireS := {| w_rid := s2l "r-1"; w_sigvals := [11%N; 12%N] |}.
Definition signed_states : list (option (result unit)) := [None; Some (Ok tt)].
Definition history_table_ok : bool :=
  forallb (fun dc => forallb (fun x1 => forallb (fun x2 => forallb (fun x3 => forallb (fun rsg => forallb (fun asg => forallb (fun enc =>
    let service := [(E "idp", [(WRS, CBool (negb (val_of x1 true)))]); (E "sp", secS x1 x2 x3)] in
    let b1 := val_of x1 true in let b2 := val_of x2 false in let b3 := val_of x3 false in
    let c := cfgS false false false in
    let g := respS rsg asg enc in let t := respS (tamper rsg) (tamper asg) enc in
    let ops := [Parse wireS c g; Parse wireS c t; Parse wireS c g;
                SetOpts {| o_wrs := negb b1; o_was := negb b2; o_waors := negb b3 |};
                Parse wireS c g; Parse wireS c t; Parse wireS c g] in
    let want := [rule b1 b2 b3 rsg asg; rule b1 b2 b3 (tamper rsg) (tamper asg); rule b1 b2 b3 rsg asg;
                 rule (negb b1) (negb b2) (negb b3) rsg asg; rule (negb b1) (negb b2) (negb b3) (tamper rsg) (tamper asg);
                 rule (negb b1) (negb b2) (negb b3) rsg asg] in
    (fix eqbl (l1 l2 : list bool) := match l1, l2 with [], [] => true | x :: l1', y :: l2' => Bool.eqb x y && eqbl l1' l2' | _, _ => false end)
      (map is_ok (run_ops (new_client dc service) ops)) want)
    bools) signed_states) signed_states) raws) raws) raws) [E "sp"; E ""; E "idp"].
Example C02_history_table : history_table_ok = true.
Proof. vm_compute. reflexivity. Qed.
Print Assumptions C02_history_table.

(* ================= encrypted advice: an assertion whose <Advice> holds EncryptedAssertion elements ================= *)
(* The run on a document tree is Model.Encrypt.parse_response_t (the model of AuthnResponse.parse_assertion with both
   decrypt loops and the advice pass decrypt_assertions(advice.encrypted_assertion, decr_text, issuer), shared with
   C17), for every tool policy, key set, fault schedule and tree.  advice_read t2 = the assertions found inside the
   EncryptedAssertions of the Advice of every assertion in hand after decryption; sig_bad = present and not verifying. *)

(* at the assertion stage, whatever is required (req), in whatever state (first attempt or retry): the stage
   succeeds only if the text was decrypted and NO advice assertion carries a signature that does not verify *)
Theorem C02_advice_stage_invalid_never_ignored :
  forall tc c irt req s root again fs s',
    Encrypt.so_res (Encrypt.parse_t tc c irt req s root again fs) = Ok s' -> Encrypt.find_encrypt_data root = true ->
    exists t2, decrypted tc root fs = Some t2 /\ Forall (fun v => sig_bad v = false) (advice_read t2).
Proof. exact parse_t_advice. Qed.
Print Assumptions C02_advice_stage_invalid_never_ignored.

Theorem C02_advice_stage_bad_refused :
  forall tc c irt req s root again fs t2,
    Encrypt.find_encrypt_data root = true -> decrypted tc root fs = Some t2 ->
    Exists (fun v => sig_bad v = true) (advice_read t2) ->
    exists e, Encrypt.so_res (Encrypt.parse_t tc c irt req s root again fs) = Err e.
Proof. exact parse_t_bad_advice_refused. Qed.
Print Assumptions C02_advice_stage_bad_refused.

(* the whole run (force-require / catch / retry around the stage): an accepted response was accepted by an attempt
   whose document - the response as received, or what the failed first attempt left when want_assertions_signed
   is off - was decrypted completely, every advice signature present verifying.  No option switches this off. *)
Theorem C02_invalid_never_ignored_advice :
  forall tc c r root fs o,
    Encrypt.parse_response_t tc c r root fs = Ok o ->
    exists root' fs', attempt_document tc c r root fs root' fs' /\
      (Encrypt.find_encrypt_data root' = true ->
       exists t2, decrypted tc root' fs' = Some t2 /\ Forall (fun v => sig_bad v = false) (advice_read t2)).
Proof.
  intros tc c r root fs o H. unfold Encrypt.parse_response_t in H.
  apply EncryptTree_lemmas.accepted_x in H as (rq & s0 & HL & H).
  destruct H as [(s' & x' & Hs & _)|(x1 & s' & x' & Hx1 & Wa & Hs & _)].
  - exists root, fs. split; [left; now split|exact (stage_t_advice _ _ _ _ _ _ _ _ _ _ Hs)].
  - destruct Hx1 as [->|(e & He)].
    + exists root, fs. split; [left; now split|exact (stage_t_advice _ _ _ _ _ _ _ _ _ _ Hs)].
    + destruct x1 as [[fs1 root1] again1]. unfold Encrypt.stage_t in He. injection He as He Hf Hr Ha.
      exists root1, fs1. split; [|exact (stage_t_advice _ _ _ _ _ _ _ _ _ _ Hs)].
      right. split; [exact Wa|]. exists rq, s0, e. repeat split; auto.
Qed.
Print Assumptions C02_invalid_never_ignored_advice.

(* the documented table on concrete trees (non-vacuity, and the retry paths evaluated): 8 settings x response sig x
   assertion sig x {plain, encrypted} assertion carrying an encrypted advice assertion x advice sig, and the same
   with a second, validly signed, advice EncryptedAssertion before / after it:
   accepted <-> documented rule /\ the advice signature, if present, verifies *)
Definition advS (n : N) (sg : option (result unit)) := {| a_id := n; a_sig := sg; a_authn := []; a_conditions := a_conditions (asrtS None);
  a_has_subject := true; a_confirmations := []; a_name_id := None |}.
Definition advEA (n : N) (sg : option (result unit)) : Encrypt.dtree :=
  Encrypt.DEA [Encrypt.DEnc 1%N (Encrypt.DAsrt (advS n sg) false [] [])].
Definition treeS (asg bsg : option (result unit)) (enc : bool) (shape : nat) : list Encrypt.dtree :=
  let adv := match shape with
             | O => [advEA 2%N bsg]
             | S O => [advEA 2%N bsg; advEA 3%N (Some (Ok tt))]
             | _ => [advEA 3%N (Some (Ok tt)); advEA 2%N bsg]
             end in
  let main := Encrypt.DAsrt (asrtS asg) false adv [] in
  if enc then [Encrypt.DEA [Encrypt.DEnc 1%N main]] else [main].
Definition tcS := {| Encrypt.t_keys := [1%N]; Encrypt.t_pol := Encrypt.PFail; Encrypt.t_fixed := true |}.
Definition advice_table_ok : bool :=
  forallb (fun b1 => forallb (fun b2 => forallb (fun b3 => forallb (fun rsg => forallb (fun asg => forallb (fun bsg => forallb (fun enc =>
    forallb (fun shape =>
      Bool.eqb (is_ok (parse_advice_run tcS (cfgS b1 b2 b3) (respS rsg None false) (treeS asg bsg enc shape)))
               (sigok rsg && sigok asg && sigok bsg && implb b1 (present rsg) && implb b2 (present asg) && implb b3 (present rsg || present asg)))
    [0; 1; 2]%nat) bools) sigstates) sigstates) sigstates) bools) bools) bools.
Example C02_advice_table : advice_table_ok = true.
Proof. vm_compute. reflexivity. Qed.
Print Assumptions C02_advice_table.

(* ---- several calls on ONE client / SecurityContext at the same time (Model/Interleave.v): steps Write / Run / Read of
   the calls interleave arbitrarily over one shared file map.  The harness checks on every run that the scratch files
   of calls that are alive together are pairwise distinct (the hypothesis), and that every tool run saw the text written
   for its own call (the conclusion) under forced interleavings of the real code. *)
From PV Require Import Model.Interleave Proofs.Interleave_lemmas.
Open Scope N_scope.

(* ANY number of callers, ANY interleaving: es is an arbitrary step sequence in which the steps of caller c are the
   steps of its call (uses us) and no other caller writes to a file of that call.  Then every tool run of c sees the text
   of its own call and the library reads the tool's answer to that text — whatever the other callers do. *)
Theorem C02_concurrent_own_document :
  forall tool f es c us,
    only c es = call_events c us ->
    (forall e, In e es -> ev_caller e <> c -> forall p, In p (writes e) -> ~ In p (paths us)) ->
    proj c (exec tool f es) = alone tool c us.
Proof. exact any_calls. Qed.
Print Assumptions C02_concurrent_own_document.

(* two calls with separate files: in EVERY interleaving of their step sequences each call gets the observations —
   hence the verdict — of its own document (induction over the merge) *)
Theorem C02_concurrent_two_calls :
  forall tool f a b ua ub es,
    a <> b -> disjoint (paths ua) (paths ub) -> merge (call_events a ua) (call_events b ub) es ->
    proj a (exec tool f es) = alone tool a ua /\ proj b (exec tool f es) = alone tool b ub.
Proof. exact two_calls. Qed.
Print Assumptions C02_concurrent_two_calls.

Theorem C02_concurrent_two_calls_verdict :
  forall ok tool f a b ua ub es,
    a <> b -> disjoint (paths ua) (paths ub) -> merge (call_events a ua) (call_events b ub) es ->
    call_verdict ok (proj a (exec tool f es)) = call_verdict ok (alone tool a ua) /\
    call_verdict ok (proj b (exec tool f es)) = call_verdict ok (alone tool b ub).
Proof.
  intros ok tool f a b ua ub es Hab Hd Hm. destruct (two_calls tool f a b ua ub es Hab Hd Hm) as [-> ->]. now split.
Qed.
Print Assumptions C02_concurrent_two_calls_verdict.

(* three calls: the third interleaved with any interleaving of the first two *)
Theorem C02_concurrent_three_calls :
  forall tool f a b c ua ub uc es1 es,
    a <> b -> a <> c -> b <> c ->
    disjoint (paths ua) (paths ub) -> disjoint (paths ua) (paths uc) -> disjoint (paths ub) (paths uc) ->
    merge (call_events a ua) (call_events b ub) es1 -> merge es1 (call_events c uc) es ->
    proj a (exec tool f es) = alone tool a ua /\ proj b (exec tool f es) = alone tool b ub /\
    proj c (exec tool f es) = alone tool c uc.
Proof.
  intros tool f a b c ua ub uc es1 es Hab Hac Hbc Dab Dac Dbc M1 M2.
  destruct (merge_assoc _ _ _ _ _ M1 M2) as (ebc & Mbc & Ma).
  destruct (merge_assoc _ _ _ _ _ (merge_sym _ _ _ M1) M2) as (eac & Mac & Mb).
  split; [|split].
  - apply (merge_own tool f a ua _ es Ma). intros e He.
    destruct (merge_in _ _ _ Mbc e He); [apply (foreign_call a ua b ub)|apply (foreign_call a ua c uc)]; assumption.
  - apply (merge_own tool f b ub _ es Mb). intros e He.
    destruct (merge_in _ _ _ Mac e He); [apply (foreign_call b ub a ua)|apply (foreign_call b ub c uc)]; auto using not_eq_sym, disjoint_sym.
  - apply (merge_own tool f c uc _ es (merge_sym _ _ _ M2)). intros e He.
    destruct (merge_in _ _ _ M1 e He); [apply (foreign_call c uc a ua)|apply (foreign_call c uc b ub)]; auto using not_eq_sym, disjoint_sym.
Qed.
Print Assumptions C02_concurrent_three_calls.

(* with ONE shared input path the statement is false: an interleaving exists in which the call with the refused text
   (verdict alone: false) is accepted, because its tool run saw the other call's text *)
Theorem C02_concurrent_shared_path_refuted :
  merge (call_events 0 shared_a) (call_events 1 shared_b) shared_es /\
  call_verdict ok_only_2 (alone tool10 0 shared_a) = false /\
  call_verdict ok_only_2 (proj 0 (exec tool10 [] shared_es)) = true /\
  proj 0 (exec tool10 [] shared_es) = map (fun o => (0, snd o)) (alone tool10 1 shared_b).
Proof.
  split; [|vm_compute; auto].
  cbn. apply merge_l, merge_r, merge_l, merge_l, merge_r, merge_r, merge_nil.
Qed.
Print Assumptions C02_concurrent_shared_path_refuted.

(* and with one shared OUTPUT path: the inputs are separate, yet call 0 reads the tool's answer to call 1 *)
Theorem C02_concurrent_shared_output_refuted :
  merge (call_events 0 [(1, 5, 8, 1)]) (call_events 1 [(1, 6, 8, 2)]) shared_out_es /\
  proj 0 (exec tool10 [] shared_out_es) = [(0, Some 1); (0, Some 112)] /\
  alone tool10 0 [(1, 5, 8, 1)] = [(0, Some 1); (0, Some 111)].
Proof.
  split; [|vm_compute; auto].
  cbn. apply merge_l, merge_r, merge_l, merge_r, merge_l, merge_r, merge_nil.
Qed.
Print Assumptions C02_concurrent_shared_output_refuted.

(* non-vacuity: a real interleaving of two calls with two tool uses each, separate files *)
Example C02_concurrent_example :
  let ua := [(0, 1, 2, 10); (1, 3, 4, 11)] in let ub := [(0, 5, 6, 20); (1, 7, 8, 21)] in
  let es := [Write 0 1 10; Write 1 5 20; Run 0 0 1 2; Run 1 0 5 6; Read 0 2; Write 0 3 11; Read 1 6; Write 1 7 21; Run 1 1 7 8; Run 0 1 3 4; Read 1 8; Read 0 4] in
  merge (call_events 0 ua) (call_events 1 ub) es /\ proj 0 (exec tool10 [] es) = alone tool10 0 ua /\ proj 1 (exec tool10 [] es) = alone tool10 1 ub.
Proof.
  cbv zeta. split; [|vm_compute; auto].
  cbn. apply merge_l, merge_r, merge_l, merge_r, merge_l, merge_l, merge_r, merge_r, merge_r, merge_l, merge_r, merge_l, merge_nil.
Qed.
Print Assumptions C02_concurrent_example.
