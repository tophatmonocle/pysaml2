(* Props/C08.v — what the IdP asserts is what the SP reads, for any content.
   Model: Model/IdpBuild.v (+ Model/Response.v, Model/CertSelect.v, Gen/AttrMaps.v).
   Proofs: Proofs/IdpBuild_lemmas.v (text), IdpBuildTree_lemmas.v (trees),
   IdpBuildAttr_lemmas.v (attributes), IdpBuildFlow_lemmas.v (the pipeline). *)
From PV Require Import Lib.Base Model.Codec Model.Status Model.Response Model.CertSelect Model.IdpBuild Gen.AttrMaps
     Proofs.C02_lemmas Proofs.IdpBuild_lemmas Proofs.IdpBuildTree_lemmas Proofs.IdpBuildAttr_lemmas Proofs.IdpBuildFlow_lemmas.
Open Scope N_scope.

(* values are data, text level: for EVERY string (any code points) *)

(* character data: what ElementTree writes is read back as the same string, except that
   CR LF and CR arrive as LF (XML 1.0 2.11) - exactly that and nothing else; the written
   form contains no '<', no '>', and every '&' in it starts &amp; &lt; or &gt; *)
Theorem C08_text_is_data :
  (forall s, unescape_text (escape_cdata s) = Some (norm_eol s)) /\
  (forall s, forallb (fun c => negb (c =? 13)) s = true -> unescape_text (escape_cdata s) = Some s) /\
  (forall s, forallb (fun c => negb ((c =? 60) || (c =? 62))) (escape_cdata s) = true /\ amp_ok TEXT_REFS (escape_cdata s) = true) /\
  (forall s, forallb xml_char s = true -> forallb xml_char (escape_cdata s) = true).
Proof.
  split; [exact unescape_text_escape|]. split; [|split; [exact escape_cdata_safe|exact escape_cdata_legal]].
  intros s H. rewrite unescape_text_escape. now rewrite (norm_eol_id s H).
Qed.
Print Assumptions C08_text_is_data.

(* attribute values: read back EXACTLY (CR, LF and TAB included: they are written as
   character references); no '<', no '>', no double quote, no raw CR / LF / TAB, and every
   '&' starts one of the seven references the writer emits *)
Theorem C08_attribute_value_is_data :
  (forall s, unescape_attr (escape_attrib s) = Some s) /\
  (forall s, forallb (fun c => negb ((c =? 60) || (c =? 62) || (c =? 34) || (c =? 13) || (c =? 10) || (c =? 9))) (escape_attrib s) = true /\
             amp_ok ATTR_REFS (escape_attrib s) = true) /\
  (forall s, forallb xml_char s = true -> forallb xml_char (escape_attrib s) = true).
Proof. split; [exact unescape_attr_escape|]. split; [exact escape_attrib_safe|exact escape_attrib_legal]. Qed.
Print Assumptions C08_attribute_value_is_data.

(* values are data, tree level: for EVERY tree (any depth, any values) *)

(* the reader recovers exactly the tree that was serialised (character data modulo the
   end-of-line rule; nothing at all changes when it holds no CR) *)
Theorem C08_parse_serialise :
  (forall t, wf_xml t = true -> xml_parse (serialise t) = Some (norm_xml t)) /\
  (forall t, wf_xml t = true -> no_cr_xml t = true -> xml_parse (serialise t) = Some t).
Proof. split; [exact parse_serialise|exact parse_serialise_exact]. Qed.
Print Assumptions C08_parse_serialise.

(* the structure read back - tags, nesting, attribute names - is the structure written,
   hence it does not depend on any text or attribute VALUE: two trees with the same
   skeleton and arbitrary different values are read back with the same skeleton *)
Theorem C08_structure_independent_of_values :
  (forall t, wf_xml t = true -> option_map skeleton (xml_parse (serialise t)) = Some (skeleton t)) /\
  (forall t1 t2, wf_xml t1 = true -> wf_xml t2 = true -> skeleton t1 = skeleton t2 ->
     option_map skeleton (xml_parse (serialise t1)) = option_map skeleton (xml_parse (serialise t2))).
Proof.
  split; [exact skeleton_parse|]. intros t1 t2 W1 W2 E. now rewrite (skeleton_parse t1 W1), (skeleton_parse t2 W2), E.
Qed.
Print Assumptions C08_structure_independent_of_values.

(* the message parts that carry asserted values (Issuer, Subject NameID, AuthnContext,
   AttributeStatement): well-formed whenever the asserted strings are XML-legal, read back
   as written, and their structure is a function of the SHAPE of what is asserted only
   (how many attributes / values, which optional fields are present) *)
Theorem C08_payload_is_data :
  (forall p, legal_payload p = true ->
     Forall (fun t => xml_parse (serialise t) = Some (norm_xml t) /\
                      option_map skeleton (xml_parse (serialise t)) = Some (skeleton t)) (payload_xml p)) /\
  (forall p1 p2, payload_shape p1 = payload_shape p2 -> map skeleton (payload_xml p1) = map skeleton (payload_xml p2)).
Proof.
  split.
  { intros p H. pose proof (wf_payload p H) as W. rewrite forallb_forall in W. apply Forall_forall. intros t Ht.
    split; [apply parse_serialise|apply skeleton_parse]; apply W, Ht. }
  intros p1 p2. unfold payload_shape. intros H. injection H as Hq Hs Hf Ha Hl.
  unfold payload_xml. cbn [map]. rewrite !map_app, (nameid_skeleton _ _ Hq Hs Hf). f_equal. f_equal. f_equal.
  - unfold authn_context_xml.
    destruct (p_authn p1) as [[[[c1 a1]|] t1]|], (p_authn p2) as [[[[c2 a2]|] t2]|]; try discriminate; try reflexivity.
    injection Ha as Ha. now destruct a1, a2.
  - unfold statement_xml_opt. destruct (p_attributes p1), (p_attributes p2); try discriminate; [reflexivity|].
    cbn [map]. f_equal. now apply statement_skeleton.
Qed.
Print Assumptions C08_payload_is_data.

(* IdP attributes -> AttributeStatement -> XML text -> reader -> harvested attributes:
   the same attributes (values modulo the end-of-line rule; identical without CR) *)
Theorem C08_attributes_through_text :
  (forall l, legal_attributes l = true ->
     option_map attrs_of_statement_xml (xml_parse (serialise (attr_statement_xml l))) = Some (map norm_attribute l)) /\
  (forall l, legal_attributes l = true -> forallb no_cr_attribute l = true ->
     option_map attrs_of_statement_xml (xml_parse (serialise (attr_statement_xml l))) = Some l).
Proof. split; [exact attributes_through_text|exact attributes_through_text_exact]. Qed.
Print Assumptions C08_attributes_through_text.

(* the documented name mapping and white-space trimming *)

(* str.strip removes white space (str.isspace, regenerated) at the two ends and nothing else *)
Theorem C08_trimming :
  forall s, exists a b, s = a ++ IdpBuild.strip s ++ b /\ forallb is_space a = true /\ forallb is_space b = true /\
    (match IdpBuild.strip s with c :: _ => is_space c = false | [] => True end) /\
    (match rev (IdpBuild.strip s) with c :: _ => is_space c = false | [] => True end).
Proof.
  intros s. unfold IdpBuild.strip. destruct (lstrip_spec s) as (a & Ea & Aa & Ha).
  destruct (rstrip_spec (lstrip s)) as (b & Eb & Ab & Hb).
  exists a, b. split; [now rewrite <- Eb|]. split; [exact Aa|]. split; [exact Ab|]. split; [|now rewrite rev_involutive].
  (* the first character of the result is the first character of lstrip s, unless everything was trimmed *)
  rewrite Eb in Ha. now destruct (rev (lstrip (rev (lstrip s)))).
Qed.
Print Assumptions C08_trimming.

(* for ANY converters, identity and name format: when every key is known to the IdP's
   converter and the SP reports the keys under pairwise different local names, the SP reads
   exactly the asserted attributes - every value (the empty one too), in order, trimmed -
   under those names.  eptid_named: a key sent under the eduPersonTargetedID OID is reported
   under the name eduPersonTargetedID (a condition on the tables, not on the values; decided
   for the shipped maps by C08_name_tables) *)
Theorem C08_attributes_exact :
  forall cv sp_acs allow ident locals,
    map (fun kv => sp_name cv sp_acs (fst kv)) ident = map Some locals ->
    Forall (fun kv => eptid_named cv sp_acs (fst kv) = true) ident ->
    NoDup locals ->
    list_to_local sp_acs allow (map (to_attr cv) ident) = combine locals (map (fun kv => plain_values (snd kv)) ident).
Proof. exact attributes_exact. Qed.
Print Assumptions C08_attributes_exact.

(* ... the same THROUGH THE TEXT of the message: identity -> attributes -> serialised
   AttributeStatement -> reader -> harvested attributes -> to_local (XML-legal values without CR) *)
Theorem C08_attributes_via_text :
  forall cv sp_acs allow ident locals,
    legal_attributes (map (to_attr cv) ident) = true -> forallb no_cr_attribute (map (to_attr cv) ident) = true ->
    map (fun kv => sp_name cv sp_acs (fst kv)) ident = map Some locals ->
    Forall (fun kv => eptid_named cv sp_acs (fst kv) = true) ident ->
    NoDup locals ->
    option_map (fun t => list_to_local sp_acs allow (attrs_of_statement_xml t))
               (xml_parse (serialise (attr_statement_xml (map (to_attr cv) ident)))) =
    Some (combine locals (map (fun kv => plain_values (snd kv)) ident)).
Proof.
  intros cv sp_acs allow ident locals Hl Hc Hn He Hd.
  pose proof (attributes_through_text_exact _ Hl Hc) as T.
  destruct (xml_parse (serialise (attr_statement_xml (map (to_attr cv) ident)))) as [t|]; [|discriminate].
  cbn [option_map] in T |- *. injection T as ->. f_equal. apply attributes_exact; assumption.
Qed.
Print Assumptions C08_attributes_via_text.

(* a key the IdP's converter does not know travels under its own name (format uri): the SP
   reports it only if one of its uri converters knows that name (the first that does), or -
   with allow_unknown_attributes - under its own trimmed name; otherwise it is left out *)
Theorem C08_unmapped_attribute :
  forall cv sp_acs allow key vals, wire_name cv key = None ->
    read_attr sp_acs allow (to_attr cv (key, vals)) =
    match convs_for NAME_FORMAT_URI sp_acs with
    | [] => if str_eqb NAME_FORMAT_URI NAME_FORMAT_UNSPECIFIED || allow then Some (IdpBuild.strip key, plain_values vals) else None
    | cs => match first_local cs (lower (IdpBuild.strip key)) with
            | Some local => Some (local, plain_values vals)
            | None => if allow then Some (IdpBuild.strip key, plain_values vals) else None
            end
    end.
Proof. intros cv sp_acs allow key vals Hw. rewrite (to_attr_unmapped _ _ _ Hw). apply read_attr_text. Qed.
Print Assumptions C08_unmapped_attribute.

(* --- the shipped attribute maps (regenerated from /repo on every run) --- *)
Definition NF_BASIC : str := s2l "urn:oasis:names:tc:SAML:2.0:attrname-format:basic".
Definition NF_SHIB : str := s2l "urn:mace:shibboleth:1.0:attributeNamespace:uri".
Definition L (s : string) : str := s2l s.

(* the documented aliases: several local names share one wire name; the SP reports the canonical one *)
Definition DOC_ALIASES_URI : list (str * str) :=
  [(L "pvp-userid", L "uid"); (L "pvp-mail", L "mail"); (L "pvp-ou", L "ou"); (L "pvp-tel", L "telephoneNumber"); (L "pvp-givenname", L "givenName")].
Definition DOC_ALIASES_SHIB : list (str * str) :=
  [(L "countryname", L "c"); (L "domaincomponent", L "dc"); (L "emailaddress", L "email"); (L "fax", L "facsimileTelephoneNumber");
   (L "gn", L "givenName"); (L "localityname", L "l"); (L "organizationname", L "o"); (L "organizationalunitname", L "ou");
   (L "pkcs9email", L "email"); (L "rfc822mailbox", L "mail"); (L "stateorprovincename", L "st"); (L "streetaddress", L "street");
   (L "surname", L "sn")].
Definition same_pairs (a b : list (str * str)) : bool :=
  forallb (fun x => existsb (fun y => str_eqb (fst x) (fst y) && str_eqb (snd x) (snd y)) b) a &&
  forallb (fun x => existsb (fun y => str_eqb (fst x) (fst y) && str_eqb (snd x) (snd y)) a) b.
Definition same_strs (a b : list str) : bool := forallb (fun x => mem_str x b) a && forallb (fun x => mem_str x a) b.

(* per name format: aliases = the documented ones, NO name is lost, every alias is another
   local name of the same wire name, eduPersonTargetedID is read as eduPersonTargetedID *)
Definition table_report (nf : str) (aliases : list (str * str)) : bool :=
  match first_conv default_acs nf with
  | None => false
  | Some cv => same_pairs (alias_rows cv default_acs) aliases && is_nil (lost_rows cv default_acs) &&
               aliases_consistent cv default_acs && eptid_rows_ok cv default_acs
  end.
Definition SHIPPED_FORMATS : list str := [NAME_FORMAT_URI; NF_BASIC; NF_SHIB; NAME_FORMAT_UNSPECIFIED].

(* every shipped map is a map of one of the four formats; per format (the table the IdP converts
   with = the first map of the format, read by ALL the SP's maps of the format in order): every
   local name is reported under itself or one of the 18 listed aliases - no exception *)
Theorem C08_name_tables :
  forallb (fun c => mem_str (c_nf c) SHIPPED_FORMATS) default_acs = true /\
  table_report NAME_FORMAT_URI DOC_ALIASES_URI = true /\
  table_report NF_BASIC [] = true /\
  table_report NF_SHIB DOC_ALIASES_SHIB = true /\
  table_report NAME_FORMAT_UNSPECIFIED [] = true.
Proof.
  assert (forall nf al, table_report nf al =
            match first_conv default_acs nf with
            | Some cv => rows_report cv (fun x => same_pairs x al) (rows cv default_acs)
            | None => false end) as R.
  { intros nf al. unfold table_report. destruct (first_conv default_acs nf) as [cv|]; [|reflexivity].
    apply (rows_report_spec cv default_acs (fun x => same_pairs x al)). }
  rewrite !R. vm_compute. repeat split; reflexivity.
Qed.
Print Assumptions C08_name_tables.

(* what the tables' check means for one identity key (any spelling of it): a key of the
   IdP-side table that is not among the lost ones is reported by the SP, under its own name
   (up to letter case) or under the alias listed for it *)
Theorem C08_table_key_reported :
  forall cv sp_acs key, In (lower key) (table_keys cv) -> ~ In (lower key) (lost_rows cv sp_acs) ->
    exists l, sp_name cv sp_acs key = Some l /\ (lower l = lower key \/ In (lower key, l) (alias_rows cv sp_acs)).
Proof. exact table_key_reported. Qed.
Print Assumptions C08_table_key_reported.

(* ... and for the shipped maps, whatever name format the policy chooses: no row is lost and the
   eduPersonTargetedID row is named so - hence EVERY key of the table the IdP converts with, in any
   spelling, is reported under its own name or its listed alias, and satisfies eptid_named *)
Lemma shipped_tables_complete :
  forallb (fun c => match first_conv default_acs (c_nf c) with
                    | Some cv => is_nil (lost_rows cv default_acs) && eptid_rows_ok cv default_acs
                    | None => false end) default_acs = true.
Proof.
  destruct C08_name_tables as (F & T1 & T2 & T3 & T4).
  rewrite forallb_forall in F |- *. intros c Hc. specialize (F c Hc). apply mem_str_In in F.
  (* every map has one of the four formats, and table_report of that format contains the claim *)
  assert (forall nf al, table_report nf al = true ->
            match first_conv default_acs nf with
            | Some cv => is_nil (lost_rows cv default_acs) && eptid_rows_ok cv default_acs
            | None => false end = true) as K.
  { intros nf al. unfold table_report. destruct (first_conv default_acs nf); [|easy].
    intros H. apply andb_true_iff in H as [H E]. apply andb_true_iff in H as [H _].
    apply andb_true_iff in H as [_ N]. now rewrite N, E. }
  destruct F as [E|[E|[E|[E|[]]]]]; rewrite <- E.
  - exact (K _ _ T1).
  - exact (K _ _ T2).
  - exact (K _ _ T3).
  - exact (K _ _ T4).
Qed.
Print Assumptions shipped_tables_complete.

Theorem C08_shipped_tables :
  forall nf cv, first_conv default_acs nf = Some cv ->
    lost_rows cv default_acs = [] /\ eptid_rows_ok cv default_acs = true.
Proof.
  intros nf cv H. destruct (first_conv_in _ _ _ H) as [Hin Hf].
  pose proof shipped_tables_complete as T. rewrite forallb_forall in T. specialize (T cv Hin). rewrite Hf in T.
  apply andb_true_iff in T as [T1 T2]. split; [|exact T2]. destruct (lost_rows cv default_acs); [reflexivity|discriminate].
Qed.
Print Assumptions C08_shipped_tables.

Theorem C08_shipped_key_reported :
  forall nf cv key, first_conv default_acs nf = Some cv -> In (lower key) (table_keys cv) ->
    (exists l, sp_name cv default_acs key = Some l /\ (lower l = lower key \/ In (lower key, l) (alias_rows cv default_acs))) /\
    eptid_named cv default_acs key = true.
Proof.
  intros nf cv key H Hin. destruct (C08_shipped_tables nf cv H) as [Hl He]. split.
  - apply table_key_reported; [exact Hin|]. rewrite Hl. intros [].
  - now apply eptid_rows_named.
Qed.
Print Assumptions C08_shipped_key_reported.

Open Scope Z_scope.

(* For IdP and SP configured from each other's generated metadata (setting: the SP's
   metadata store is the IdP's generated metadata, the certificate encrypted for is one the
   SP holds the key of, the response answers a request of the SP / goes to its endpoint, it
   is delivered inside its validity window), EVERY identity (any number of attributes and
   values, arbitrary strings), name-id, authentication context, lifetime, in-response-to and
   EVERY sign_response x sign_assertion x encrypt_assertion setting (caller's arguments or
   configured defaults) that meets the SP's signature requirements - C02's rule `documented`
   on the built message - is accepted, and the application reads what was asserted. *)
Theorem C08_roundtrip :
  forall i m s a, setting i m s a ->
    documented (s_cfg s) (built_view (sign_encrypt i m a) i a (s_keys s)) = true ->
    roundtrip i m s a = Ok (expected_view i s a).
Proof.
  intros i m s a H D. apply roundtrip_ok; [exact H|]. now rewrite <- (documented_built i m s a H).
Qed.
Print Assumptions C08_roundtrip.

(* C02's rule on the built message is the rule on the flags the IdP was called with *)
Theorem C08_requirements :
  forall i m s a, setting i m s a ->
    documented (s_cfg s) (built_view (sign_encrypt i m a) i a (s_keys s)) =
    (let sr := eff (g_sign_response a) (i_sign_response i) in
     let sa := eff (g_sign_assertion a) (i_sign_assertion i) in
     implb (wrs (s_cfg s)) sr && implb (was (s_cfg s)) sa && implb (waors (s_cfg s)) (sr || sa)).
Proof. intros i m s a H. rewrite (documented_built i m s a H). reflexivity. Qed.
Print Assumptions C08_requirements.

(* ... literally: name-id, every attribute under its documented name with trimmed values,
   in-response-to, issuer, authentication context, session expiry *)
Theorem C08_roundtrip_exact :
  forall i m s a cv locals, setting i m s a ->
    documented (s_cfg s) (built_view (sign_encrypt i m a) i a (s_keys s)) = true ->
    first_conv (i_acs i) (name_form i) = Some cv ->
    map (fun kv => sp_name cv (s_acs s) (fst kv)) (g_identity a) = map Some locals ->
    Forall (fun kv => eptid_named cv (s_acs s) (fst kv) = true) (g_identity a) ->
    NoDup locals ->
    roundtrip i m s a =
      Ok {| v_name_id := Some (g_name_id a);
            v_ava := combine locals (map (fun kv => plain_values (snd kv)) (g_identity a));
            v_irt := Some (g_irt a);
            v_issuer := i_entity_id i;
            v_authn := read_authn (build_payload i a);
            v_nooa := match g_session_nooa a with Some sn => sn | None => i_now i + lifetime i end;
            v_came_from := expected_cf (s_cfg s) a |}.
Proof.
  intros i m s a cv locals H D Hc Hn He Hd. rewrite (documented_built i m s a H) in D.
  rewrite (roundtrip_ok i m s a H D). unfold expected_view. f_equal. f_equal.
  unfold build_payload. cbn [p_attributes]. rewrite from_local_first, Hc. cbn [option_map].
  apply attributes_exact; assumption.
Qed.
Print Assumptions C08_roundtrip_exact.

(* ... and with the SHIPPED attribute maps on both sides, for whatever name format the policy
   selects: every identity over the names of the map the IdP converts with (any spelling, any
   values - empty ones included, eduPersonTargetedID included) is read name by name under its
   own name or its listed alias; with pairwise different reported names, exactly as asserted.
   (Two keys with one reported name - givenName and its alias gn - are merged: C08_witness.) *)
Theorem C08_roundtrip_shipped :
  forall i m s a cv, setting i m s a ->
    documented (s_cfg s) (built_view (sign_encrypt i m a) i a (s_keys s)) = true ->
    i_acs i = default_acs -> s_acs s = default_acs ->
    first_conv default_acs (name_form i) = Some cv ->
    Forall (fun kv => In (lower (fst kv)) (table_keys cv)) (g_identity a) ->
    exists locals, Forall2 (reported_as cv default_acs) (g_identity a) locals /\
      (NoDup locals ->
       roundtrip i m s a =
         Ok {| v_name_id := Some (g_name_id a);
               v_ava := combine locals (map (fun kv => plain_values (snd kv)) (g_identity a));
               v_irt := Some (g_irt a);
               v_issuer := i_entity_id i;
               v_authn := read_authn (build_payload i a);
               v_nooa := match g_session_nooa a with Some sn => sn | None => i_now i + lifetime i end;
               v_came_from := expected_cf (s_cfg s) a |}).
Proof.
  intros i m s a cv H D Hi Hs Hc Hk. destruct (C08_shipped_tables _ _ Hc) as [Hl He].
  destruct (table_identity_reported cv default_acs Hl He (g_identity a) Hk) as (locals & En & R & N).
  exists locals. split; [exact R|]. intros Hd.
  apply (C08_roundtrip_exact i m s a cv locals H D); rewrite ?Hi, ?Hs; assumption.
Qed.
Print Assumptions C08_roundtrip_shipped.

(* ---- a concrete setting (non-vacuity), and the record of the repaired defects ---- *)
Definition w_idp : idp :=
  {| i_entity_id := L "https://idp.example.org/idp"; i_acs := default_acs;
     i_name_form := {| l_any := true; l_sp := None; l_default := Some (Some NAME_FORMAT_URI) |};
     i_lifetime := {| l_any := true; l_sp := None; l_default := Some (Some 900) |};
     i_sign_response := None; i_sign_assertion := None; i_encrypt_assertion := None; i_key := 7%N; i_now := 1790000000 |}.
Definition w_cfg (b1 b2 b3 : bool) : cfg :=
  {| entity_id := L "https://sp.example.org/sp"; return_addrs := Some [L "https://sp.example.org/acs/post"];
     wrs := b1; was := b2; waors := b3; allow_unsolicited := false; dest_regex_set := false; dest_regex_match := false;
     slack := 0; now := 1790000030; asynch := true; outstanding := [(L "req-1", L "/came-from")]; conv_info := None; test_mode := false |}.
Definition w_sp (b1 b2 b3 : bool) (certs : list N) : sp :=
  {| s_cfg := w_cfg b1 b2 b3;
     s_keys := {| k_md := generated_idp_md (L "https://idp.example.org/idp") 7%N; k_only_md := true; k_dec := certs |};
     s_acs := default_acs; s_allow_unknown := false |}.
Definition w_args (sr sa ea : bool) : args :=
  {| g_identity := [(L "givenName", [L " Anna <b>&amp; "; L "</saml:AttributeValue><saml:AttributeValue>admin"]);
                    (L "SN", [L "x"""" y"]); (L "gn", []) ; (L "unknown-name", [L "dropped"])];
     g_name_id := {| n_text := L "sub<j>&ect"; n_format := Some NAMEID_FORMAT_PERSISTENT; n_spq := Some (L "https://sp.example.org/sp"); n_nq := None |};
     g_class_ref := Some (L "urn:oasis:names:tc:SAML:2.0:ac:classes:Password"); g_authn_auth := Some (L "https://aa.example.org/?a=1&b=2");
     g_authn_instant := None; g_irt := L "req-1"; g_destination := L "https://sp.example.org/acs/post"; g_sp := L "https://sp.example.org/sp";
     g_sign_response := Some sr; g_sign_assertion := Some sa; g_encrypt_assertion := Some ea; g_encrypt_cert := None;
     g_self_contained := true; g_session_nooa := None |}.

Lemma w_setting b1 b2 b3 certs sr sa ea : setting w_idp {| m_enc_certs := certs |} (w_sp b1 b2 b3 certs) (w_args sr sa ea).
Proof.
  constructor; try reflexivity.
  - intros c. unfold sign_encrypt, enc_cert. cbn [w_enc eff w_args g_encrypt_assertion g_encrypt_cert i_encrypt_assertion m_enc_certs].
    destruct ea; [|discriminate]. destruct certs as [|c0 r]; [discriminate|].
    intros E. injection E as <-. cbn [w_sp s_keys k_dec memN existsb]. now rewrite N.eqb_refl.
  - discriminate.
  - intros _. exists [L "https://sp.example.org/acs/post"]. split; reflexivity.
  - intros _ _. exists (L "/came-from"). reflexivity.
  - unfold build_fails, sign_encrypt, enc_cert. cbn [w_enc eff w_args g_encrypt_assertion g_encrypt_cert i_encrypt_assertion m_enc_certs g_self_contained].
    destruct ea, certs; reflexivity.
  - lazy. discriminate.
  - lazy. discriminate.
  - lazy. discriminate.
  - lazy. discriminate.
  - intros sn E. discriminate.
Qed.
Print Assumptions w_setting.

(* every sign x sign x encrypt setting that meets the requirements, with and without an SP
   encryption certificate, arrives; the attributes are read under the documented names
   (gn is an alias of givenName: merged), trimmed, markup inside values untouched *)
Example C08_witness :
  forallb (fun b1 => forallb (fun b2 => forallb (fun b3 => forallb (fun sr => forallb (fun sa => forallb (fun ea => forallb (fun certs =>
    implb (implb b1 sr && implb b2 sa && implb b3 (sr || sa))
      (val_eqb (show_roundtrip (roundtrip w_idp {| m_enc_certs := certs |} (w_sp b1 b2 b3 certs) (w_args sr sa ea)))
               (show_view {| v_name_id := Some (g_name_id (w_args sr sa ea));
                             v_ava := [(L "givenName", [RStr (L "Anna <b>&amp;"); RStr (L "</saml:AttributeValue><saml:AttributeValue>admin")]);
                                       (L "sn", [RStr (L "x"""" y")])];
                             v_irt := Some (L "req-1"); v_issuer := L "https://idp.example.org/idp";
                             v_authn := [(L "urn:oasis:names:tc:SAML:2.0:ac:classes:Password", [L "https://aa.example.org/?a=1&b=2"], 1790000000)];
                             v_nooa := 1790000900; v_came_from := Some (L "/came-from") |})))
    [[]; [21%N]; [22%N; 21%N]]) [false; true]) [false; true]) [false; true]) [false; true]) [false; true]) [false; true] = true.
Proof.
  repeat (rewrite forallb_forall; intros ? _).
  (* the flags and certificates only decide WHETHER the message arrives (w_setting, roundtrip_ok);
     what is read does not depend on them and is computed once *)
  match goal with |- implb ?r _ = true => destruct r eqn:R; [|reflexivity] end.
  rewrite (roundtrip_ok _ _ _ _ (w_setting _ _ _ _ _ _ _) R). vm_compute. reflexivity.
Qed.
Print Assumptions C08_witness.

(* before the repair proposed_fix/C08-1 (server.py _authn_response): asked to sign AND encrypt
   the assertion for an SP whose metadata has no encryption certificate, the IdP sent the
   assertion in the clear and UNSIGNED - an SP that wants signed assertions refused it although
   the caller had asked for exactly what the SP requires *)
Theorem C08_roundtrip_before_fix_refuted :
  exists i m s a, setting i m s a /\
    requirements_met (s_cfg s) (sign_encrypt i m a) = true /\
    is_ok (roundtrip_before_fix i m s a) = false /\ is_ok (roundtrip i m s a) = true.
Proof.
  exists w_idp, {| m_enc_certs := [] |}, (w_sp false true false []), (w_args false true true).
  split; [apply w_setting|]. split; [reflexivity|]. split; [vm_compute; reflexivity|].
  now rewrite (roundtrip_ok _ _ _ _ (w_setting false true false [] false true true) eq_refl).
Qed.
Print Assumptions C08_roundtrip_before_fix_refuted.

(* ---- the two attribute-conversion defects repaired by proposed_fix/C08-2 and C08-3 ---- *)
Definition NF_UNSPEC_POLICY : layered str := {| l_any := true; l_sp := None; l_default := Some (Some NAME_FORMAT_UNSPECIFIED) |}.
Definition w_idp_unspecified : idp :=
  {| i_entity_id := i_entity_id w_idp; i_acs := default_acs; i_name_form := NF_UNSPEC_POLICY; i_lifetime := i_lifetime w_idp;
     i_sign_response := None; i_sign_assertion := None; i_encrypt_assertion := None; i_key := 7%N; i_now := i_now w_idp |}.
Definition w_args_ident (ident : identity) : args :=
  let a := w_args true false false in
  {| g_identity := ident; g_name_id := g_name_id a; g_class_ref := g_class_ref a; g_authn_auth := g_authn_auth a;
     g_authn_instant := None; g_irt := g_irt a; g_destination := g_destination a; g_sp := g_sp a;
     g_sign_response := Some true; g_sign_assertion := Some false; g_encrypt_assertion := Some false; g_encrypt_cert := None;
     g_self_contained := true; g_session_nooa := None |}.
Definition ID_ADFS : identity := [(L "emailAddress", [L "a@b"]); (L "UPN", [L " u "]); (L "commonName", [L "cn"]); (L "group", [L "g1"; L "g2"])].
Definition ID_EPTID : identity := [(L "eduPersonTargetedID", [L "abc"; []; L " x "; L "  "]); (L "mail", [[]])].

(* after the repairs, end to end: with name_form unspecified the four names of the map the IdP converts
   with all arrive (two maps share that identifier; the SP asks both), and eduPersonTargetedID
   values arrive as the trimmed strings asserted, the empty one as the empty string *)
Example C08_witness_repaired :
  val_eqb (show_ava (match roundtrip w_idp_unspecified {| m_enc_certs := [] |} (w_sp true false false []) (w_args_ident ID_ADFS) with
                     | Ok v => v_ava v | Err _ => [] end))
          (show_ava [(L "emailAddress", [RStr (L "a@b")]); (L "upn", [RStr (L "u")]); (L "commonName", [RStr (L "cn")]);
                     (L "group", [RStr (L "g1"); RStr (L "g2")])]) = true /\
  val_eqb (show_ava (match roundtrip w_idp {| m_enc_certs := [] |} (w_sp true false false []) (w_args_ident ID_EPTID) with
                     | Ok v => v_ava v | Err _ => [] end))
          (show_ava [(L "eduPersonTargetedID", [RStr (L "abc"); RStr []; RStr (L "x"); RStr []]); (L "mail", [RStr []])]) = true.
Proof. vm_compute. split; reflexivity. Qed.
Print Assumptions C08_witness_repaired.

(* before proposed_fix/C08-2 (attribute_converter.list_to_local kept only the LAST converter of a name
   format while from_local converts with the FIRST): an identity over the names of the map the IdP
   converts with under name_form unspecified - no unknown key, pairwise different names - was sent
   and silently not delivered: the statement of C08_attributes_exact / C08_name_tables failed *)
Theorem C08_name_lost_before_fix_refuted :
  exists cv ident locals,
    first_conv default_acs NAME_FORMAT_UNSPECIFIED = Some cv /\
    Forall (fun kv => In (lower (fst kv)) (table_keys cv)) ident /\
    map (fun kv => sp_name cv default_acs (fst kv)) ident = map Some locals /\ NoDup locals /\
    list_to_local default_acs false (map (to_attr cv) ident) = combine locals (map (fun kv => plain_values (snd kv)) ident) /\
    list_to_local_before_fix default_acs false (map (to_attr cv) ident) = [].
Proof.
  pose (cv := from_dict (NAME_FORMAT_UNSPECIFIED, map_adfs_v1x_to, map_adfs_v1x_fro)).
  pose (ident := [(L "emailAddress", [L "a@b"]); (L "UPN", [L " u "])] : identity).
  pose (locals := [L "emailAddress"; L "upn"]).
  assert (first_conv default_acs NAME_FORMAT_UNSPECIFIED = Some cv) as E by reflexivity.
  assert (Forall (fun kv => In (lower (fst kv)) (table_keys cv)) ident) as Hk by (repeat constructor; vm_compute; tauto).
  assert (map (fun kv => sp_name cv default_acs (fst kv)) ident = map Some locals) as Hn by (vm_compute; reflexivity).
  assert (NoDup locals) as Hd.
  { repeat constructor; cbn [In]; [intros [H|[]]; vm_compute in H; discriminate|intros []]. }
  exists cv, ident, locals. repeat (split; [assumption|]). split; [|vm_compute; reflexivity].
  (* after the repair: an instance of the general statement, the tables having been checked above *)
  apply attributes_exact; [exact Hn| |exact Hd].
  eapply Forall_impl; [|exact Hk]. intros kv H. exact (proj2 (C08_shipped_key_reported _ _ _ E H)).
Qed.
Print Assumptions C08_name_lost_before_fix_refuted.

(* before proposed_fix/C08-3 (ava_from returned the NameID text only when it was non-empty): an empty
   eduPersonTargetedID value was read back as the dictionary {NameID: {format: persistent}} *)
Theorem C08_eptid_empty_before_fix_refuted :
  exists cv ident locals,
    first_conv default_acs NAME_FORMAT_URI = Some cv /\
    map (fun kv => sp_name cv default_acs (fst kv)) ident = map Some locals /\ NoDup locals /\
    Forall (fun kv => eptid_named cv default_acs (fst kv) = true) ident /\
    list_to_local default_acs false (map (to_attr cv) ident) = combine locals (map (fun kv => plain_values (snd kv)) ident) /\
    list_to_local_before_fix default_acs false (map (to_attr cv) ident) =
      [(L "eduPersonTargetedID", [RStr (L "abc"); RNameID (Some NAMEID_FORMAT_PERSISTENT) None])].
Proof.
  pose (cv := from_dict (NAME_FORMAT_URI, map_saml_uri_to, map_saml_uri_fro)).
  pose (ident := [(L "eduPersonTargetedID", [L "abc"; []])] : identity).
  pose (locals := [L "eduPersonTargetedID"]).
  assert (first_conv default_acs NAME_FORMAT_URI = Some cv) as E by reflexivity.
  assert (map (fun kv => sp_name cv default_acs (fst kv)) ident = map Some locals) as Hn by (vm_compute; reflexivity).
  assert (NoDup locals) as Hd by (repeat constructor; intros []).
  assert (Forall (fun kv => eptid_named cv default_acs (fst kv) = true) ident) as He.
  { apply Forall_forall. intros kv _. apply eptid_rows_named. exact (proj2 (C08_shipped_tables _ _ E)). }
  exists cv, ident, locals. repeat (split; [assumption|]). split; [|vm_compute; reflexivity].
  now apply attributes_exact.
Qed.
Print Assumptions C08_eptid_empty_before_fix_refuted.

(* the message really is text: the attribute statement of the witness, serialised and read back *)
Example C08_witness_text :
  let attrs := p_attributes (build_payload w_idp (w_args true true false)) in
  option_map attrs_of_statement_xml (xml_parse (serialise (attr_statement_xml attrs))) = Some attrs /\
  legal_attributes attrs = true /\
  has_sub (L "<saml:AttributeValue>admin") (serialise (attr_statement_xml attrs)) = false /\
  has_sub (L "&lt;saml:AttributeValue&gt;admin") (serialise (attr_statement_xml attrs)) = true.
Proof. vm_compute. repeat split; reflexivity. Qed.
Print Assumptions C08_witness_text.
