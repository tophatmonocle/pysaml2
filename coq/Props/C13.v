(* Props/C13.v — schema validation rejects every structurally invalid message and
   accepts every message that satisfies the declared constraints.

   Model (Model/Validate.v, following validate.py with the repairs C13-1..3):
     valid_instance prim keys S NIL M.. i   = validate.valid_instance(obj)
     verify         prim keys S NIL M.. i   = obj.verify()   (the five overrides included)
   over an instance tree i : inst (class, attribute members, text, (member, child) list,
   extension attributes, extension elements), a schema S (table rows), the VALIDATOR key
   list keys and the primitive lexical validators prim : key -> value -> bool.

   Vocabulary (Proofs/Validate_lemmas.v):
     reach S i j         j is i or a descendant of i through declared child members (any depth)
     violated .. j       node j breaks one declared constraint of its own class row:
                           - attr_bad : a required attribute is missing or empty, or a non-empty
                             attribute has a declared type (type name resolved by valid() / value
                             type class: enumeration, string, list, other base) whose test refuses it
                           - text_bad : the class has a c_value_type and its stripped non-empty
                             text is refused by it
                           - card_bad : the number of children under a declared member is outside
                             the c_cardinality entry (0 with min > 0; n > 0 with n < min or n > max)
     good .. i           every node of i: every attribute good (required present; typed value
                           accepted by a RESOLVING type), text good, every child count inside its
                           bounds, the verify() override's own condition does not fail
     plain_av S          classes whose verify() is AttributeValueBase's declare no attributes /
                           children (they return early when there is no text)
     has_violation / goodb   the executable forms of `exists j, reach /\ violated` and `good` *)
From PV Require Import Lib.Base Model.Schema Model.Validate Gen.SchemaTables
  Proofs.Schema_lemmas Proofs.Validate_lemmas Proofs.Validate_table Proofs.Validate_anchor
  Model.Duration Proofs.Duration_lemmas Model.ValidateDeep Proofs.ValidateDeep_lemmas.
Open Scope N_scope.

(* For EVERY schema, validator-key list, primitive validators and instance tree: if some
   sub-instance reachable at any depth violates one declared constraint, both
   valid_instance(root) and root.verify() raise. *)
Theorem C13_rejects :
  forall prim keys S NIL M1 M2 M3 M4 M5 M6 M7 M8 M9 M10 M11 i j,
    plain_av S -> reach S i j -> violated prim keys S j ->
    (exists e, valid_instance prim keys S NIL M1 M2 M3 M4 M5 M6 M7 M8 M9 M10 M11 i = Err e) /\
    (exists e, verify prim keys S NIL M1 M2 M3 M4 M5 M6 M7 M8 M9 M10 M11 i = Err e).
Proof. exact rejects_both. Qed.
Print Assumptions C13_rejects.

(* ... in particular over the tables regenerated from the working tree (plain_av is
   kernel-evaluated on them), for every primitive-validator function *)
Theorem C13_rejects_actual :
  forall prim NIL M1 M2 M3 M4 M5 M6 M7 M8 M9 M10 M11 i j,
    reach actual_schema i j -> violated prim validator_keys actual_schema j ->
    (exists e, valid_instance prim validator_keys actual_schema NIL M1 M2 M3 M4 M5 M6 M7 M8 M9 M10 M11 i = Err e) /\
    (exists e, verify prim validator_keys actual_schema NIL M1 M2 M3 M4 M5 M6 M7 M8 M9 M10 M11 i = Err e).
Proof.
  intros prim NIL M1 M2 M3 M4 M5 M6 M7 M8 M9 M10 M11 i j.
  exact (rejects_both prim validator_keys actual_schema NIL M1 M2 M3 M4 M5 M6 M7 M8 M9 M10 M11 i j actual_plain_av).
Qed.
Print Assumptions C13_rejects_actual.

(* the same through the executable predicate (what the harness evaluates per case) *)
Theorem C13_rejects_decided :
  forall prim keys S NIL M1 M2 M3 M4 M5 M6 M7 M8 M9 M10 M11 i,
    plain_av S -> has_violation prim keys S i = true ->
    (exists e, valid_instance prim keys S NIL M1 M2 M3 M4 M5 M6 M7 M8 M9 M10 M11 i = Err e) /\
    (exists e, verify prim keys S NIL M1 M2 M3 M4 M5 M6 M7 M8 M9 M10 M11 i = Err e).
Proof. exact rejects_decided. Qed.
Print Assumptions C13_rejects_decided.

Theorem C13_has_violation_sound :
  forall prim keys S i, has_violation prim keys S i = true -> exists j, reach S i j /\ violated prim keys S j.
Proof. exact has_violation_sound. Qed.
Print Assumptions C13_has_violation_sound.

(* A message all of whose nodes satisfy their declared constraints (types resolving, override
   side-conditions holding) is not rejected: valid_instance and verify both succeed. *)
Theorem C13_accepts :
  forall prim keys S NIL M1 M2 M3 M4 M5 M6 M7 M8 M9 M10 M11 i,
    good prim keys S NIL M1 M2 M3 M4 M5 M6 M7 M8 M9 M10 M11 i ->
    verify prim keys S NIL M1 M2 M3 M4 M5 M6 M7 M8 M9 M10 M11 i = ok /\
    valid_instance prim keys S NIL M1 M2 M3 M4 M5 M6 M7 M8 M9 M10 M11 i = ok.
Proof. exact accepts. Qed.
Print Assumptions C13_accepts.

Theorem C13_accepts_decided :
  forall prim keys S NIL M1 M2 M3 M4 M5 M6 M7 M8 M9 M10 M11 i,
    goodb prim keys S NIL M1 M2 M3 M4 M5 M6 M7 M8 M9 M10 M11 i = true ->
    verify prim keys S NIL M1 M2 M3 M4 M5 M6 M7 M8 M9 M10 M11 i = ok /\
    valid_instance prim keys S NIL M1 M2 M3 M4 M5 M6 M7 M8 M9 M10 M11 i = ok.
Proof. exact accepts_decided. Qed.
Print Assumptions C13_accepts_decided.

(* the two sides of the statement never overlap *)
Theorem C13_sides_exclusive :
  forall prim keys S NIL M1 M2 M3 M4 M5 M6 M7 M8 M9 M10 M11 i,
    plain_av S -> has_violation prim keys S i = true ->
    goodb prim keys S NIL M1 M2 M3 M4 M5 M6 M7 M8 M9 M10 M11 i = false.
Proof. exact spec_exclusive. Qed.
Print Assumptions C13_sides_exclusive.

(* every declared attribute type of every class resolves: a type name (or no type) to a
   VALIDATOR key - the key of that very type, up to case, when its local name is an XSD
   built-in type (dateTime, boolean, the integer kinds, duration, ...), the key string for a
   name no XSD built-in carries; a value-type class to an existing row *)
Theorem C13_types_resolve :
  forall r a, In r actual_schema -> In a (k_attrs r) ->
    match a_type a with
    | TN t => type_resolves validator_keys t = true
    | TNone => type_resolves validator_keys [] = true
    | TC c => exists rt, find_row actual_schema c = Some rt
    end.
Proof. intros r a. exact (types_resolve validator_keys actual_schema r a unresolved_none). Qed.
Print Assumptions C13_types_resolve.

Theorem C13_type_resolves_meaning :
  forall keys t, type_resolves keys t = true ->
    exists k, resolve keys t = Some k /\
      (mem_str (lower_ascii (local_name t)) XSD_BUILTIN = true -> lower_ascii k = lower_ascii (local_name t)) /\
      (mem_str (lower_ascii (local_name t)) XSD_BUILTIN = false -> k = T_STRING).
Proof. exact type_resolves_spec. Qed.
Print Assumptions C13_type_resolves_meaning.

(* and for EVERY type name whatsoever (not only the declared ones) valid() selects some
   validator: it answers or raises NotValid, never KeyError / AttributeError *)
Theorem C13_valid_never_keyerror :
  forall prim t v, valid prim validator_keys t v = ok \/ valid prim validator_keys t v = Err NOT_VALID.
Proof. intros prim t v. exact (valid_no_keyerror prim validator_keys t v string_key). Qed.
Print Assumptions C13_valid_never_keyerror.

(* the same for the base / list member of every c_value_type without enumeration *)
Theorem C13_value_types_resolve :
  forall r vt, In r actual_schema -> k_vtype r = Some vt -> v_maxlen vt = None -> v_enum vt = None ->
    str_eqb (v_base vt) T_STRING = true \/
    (str_eqb (v_base vt) T_LIST = true /\ exists m, v_member vt = Some m /\ type_resolves validator_keys m = true) \/
    type_resolves validator_keys (v_base vt) = true.
Proof. intros r vt. exact (value_types_resolve validator_keys actual_schema r vt vtypes_none). Qed.
Print Assumptions C13_value_types_resolve.

(* every enumeration any class declares is enforced, whatever its base: membership alone
   decides what validate_value_type answers *)
Theorem C13_enumerations_enforced :
  forall r vt en, In r actual_schema -> k_vtype r = Some vt -> v_enum vt = Some en ->
    forall prim keys v, validate_value_type prim keys v vt = if mem_str v en then ok else Err NOT_VALID.
Proof. intros r vt en. exact (enumerations_enforced actual_schema r vt en enums_none). Qed.
Print Assumptions C13_enumerations_enforced.

(* hence on these tables the resolution premise inside `violated` is always met: a non-empty
   attribute value that the validator its declared type name selects refuses, or that is
   outside the enumeration of its value-type class, IS a violation *)
Theorem C13_no_typed_value_escapes :
  forall prim r a t c0 v',
    In r actual_schema -> In a (k_attrs r) -> a_type a = TN t ->
    (forall k, resolve validator_keys t = Some k -> prim k (c0 :: v') = false) ->
    typed_bad prim validator_keys actual_schema a (c0 :: v').
Proof. intros prim r a t c0 v'. exact (typed_attr_bad prim validator_keys actual_schema r a t (c0 :: v') unresolved_none). Qed.
Print Assumptions C13_no_typed_value_escapes.

Theorem C13_no_enumerated_value_escapes :
  forall prim r a c rt vt en v,
    In r actual_schema -> In a (k_attrs r) -> a_type a = TC c -> find_row actual_schema c = Some rt ->
    k_vtype rt = Some vt -> v_enum vt = Some en -> mem_str v en = false ->
    typed_bad prim validator_keys actual_schema a v.
Proof.
  intros prim r a c rt vt en v _ _. exact (enum_attr_bad prim validator_keys actual_schema a c rt vt en v enums_none).
Qed.
Print Assumptions C13_no_enumerated_value_escapes.

(* the classes overriding verify() are the five modelled ones, and the early return of
   AttributeValueBase.verify skips nothing (plain_av) *)
Theorem C13_overrides_known : unknown_overrides actual_schema = [].
Proof. vm_compute. reflexivity. Qed.
Print Assumptions C13_overrides_known.

Theorem C13_attribute_value_rows_plain : plain_av actual_schema.
Proof. exact actual_plain_av. Qed.
Print Assumptions C13_attribute_value_rows_plain.

(* xsi:nil is AttributeValueBase.verify()'s business only.  For EVERY schema, primitive validators and
   instance tree, and EVERY rewriting g of the extension-attribute dictionaries (add xsi:nil = true / 1,
   drop it, replace everything) applied at every node whose class does not run AttributeValueBase.verify():
   valid_instance and verify give the very same verdict - so an element that is refused stays refused
   whatever extension attributes it, its ancestors or its descendants carry. *)
Theorem C13_no_escape_hatch :
  forall prim keys S NIL M1 M2 M3 M4 M5 M6 M7 M8 M9 M10 M11 g i,
    valid_instance prim keys S NIL M1 M2 M3 M4 M5 M6 M7 M8 M9 M10 M11 (rewrite_xattrs S g i) =
      valid_instance prim keys S NIL M1 M2 M3 M4 M5 M6 M7 M8 M9 M10 M11 i /\
    verify prim keys S NIL M1 M2 M3 M4 M5 M6 M7 M8 M9 M10 M11 (rewrite_xattrs S g i) =
      verify prim keys S NIL M1 M2 M3 M4 M5 M6 M7 M8 M9 M10 M11 i.
Proof.
  intros. split; [apply valid_instance_rewrite_xattrs|apply verify_rewrite_xattrs].
Qed.
Print Assumptions C13_no_escape_hatch.

(* the root of valid_instance: its extension attributes are not looked at, whatever its class *)
Theorem C13_root_extension_attributes_ignored :
  forall prim keys S NIL M1 M2 M3 M4 M5 M6 M7 M8 M9 M10 M11 c a t K xa xa' xe,
    valid_instance prim keys S NIL M1 M2 M3 M4 M5 M6 M7 M8 M9 M10 M11 (I c a t K xa xe) =
    valid_instance prim keys S NIL M1 M2 M3 M4 M5 M6 M7 M8 M9 M10 M11 (I c a t K xa' xe).
Proof. intros. reflexivity. Qed.
Print Assumptions C13_root_extension_attributes_ignored.

(* non-vacuity: on the regenerated tables a class outside the AttributeValue family exists and g is applied to it *)
Example C13_no_escape_hatch_applies :
  exists c, av_class actual_schema c = false /\ find_row actual_schema c <> None /\
    rewrite_xattrs actual_schema (fun _ _ => [(7, s2l "true")]) (I c [] None [] [] []) = I c [] None [] [(7, s2l "true")] [].
Proof. exists 0. vm_compute. repeat split; discriminate. Qed.
Print Assumptions C13_no_escape_hatch_applies.

(* the Gallina validators are anchored at both ends: junk after or before an accepted boolean is refused; an
   accepted integer is, between the blanks int() strips, one optional sign and digits / single underscores
   only; a name token holds no white space (line breaks included) at any place.  duration: see the duration theorems below;
   dateTime is a parameter of the model (sample table compared with the real functions). *)
Theorem C13_boolean_anchored :
  forall v j, prim_boolean v = true -> j <> [] -> prim_boolean (v ++ j) = false /\ prim_boolean (j ++ v) = false.
Proof.
  intros v j Hv Hj. apply boolean_whole in Hv.
  assert (Hl : lower_ascii j <> []) by (intros E; exact (Hj (map_eq_nil _ _ E))).
  destruct (anchored BOOL_WORDS _ _ eq_refl eq_refl Hv Hl) as [H1 H2]. unfold lower_ascii in H1, H2. rewrite <- !map_app in H1, H2.
  split; apply not_true_iff_false; intros E; [exact (H1 (boolean_whole _ E))|exact (H2 (boolean_whole _ E))].
Qed.
Print Assumptions C13_boolean_anchored.

Theorem C13_integer_whole_value :
  forall r v, prim_int r v = true ->
    exists sg body, strip v = sg ++ body /\ (sg = [] \/ sg = [45] \/ sg = [43]) /\ forallb int_body_char body = true /\ body <> [].
Proof.
  intros r v. unfold prim_int. destruct (parse_int v) as [z|] eqn:E; [|discriminate]. intros _. exact (parse_int_shape v z E).
Qed.
Print Assumptions C13_integer_whole_value.

Theorem C13_integer_junk_refused :
  forall a c b acc pd, int_body_char c = false -> digits_us (a ++ c :: b) acc pd = None.
Proof.
  intros a c b acc pd Hc. destruct (digits_us (a ++ c :: b) acc pd) as [z|] eqn:E; [|reflexivity].
  apply digits_us_chars in E. rewrite forallb_app in E. apply andb_true_iff in E as [_ E].
  cbn [forallb] in E. rewrite Hc in E. discriminate.
Qed.
Print Assumptions C13_integer_junk_refused.

Theorem C13_nmtoken_whole_value :
  forall v, prim_nmtoken v = true -> v <> [] /\ forallb (fun c => negb (xml_ws c)) v = true.
Proof.
  intros v. unfold prim_nmtoken. intros H. apply andb_true_iff in H as [H Hws]. apply andb_true_iff in H as [_ Hne].
  split; [intros ->; discriminate|exact Hws].
Qed.
Print Assumptions C13_nmtoken_whole_value.

(* c13_ex_valid: a samlp.Response (assertion with subject confirmation, conditions, authn
   statement with SubjectLocality, attribute statement) and an md.EntityDescriptor, read back
   from real objects: they satisfy `good` (so C13_accepts applies) ... *)
Example C13_example_valid : c13_ex_valid <> [] /\ forallb ex_goodb c13_ex_valid = true.
Proof. split; [discriminate|vm_compute; reflexivity]. Qed.
Print Assumptions C13_example_valid.

(* ... c13_ex_violated: the same two messages with one constraint broken 1 to 3 levels below
   the root (required attribute missing / empty, too few / too many children, boolean,
   integer-kind and enumerated values): each has a reachable violated node that is not
   the root (so C13_rejects applies through the recursion) *)
Example C13_example_violated :
  c13_ex_violated <> [] /\ forallb (fun i => ex_has_violation i && depth_ge2 i) c13_ex_violated = true.
Proof. split; [discriminate|vm_compute; reflexivity]. Qed.
Print Assumptions C13_example_violated.

Example C13_example_outcomes :
  forallb (fun i => is_ok (ex_valid_instance i)) c13_ex_valid = true /\
  forallb (fun i => negb (is_ok (ex_valid_instance i))) c13_ex_violated = true.
Proof. split; vm_compute; reflexivity. Qed.
Print Assumptions C13_example_outcomes.

(* FULL STATEMENTS that fail for the code before the repairs C13-1..3:
     C13_types_resolve          - 135 (class, attribute) pairs and 5 value types declare a type
                                  name valid() before C13-1 cannot resolve: a VALID value raises KeyError;
     C13_enumerations_enforced  - 36 enumerations over a base other than the literal string are
                                  never tested before C13-2 (12 accept any value, 24 raise KeyError);
     SubjectLocality DNSName    - valid_domain_name before C13-3 matches no host name at all.
   The witnesses below are about the *_before_fix definitions and a literal key list. *)
Theorem C13_types_before_fix_refuted :
  exists typs v, typs <> [] /\
    forallb (fun typ => match valid_before_fix hist_prim KEYS_BEFORE_FIX typ v with Err e => str_eqb e KEY_ERROR | Ok _ => false end) typs = true /\
    forallb (fun typ => is_ok (valid hist_prim validator_keys typ v)) typs = true.
Proof. exact valid_before_fix_refuted. Qed.
Print Assumptions C13_types_before_fix_refuted.

(* before C13-1 a refused value goes unnoticed behind the same KeyError; the repaired valid() answers NotValid *)
Theorem C13_repaired_types_still_check :
  valid_before_fix hist_prim KEYS_BEFORE_FIX (s2l "positiveInteger") (s2l "0") = Err KEY_ERROR /\
  valid hist_prim validator_keys (s2l "positiveInteger") (s2l "0") = Err NOT_VALID /\
  valid hist_prim validator_keys (s2l "unsignedByte") (s2l "256") = Err NOT_VALID /\
  valid hist_prim validator_keys (s2l "NMTOKEN") (s2l "a b") = Err NOT_VALID.
Proof. repeat split; vm_compute; reflexivity. Qed.
Print Assumptions C13_repaired_types_still_check.

Theorem C13_enumerations_before_fix_refuted :
  (exists vt en v, v_enum vt = Some en /\ mem_str v en = false /\
     validate_value_type_before_fix hist_prim KEYS_BEFORE_FIX v vt = ok /\
     validate_value_type hist_prim validator_keys v vt = Err NOT_VALID) /\
  (exists vt en v, v_enum vt = Some en /\ mem_str v en = true /\
     validate_value_type_before_fix hist_prim KEYS_BEFORE_FIX v vt = Err KEY_ERROR /\
     validate_value_type hist_prim validator_keys v vt = ok).
Proof. exact enum_before_fix_refuted. Qed.
Print Assumptions C13_enumerations_before_fix_refuted.

Theorem C13_domain_name_before_fix_refuted :
  forallb (fun h => negb (prim_domain_before_fix h)) HOSTS = true /\ prim_domain_before_fix (s2l "a.{ 1 }b.com") = true.
Proof. exact domain_before_fix_refuted. Qed.
Print Assumptions C13_domain_name_before_fix_refuted.

Theorem C13_domain_name_repaired :
  forallb prim_domain HOSTS = true /\ forallb (fun h => negb (prim_domain h)) NOT_HOSTS = true.
Proof. split; vm_compute; reflexivity. Qed.
Print Assumptions C13_domain_name_repaired.

(* Model/Duration.v follows parse_duration with the repair proposed_fix/C13-4 (valid_duration = it does not raise).
     shape isint islast fmt r   r is made of items of the format list fmt, in its order (Y M D T H M S for D_FORMAT):
                                an absent item is skipped; an item is a number accepted by isint followed by its
                                designator, with more items behind it; the LAST item is a number accepted by islast
                                and its designator, and nothing after it; T is followed by items of the time part
     num_int v                  v is [0-9]+
     num_last v                 v is [0-9]+ or [0-9]+ mark [0-9]+, the mark . or ,
     duration_shape s           s = -? P r  with  shape num_int num_last D_FORMAT r
   An accepted value is of that shape AS A WHOLE, and every value of the shape is accepted. *)
Theorem C13_duration_whole_value :
  forall s, is_ok (parse_duration s) = true <-> duration_shape s.
Proof. exact duration_iff. Qed.
Print Assumptions C13_duration_whole_value.

(* with the sign and P at their places; the same statement holds for ANY pair of number readers (python int() /
   float() included): the loop itself cannot accept anything but items in the order of the format list *)
Theorem C13_duration_whole_value_any_numbers :
  forall int_of float_of cut s neg f, parse_with int_of float_of cut true s = Ok (neg, f) ->
    exists r, s = sign_text neg ++ 80 :: r /\ shape (int_ok int_of) (last_ok int_of float_of) D_FORMAT r.
Proof. exact parse_with_sound. Qed.
Print Assumptions C13_duration_whole_value_any_numbers.

(* after the P an accepted value holds digits, . , and Y M D T H S only, and ends with the designator of an item *)
Theorem C13_duration_alphabet :
  forall s neg f, parse_duration s = Ok (neg, f) ->
    exists r, s = sign_text neg ++ 80 :: r /\ forallb dur_char r = true /\ exists r0 c, r = r0 ++ [c] /\ item_code c = true.
Proof. exact duration_alphabet. Qed.
Print Assumptions C13_duration_alphabet.

(* nothing may follow the last designator: an accepted value followed by non-empty junk that holds a character other
   than a digit, a decimal mark or Y M D T H S (a blank, a line break, a letter, a second P ...), or that does not
   end with one of Y M D H S (more digits, a T, a mark), is refused *)
Theorem C13_duration_junk_refused :
  forall s j, is_ok (parse_duration s) = true -> j <> [] ->
    existsb (fun c => negb (dur_char c)) j = true \/ item_code (last j 0) = false ->
    exists e, parse_duration (s ++ j) = Err e.
Proof. exact duration_junk_refused. Qed.
Print Assumptions C13_duration_junk_refused.

(* the code before /repo 24b91977 never compares the index with the length after the loop: *)
Theorem C13_duration_before_fix_refuted :
  is_ok (parse_duration_before_fix (s2l "PT1Hjunk")) = true /\ parse_duration (s2l "PT1Hjunk") = Err D_EXCEPTION /\
  parse_duration_py_numbers (s2l "PT1Hjunk") = Err D_EXCEPTION.
Proof. repeat split; vm_compute; reflexivity. Qed.
Print Assumptions C13_duration_before_fix_refuted.

(* Before C13-4 (parse_duration_py_numbers: /repo at 24b91977) the numbers were whatever int() / float() read - blanks, a
   sign, underscores, exponents, inf, nan, INFINITY with its T and Y: FULL STATEMENT C13_duration_whole_value failed *)
Theorem C13_duration_numbers_before_fix_refuted :
  LIBERAL_NUMBERS <> [] /\ forallb (fun s => is_ok (parse_duration_py_numbers s)) LIBERAL_NUMBERS = true /\
  forallb (fun s => negb (is_ok (parse_duration s))) LIBERAL_NUMBERS = true.
Proof. split; [discriminate|exact numbers_before_fix_refuted]. Qed.
Print Assumptions C13_duration_numbers_before_fix_refuted.

(* ... and the M of the minutes was taken for the month designator: VALID durations (a date part without months, the
   minutes last) were refused - the right-to-left half of C13_duration_whole_value failed *)
Theorem C13_duration_minutes_before_fix_refuted :
  MINUTES_LAST <> [] /\ forallb (fun s => negb (is_ok (parse_duration_py_numbers s))) MINUTES_LAST = true /\
  forallb (fun s => is_ok (parse_duration s)) MINUTES_LAST = true.
Proof. split; [discriminate|exact minutes_before_fix_refuted]. Qed.
Print Assumptions C13_duration_minutes_before_fix_refuted.

(* non-vacuity: a value with all six items and a fraction, its fields, its shape; a blank after it is refused *)
Example C13_duration_example :
  parse_duration (s2l "-P1Y2M3DT4H5M6.50S") =
    Ok (true, F (NInt 1) (NInt 2) (NInt 3) (NInt 4) (NInt 5) (NDec 6 (s2l "50"))) /\
  parse_duration (s2l "P1DT30M") = Ok (false, F (NInt 0) (NInt 0) (NInt 1) (NInt 0) (NInt 30) (NInt 0)) /\
  duration_shape (s2l "-P1Y2M3DT4H5M6.50S") /\
  (exists e, parse_duration (s2l "-P1Y2M3DT4H5M6.50S" ++ s2l " ") = Err e).
Proof.
  assert (E : parse_duration (s2l "-P1Y2M3DT4H5M6.50S") =
    Ok (true, F (NInt 1) (NInt 2) (NInt 3) (NInt 4) (NInt 5) (NDec 6 (s2l "50")))) by (vm_compute; reflexivity).
  split; [exact E|]. split; [vm_compute; reflexivity|]. split; [apply duration_iff; rewrite E; reflexivity|].
  apply duration_junk_refused; [rewrite E; reflexivity|discriminate|left; vm_compute; reflexivity].
Qed.
Print Assumptions C13_duration_example.

(* ---------------------------------------------------------------- DEPTH: chains built from a depth number
   Model/ValidateDeep.v: `deep steps n leaf` wraps leaf n times, level j by step (j mod length steps); a step is the
   parent instance with a hole.  child_step S f: f x is an instance of a class of S that holds x under a declared
   child member (step_of c a t before m after xa xe is one as soon as m is a child member of class c:
   step_of_child_step).  The harness hands these very terms to coqc for the 23 cycles of the 16 recursive classes of
   the regenerated tables (StatusCode in StatusCode, Assertion > Advice > Assertion, EntitiesDescriptor in
   EntitiesDescriptor, ...) at 8, 31, 32, 33 and 64 levels. *)
(* for EVERY number n of levels (induction over n): the innermost instance stays reachable ... *)
Theorem C13_deep_reach :
  forall S steps n leaf, Forall (child_step S) steps -> reach S (deep steps n leaf) leaf.
Proof. exact deep_reach. Qed.
Print Assumptions C13_deep_reach.

(* ... so ONE violation at the innermost level - or anywhere below it - of a chain of any depth is refused by
   valid_instance(root) and by root.verify() *)
Theorem C13_rejects_at_any_depth :
  forall prim keys S NIL M1 M2 M3 M4 M5 M6 M7 M8 M9 M10 M11 steps n leaf j,
    plain_av S -> Forall (child_step S) steps -> reach S leaf j -> violated prim keys S j ->
    (exists e, valid_instance prim keys S NIL M1 M2 M3 M4 M5 M6 M7 M8 M9 M10 M11 (deep steps n leaf) = Err e) /\
    (exists e, verify prim keys S NIL M1 M2 M3 M4 M5 M6 M7 M8 M9 M10 M11 (deep steps n leaf) = Err e).
Proof.
  intros * Hp Hs Hr Hv. eapply rejects_both; [exact Hp| |exact Hv].
  exact (reach_trans S _ _ _ (deep_reach S steps n leaf Hs) Hr).
Qed.
Print Assumptions C13_rejects_at_any_depth.

Theorem C13_step_of_is_child_step :
  forall S c a t before m after xa xe r,
    find_row S c = Some r -> In m (child_members r) -> child_step S (step_of c a t before m after xa xe).
Proof. exact step_of_child_step. Qed.
Print Assumptions C13_step_of_is_child_step.

(* the valid twin: steps that keep a good tree good, around a good innermost instance, at any depth: accepted *)
Theorem C13_accepts_at_any_depth :
  forall prim keys S NIL M1 M2 M3 M4 M5 M6 M7 M8 M9 M10 M11 steps n leaf,
    Forall (good_step prim keys S NIL M1 M2 M3 M4 M5 M6 M7 M8 M9 M10 M11) steps ->
    good prim keys S NIL M1 M2 M3 M4 M5 M6 M7 M8 M9 M10 M11 leaf ->
    verify prim keys S NIL M1 M2 M3 M4 M5 M6 M7 M8 M9 M10 M11 (deep steps n leaf) = ok /\
    valid_instance prim keys S NIL M1 M2 M3 M4 M5 M6 M7 M8 M9 M10 M11 (deep steps n leaf) = ok.
Proof.
  intros * Hs Hl. apply accepts. exact (deep_from_closed _ steps Hs n steps leaf Hs Hl).
Qed.
Print Assumptions C13_accepts_at_any_depth.

(* repeated SIBLINGS: a list member x under a declared member m, after w - 1 copies of ANY sibling (equal-looking to x
   or not), whatever stands before and after: a violation in or below x is refused - every member is checked *)
Theorem C13_rejects_repeated_sibling :
  forall prim keys S NIL M1 M2 M3 M4 M5 M6 M7 M8 M9 M10 M11 c a t before m sib w x after xa xe r j,
    plain_av S -> find_row S c = Some r -> In m (child_members r) -> reach S x j -> violated prim keys S j ->
    (exists e, valid_instance prim keys S NIL M1 M2 M3 M4 M5 M6 M7 M8 M9 M10 M11 (I c a t (before ++ wide m sib w x ++ after) xa xe) = Err e) /\
    (exists e, verify prim keys S NIL M1 M2 M3 M4 M5 M6 M7 M8 M9 M10 M11 (I c a t (before ++ wide m sib w x ++ after) xa xe) = Err e).
Proof.
  intros * Hp Hrow Hm Hr Hv. eapply rejects_both; [exact Hp| |exact Hv].
  exact (wide_reach S c a t before m sib w x after xa xe r j Hrow Hm Hr).
Qed.
Print Assumptions C13_rejects_repeated_sibling.

(* non-vacuity: a one-class schema whose class holds itself and requires an attribute: for every n the chain around an
   innermost instance without the attribute is refused (its values at 0, 1, 33, 200 levels and those of the valid
   twin: Proofs/ValidateDeep_lemmas.deep_example_values) *)
Example C13_deep_example : forall n,
  (exists e, valid_instance toy_prim [s2l "string"] TOY 0 0 0 0 0 0 0 0 0 0 0 0 (deep [toy_step] n toy_bad) = Err e) /\
  (exists e, verify toy_prim [s2l "string"] TOY 0 0 0 0 0 0 0 0 0 0 0 0 (deep [toy_step] n toy_bad) = Err e).
Proof. exact deep_example_rejected. Qed.
Print Assumptions C13_deep_example.
