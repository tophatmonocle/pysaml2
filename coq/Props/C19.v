(* Props/C19.v — the SP session cache returns only unexpired data of the right
   subject.

   Vocabulary (Model/Cache.v): a history is a list of (clock reading, operation);
   [final init h] is the cache after running it from empty; [spec_of h k e] is
   the functional specification: the last write to (subject key k, source e)
   not followed by a delete of k.  [contributes now check (ts, info)] is the
   code's own admission test:  info non-empty and (checking off, or ts is a
   real instant with now <= ts)  (C19_contributes_meaning). *)
From PV Require Import Lib.Base Model.Codec Model.Cache Proofs.Cache_lemmas Proofs.CacheKey_lemmas Proofs.Base64_lemmas.
From PV Require Model.Ident.
Open Scope N_scope.

(* (1a) refinement: after ANY history (any operations, any clock readings) the
   cache holds for every (subject key, source) exactly what the specification says *)
Theorem C19_state_refines_spec :
  forall (h : list (Z * op)) (k e : str), entry_of (final init h) k e = spec_of h k e.
Proof. exact history_refines_spec. Qed.
Print Assumptions C19_state_refines_spec.

(* (1b) after ANY history, at ANY clock reading: the identity returned for
   subject key k lists under each attribute exactly the values stored for THAT
   key by sources that pass the admission test, and reports exactly the other
   sources of that key as stale.  Expired or reset sources never contribute. *)
Theorem C19_refines_spec :
  forall (h : list (Z * op)) (now : Z) (k : str) (check : bool) (res : ava) (old : list str),
    get_identity now (final init h) k [] check = Ok (res, old) ->
    (forall e, In e old <-> exists ent, spec_of h k e = Some ent /\ contributes now check ent = false) /\
    (forall a v, has_val a v res <->
       exists e ts i av vals, spec_of h k e = Some (ts, i) /\ contributes now check (ts, i) = true /\
                              i_ava i = Some av /\ In (a, vals) av /\ In v vals).
Proof. exact get_identity_history. Qed.
Print Assumptions C19_refines_spec.

Theorem C19_contributes_meaning :
  forall now check ts i,
    contributes now check (ts, i) = true <->
    info_empty i = false /\ (check = false \/ exists z, ts = At z /\ (now <= z)%Z).
Proof.
  intros now check ts i. unfold contributes. cbn [fst snd].
  rewrite andb_true_iff, !negb_true_iff, andb_false_iff, t_after_false. tauto.
Qed.
Print Assumptions C19_contributes_meaning.

(* an expired (falsy expiry included) or reset/empty source is reported and every
   returned value comes from ANOTHER, admitted, source of the same key *)
Theorem C19_stale_never_contributes :
  forall h now k e ts i res old,
    spec_of h k e = Some (ts, i) -> t_after now ts = true \/ info_empty i = true ->
    get_identity now (final init h) k [] true = Ok (res, old) ->
    In e old /\
    (forall a v, has_val a v res -> exists e' ts' i' av vals, e' <> e /\ spec_of h k e' = Some (ts', i') /\
         contributes now true (ts', i') = true /\ i_ava i' = Some av /\ In (a, vals) av /\ In v vals).
Proof.
  intros h now k e ts i res old He Hbad H. apply get_identity_history in H as [Ho Hr].
  assert (contributes now true (ts, i) = false) as Hc.
  { destruct Hbad as [Hb|Hb]; [now apply contributes_expired|now apply contributes_empty]. }
  split.
  - apply Ho. now exists (ts, i).
  - intros a v Hv. apply Hr in Hv as (e' & ts' & i' & av & vals & He' & Hc' & Hx).
    exists e', ts', i', av, vals. split; [|tauto]. intros ->. rewrite He in He'. inversion He'; subst. congruence.
Qed.
Print Assumptions C19_stale_never_contributes.

(* the same for an explicit list of sources, and for the single-source get *)
Theorem C19_given_sources :
  forall now s k check e0 ents res old,
    get_identity now s k (e0 :: ents) check = Ok (res, old) ->
    (forall e, In e old <-> source_stale now check (entry_of s k) (e0 :: ents) e) /\
    (forall a v, has_val a v res <-> source_gives now check (entry_of s k) (e0 :: ents) a v).
Proof.
  intros now s k check e0 ents res old H. unfold get_identity in H.
  apply (gi_loop_char now s k check (entry_of s k) _ (fun _ => eq_refl)) in H as [Ho Hr]. split.
  - intros e. rewrite Ho. cbn [In]. tauto.
  - intros a v. rewrite Hr. pose proof (has_val_nil a v). tauto.
Qed.
Print Assumptions C19_given_sources.

Theorem C19_get_returns_only_valid :
  forall h now k e check io,
    get now (final init h) k e check = GInfo io ->
    exists ts i, spec_of h k e = Some (ts, i) /\ contributes now check (ts, i) = true /\
                 o_ava io = i_ava i /\ o_other io = i_other i.
Proof.
  intros h now k e check io H. pose proof (get_char now (final init h) k e check) as G. rewrite H in G.
  destruct G as (ts & i & He & Hx). exists ts, i. now rewrite <- history_refines_spec.
Qed.
Print Assumptions C19_get_returns_only_valid.

(* (2) isolation: an operation (or a whole history of operations) about other keys
   changes no answer to any query about key k ... *)
Theorem C19_isolation :
  (forall now now' s o r k, op_key o <> Some k -> is_read r = true -> op_key r = Some k ->
      snd (step now' (fst (step now s o)) r) = snd (step now' s r)) /\
  (forall now s h r k, Forall (fun no => op_key (snd no) <> Some k) h -> is_read r = true -> op_key r = Some k ->
      snd (step now (final s h) r) = snd (step now s r)).
Proof.
  split.
  - intros now now' s o r k Ho Hr Hk. apply (read_view now' _ _ r k Hr Hk). now apply step_other_key.
  - intros now s h r k Hh Hr Hk. apply (read_view now _ _ r k Hr Hk). now apply final_other_keys.
Qed.
Print Assumptions C19_isolation.

(* ... and keys differ whenever the identifiers differ in any field (None and "" are
   the same absent value): decode is a left inverse of code *)
Theorem C19_key_injective :
  (forall n, byte_nid n -> decode (code n) = Ok n) /\
  (forall a b, byte_nid a -> byte_nid b -> code a = code b -> a = b).
Proof. split; [exact decode_code|exact code_injective]. Qed.
Print Assumptions C19_key_injective.

(* (3) delete removes everything about the subject: whatever the cache held and
   whether or not the subject was known, afterwards every query about it gets the
   answer of the EMPTY cache, and subjects() does not list it *)
Theorem C19_delete_total :
  forall now now' s n,
    (forall r, is_read r = true -> op_key r = Some (code n) ->
       snd (step now' (fst (step now s (ODelete n))) r) = snd (step now' init r)) /\
    ~ In (code n) (map fst (fst (step now s (ODelete n)))) /\
    (forall k e, entry_of (fst (step now s (ODelete n))) k e = if str_eqb k (code n) then None else entry_of s k e).
Proof.
  intros now now' s n. split; [|split].
  - intros r Hr Hk. apply (read_view now' _ _ r (code n) Hr Hk). now rewrite delete_clears.
  - apply alookup_none_notin, delete_clears.
  - intros k e. exact (step_refines now s (ODelete n) k e).
Qed.
Print Assumptions C19_delete_total.

Theorem C19_empty_answers :
  forall now n e c ents,
    snd (step now init (OGet n e c)) = RExn KeyError /\
    snd (step now init (OIdent n [] c)) = RIdent [] [] /\
    snd (step now init (OIdent n (e :: ents) c)) = RExn KeyError /\
    snd (step now init (OEntities n)) = RExn KeyError /\
    snd (step now init (OActive n e)) = RBool false /\
    snd (step now init (OStale n [])) = RExn KeyError /\
    snd (step now init (OEntityId n e c)) = REmptyStr.
Proof. intros now n e c ents. repeat split; reflexivity. Qed.
Print Assumptions C19_empty_answers.

(* (4) queries hand back the very state they were given *)
Theorem C19_reads_keep_state :
  forall now s o, is_read o = true -> fst (step now s o) = s.
Proof. intros now s o. destruct o; cbn [is_read step fst]; intros H; try discriminate; reflexivity. Qed.
Print Assumptions C19_reads_keep_state.

(* Observation (DESIGN 5.1, not an alarm): Cache.active and Cache.get agree on real
   instants and disagree exactly on a falsy expiry (0 / None / ""), where active()
   says valid and get()/get_identity() say too old — what is RETURNED is the
   conservative side. *)
Theorem C19_active_vs_get :
  forall now s k e ts i,
    entry_of s k e = Some (ts, i) -> info_empty i = false ->
    match ts with
    | At z => active now s k e = negb (t_after now ts)
    | Falsy => active now s k e = true /\ get now s k e true = GOld
    end.
Proof.
  intros now s k e ts i. unfold entry_of, active, get.
  destruct (alookup k s) as [srcs|]; [|discriminate].
  intros H Hi. rewrite H, Hi. destruct ts as [|z]; cbn [t_after t_before andb negb].
  - split; reflexivity.
  - now rewrite negb_involutive.
Qed.
Print Assumptions C19_active_vs_get.

(* non-vacuity: a six-step history with two subjects differing in one field, two
   sources with an overlapping attribute, an expired source, a reset and a delete *)
Definition w_a : nameid := {| nq := []; spnq := s2l "sp"; fmt := s2l "urn:f"; spid := []; txt := s2l "a" |}.
Definition w_b : nameid := {| nq := []; spnq := s2l "sp"; fmt := s2l "urn:f"; spid := []; txt := s2l "b" |}.
Definition w_info (vals : list str) : info_in :=
  {| in_ava := Some [(s2l "x", vals)]; in_nid := NidObject; in_other := [] |}.
Definition w_hist : list (Z * op) :=
  [ (10, OSet w_a (s2l "e1") (w_info [s2l "1"; s2l "2"]) (At 100));
    (11, OSet w_a (s2l "e2") (w_info [s2l "2"; s2l "3"]) (At 50));
    (12, OSet w_b (s2l "e1") (w_info [s2l "9"]) (At 100));
    (13, OSet w_a (s2l "e3") (w_info [s2l "7"]) Falsy);
    (14, OReset w_b (s2l "e1"));
    (15, ODelete w_b) ]%Z.
Example C19_witness :
  byte_nid w_a /\ byte_nid w_b /\ code w_a <> code w_b /\
  (* at 50 both real sources count, the falsy-stamped one is stale *)
  show_out (snd (step 50 (final init w_hist) (OIdent w_a [] true))) =
    VL [VL [VL [VS (s2l "x"); VL [VS (s2l "1"); VS (s2l "2"); VS (s2l "3")]]]; VL [VS (s2l "e3")]] /\
  (* at 51 source e2 has expired: its value 3 is gone, it is reported *)
  show_out (snd (step 51 (final init w_hist) (OIdent w_a [] true))) =
    VL [VL [VL [VS (s2l "x"); VL [VS (s2l "1"); VS (s2l "2")]]]; VL [VS (s2l "e2"); VS (s2l "e3")]] /\
  (* the deleted subject answers like the empty cache *)
  snd (step 51 (final init w_hist) (OIdent w_b [] true)) = RIdent [] [] /\
  (* active() vs get() on the falsy stamp *)
  snd (step 51 (final init w_hist) (OActive w_a (s2l "e3"))) = RBool true /\
  snd (step 51 (final init w_hist) (OGet w_a (s2l "e3") true)) = RExn ToOld.
Proof.
  split; [|split; [|split]].
  - repeat split; apply forallb_byte; reflexivity.
  - repeat split; apply forallb_byte; reflexivity.
  - vm_compute. discriminate.
  - vm_compute. repeat split; reflexivity.
Qed.
Print Assumptions C19_witness.

(* GLUE to C18 and C14 (Proofs/Glue_quote.v, docs/Glue.md): the key function of this file is Model/Ident.v's code
   (the one C18 ties to ident.py), and its decoder IS Model/Ident.v's decode on every string (of_ident: an absent /
   empty attribute read as the empty string). *)
Theorem C19_cache_key_is_ident_code_of_C18 :
  (forall n, code (of_ident n) = Ident.code n) /\
  (forall s, decode s = match Ident.decode s with Ok m => Ok (of_ident m) | Err e => Err e end).
Proof. split; [exact code_of_ident|reflexivity]. Qed.
Print Assumptions C19_cache_key_is_ident_code_of_C18.
