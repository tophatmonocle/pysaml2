(* Props/C06.v — a response is accepted only with the top-level status code Success and Version 2.0;
   every other status is refused, with the documented error class. *)
From PV Require Import Lib.Base Gen.StatusTable Model.Status Proofs.Status_lemmas Model.StatusNear Proofs.StatusNear_lemmas.
Open Scope N_scope.

(* The documented mapping second-level status code -> error class (SAML core
   3.2.2.2 names; class names of response.py).  Written by hand; compared by the
   kernel with the table REGENERATED from today's source. *)
Definition P := "urn:oasis:names:tc:SAML:2.0:status:"%string.
Definition documented : list (str * str) := map (fun p => (s2l (P ++ fst p), s2l (snd p))) [
  ("VersionMismatch", "StatusVersionMismatch"); ("AuthnFailed", "StatusAuthnFailed");
  ("InvalidAttrNameOrValue", "StatusInvalidAttrNameOrValue");
  ("InvalidNameIDPolicy", "StatusInvalidNameidPolicy"); ("NoAuthnContext", "StatusNoAuthnContext");
  ("NoAvailableIDP", "StatusNoAvailableIdp"); ("NoPassive", "StatusNoPassive");
  ("NoSupportedIDP", "StatusNoSupportedIdp"); ("PartialLogout", "StatusPartialLogout");
  ("ProxyCountExceeded", "StatusProxyCountExceeded"); ("RequestDenied", "StatusRequestDenied");
  ("RequestUnsupported", "StatusRequestUnsupported");
  ("RequestVersionDeprecated", "StatusRequestVersionDeprecated");
  ("RequestVersionTooHigh", "StatusRequestVersionTooHigh");
  ("RequestVersionTooLow", "StatusRequestVersionTooLow");
  ("ResourceNotRecognized", "StatusResourceNotRecognized");
  ("TooManyResponses", "StatusTooManyResponses"); ("UnknownAttrProfile", "StatusUnknownAttrProfile");
  ("UnknownPrincipal", "StatusUnknownPrincipal"); ("UnsupportedBinding", "StatusUnsupportedBinding");
  ("Responder", "StatusResponder")
]%string.

Definition opt_eqb (a b : option str) : bool :=
  match a, b with Some x, Some y => str_eqb x y | None, None => true | _, _ => false end.
Definition same_mapping (t1 t2 : list (str * str)) : bool :=
  forallb (fun kv => opt_eqb (lookup (fst kv) t2) (Some (snd kv))) t1 &&
  forallb (fun kv => opt_eqb (lookup (fst kv) t1) (Some (snd kv))) t2.

(* today's STATUSCODE2EXCEPTION is exactly the documented mapping; every class
   in it is a StatusError subclass; STATUS_SUCCESS is the SAML success URI *)
Theorem C06_table_matches :
  same_mapping status_table documented = true /\
  forallb (fun kv => mem_str (snd kv) status_error_subclasses) status_table = true /\
  STATUS_SUCCESS = s2l (P ++ "Success").
Proof. vm_compute. repeat split; reflexivity. Qed.
Print Assumptions C06_table_matches.

(* A response whose (present) top-level status code is not Success is never
   accepted: whatever the assertion stage [rest] would say, for every request
   id / destination / time situation and every content *)
Theorem C06_non_success_never_accepted :
  forall (A : Type) (i : verify_in) (rest : result (option A)) st v sub,
    status i = Some st -> st_code st = Some (Code v sub) -> is_success v = false ->
    (forall a, parse_tail (authn_verify i rest) <> Ok a) /\ status_verify i <> Ok (Some tt).
Proof.
  intros A i rest st v sub Hs Hc Hv. apply not_accepted. intros H.
  destruct (verify_core_ok_success i H) as (st' & sub' & Hs' & Hc'). apply is_success_false_iff in Hv. congruence.
Qed.
Print Assumptions C06_non_success_never_accepted.

(* …and when the checks that come first pass, the error is exactly the class
   [class_for]: the table's class for a listed second-level code, StatusError
   when there is none, KeyError (a generic error) for an unknown one *)
Theorem C06_exact_class :
  forall (A : Type) (i : verify_in) (rest : result (option A)) st v sub,
    id_mismatch i = false -> version_is_20 (version i) = true ->
    (asynchop i && negb (dest_ok i)) = false -> issue_ok i = Ok true ->
    status i = Some st -> st_code st = Some (Code v sub) -> is_success v = false ->
    parse_tail (authn_verify i rest) = Err (class_for status_table sub).
Proof.
  intros A i rest st v sub H1 H2 H3 H4 Hs Hc Hv. unfold authn_verify, verify_core, status_ok.
  rewrite H1, H2, H3, H4, Hs, (status_ok_exact _ _ _ _ Hc Hv). reflexivity.
Qed.
Print Assumptions C06_exact_class.

Theorem C06_class_for_documented :
  forall k cls, lookup k documented = Some cls ->
    class_for status_table (Some (Code (Some k) None)) = cls /\ mem_str cls status_error_subclasses = true.
Proof.
  intros k cls H.
  assert (forallb (fun kv => str_eqb (class_for status_table (Some (Code (Some (fst kv)) None))) (snd kv)
                             && mem_str (snd kv) status_error_subclasses) documented = true) as Hall
    by (vm_compute; reflexivity).
  rewrite forallb_forall in Hall.
  specialize (Hall _ (lookup_some_in _ _ _ H)). cbn [fst snd] in Hall. apply andb_true_iff in Hall as [H1 H2].
  apply str_eqb_eq in H1. split; assumption.
Qed.
Print Assumptions C06_class_for_documented.

(* a Status without any StatusCode is an error too *)
Theorem C06_status_without_code :
  forall (A : Type) (i : verify_in) (rest : result (option A)) st,
    status i = Some st -> st_code st = None -> forall a, parse_tail (authn_verify i rest) <> Ok a.
Proof.
  intros A i rest st Hs Hc a Ha. destruct (verify_core_ok_success i (authn_verify_core i rest a Ha)) as (st' & sub & Hs' & Hc').
  congruence.
Qed.
Print Assumptions C06_status_without_code.

(* Version other than "2.0": response and request are rejected *)
Theorem C06_version :
  (forall (A : Type) (i : verify_in) (rest : result (option A)),
      version_is_20 (version i) = false ->
      (forall a, parse_tail (authn_verify i rest) <> Ok a) /\ status_verify i <> Ok (Some tt)) /\
  (forall r, version_is_20 (r_version r) = false -> request_verify r = Ok None).
Proof.
  split.
  - intros A i rest H. apply not_accepted. intros Hc. destruct (verify_core_ok i Hc) as (_ & Hv & _). congruence.
  - exact request_verify_version.
Qed.
Print Assumptions C06_version.

(* ---- near-miss status codes ------------------------------------------------
   The model compares codes with exact string equality.  Any top-level code
   other than the literal specification URN of Success - in particular every
   proper substring and every proper superstring of it, every string of another
   length - is not Success, so it can never yield an accepted response. *)
Theorem C06_only_the_success_urn :
  forall (A : Type) (i : verify_in) (rest : result (option A)) st v sub,
    status i = Some st -> st_code st = Some (Code v sub) ->
    v <> Some (s2l "urn:oasis:names:tc:SAML:2.0:status:Success") ->
    (forall a, parse_tail (authn_verify i rest) <> Ok a) /\ status_verify i <> Ok (Some tt).
Proof.
  intros A i rest st v sub Hs Hc Hv.
  apply (C06_non_success_never_accepted A i rest st v sub Hs Hc).
  apply is_success_false_iff. exact Hv.
Qed.
Print Assumptions C06_only_the_success_urn.

Theorem C06_success_iff_exact_urn :
  (forall v, is_success v = true <-> v = Some SUCCESS_URN) /\
  (forall x, x <> SUCCESS_URN -> is_success (Some x) = false) /\
  (forall x, List.length x <> 42%nat -> is_success (Some x) = false).
Proof.
  split; [|split].
  - intros v. rewrite <- success_urn_is_constant. exact (is_success_true_iff v).
  - exact other_code_not_success.
  - exact length_differs_not_success.
Qed.
Print Assumptions C06_success_iff_exact_urn.

(* a proper substring is strictly shorter, hence different: `proper` may be read either way *)
Theorem C06_proper_substring_not_success :
  forall x, substring x SUCCESS_URN ->
    (x <> SUCCESS_URN <-> (List.length x < List.length SUCCESS_URN)%nat) /\
    (x <> SUCCESS_URN -> is_success (Some x) = false).
Proof.
  intros x Hsub. split; [split|].
  - exact (substring_proper_shorter x SUCCESS_URN Hsub).
  - intros Hl ->. exact (PeanoNat.Nat.lt_irrefl _ Hl).
  - exact (other_code_not_success x).
Qed.
Print Assumptions C06_proper_substring_not_success.

(* every generated near-miss (one character dropped / inserted / replaced / case
   changed, proper prefixes and suffixes with the empty string, white space around)
   of ANY non-empty string differs from it; for the Success URN: refused, with
   exactly the class of the second level when the earlier checks pass *)
Theorem C06_near_misses_differ :
  forall s x, s <> [] -> In x (near_misses s) -> x <> s.
Proof. exact near_misses_neq. Qed.
Print Assumptions C06_near_misses_differ.

Theorem C06_near_miss_top_never_accepted :
  forall (A : Type) (i : verify_in) (rest : result (option A)) st x sub,
    In x (near_misses SUCCESS_URN) ->
    status i = Some st -> st_code st = Some (Code (Some x) sub) ->
    ((forall a, parse_tail (authn_verify i rest) <> Ok a) /\ status_verify i <> Ok (Some tt)) /\
    (id_mismatch i = false -> version_is_20 (version i) = true ->
     (asynchop i && negb (dest_ok i)) = false -> issue_ok i = Ok true ->
     parse_tail (authn_verify i rest) = Err (class_for status_table sub)).
Proof.
  intros A i rest st x sub Hin Hs Hc.
  pose proof (near_miss_of_success_not_success x Hin) as Hv. split.
  - exact (C06_non_success_never_accepted A i rest st (Some x) sub Hs Hc Hv).
  - intros H1 H2 H3 H4. exact (C06_exact_class A i rest st (Some x) sub H1 H2 H3 H4 Hs Hc Hv).
Qed.
Print Assumptions C06_near_miss_top_never_accepted.

(* second level: a code that is not one of the 21 documented ones gets the generic
   error (KeyError) from today's table, never one of the specific classes; and no
   generated near-miss of a documented code is itself a documented code *)
Theorem C06_unlisted_second_level_generic :
  forall k sub, lookup k documented = None ->
    class_for status_table (Some (Code (Some k) sub)) = s2l "KeyError" /\
    mem_str (s2l "KeyError") (map snd documented) = false.
Proof.
  intros k sub H. split; [|vm_compute; reflexivity].
  apply class_for_unlisted. destruct (lookup k status_table) as [c|] eqn:E; [|reflexivity].
  apply lookup_some_in in E.
  destruct C06_table_matches as [Hm _]. unfold same_mapping in Hm.
  apply andb_true_iff in Hm as [Hm _]. rewrite forallb_forall in Hm.
  specialize (Hm _ E). cbn [fst snd] in Hm. rewrite H in Hm. discriminate.
Qed.
Print Assumptions C06_unlisted_second_level_generic.

Theorem C06_near_miss_second_level_unlisted :
  forall k x, In k (map fst documented) -> In x (near_misses k) ->
    lookup x documented = None /\ x <> SUCCESS_URN.
Proof.
  intros k x Hk Hx.
  (* the 22 codes share the 35 characters of P and differ near their ends, so the sweep
     compares reversed strings: a comparison stops after a character or two *)
  assert (Hall : (let ends := map (@rev' N) (SUCCESS_URN :: map fst documented) in
                  forallb (fun k => forallb (fun x => negb (mem_str (rev' x) ends)) (near_misses k))
                          (map fst documented)) = true) by (vm_compute; reflexivity).
  cbv zeta in Hall. rewrite forallb_forall in Hall. specialize (Hall k Hk).
  rewrite forallb_forall in Hall. specialize (Hall x Hx).
  rewrite <- mem_str_rev in Hall. apply negb_true_iff, orb_false_iff in Hall as [Hs Hd].
  split; [exact (lookup_not_key x documented Hd)|now apply str_eqb_neq].
Qed.
Print Assumptions C06_near_miss_second_level_unlisted.

(* non-vacuity: the generated set for the Success URN is large and contains the
   strings the harness feeds to the real code (a prefix at a colon, the bare name,
   the empty string, a trailing blank) *)
Example C06_near_miss_witness :
  Nat.ltb 500 (List.length (near_misses SUCCESS_URN)) = true /\
  In (s2l "urn:oasis:names:tc:SAML:2.0:status:") (near_misses SUCCESS_URN) /\
  In (s2l "Success") (near_misses SUCCESS_URN) /\ In [] (near_misses SUCCESS_URN) /\
  In (s2l "urn:oasis:names:tc:SAML:2.0:status:Success ") (near_misses SUCCESS_URN) /\
  In (s2l "urn:oasis:names:tc:SAML:2.0:status:success") (near_misses SUCCESS_URN) /\
  refused_all status_table None (near_misses SUCCESS_URN) = true.
Proof.
  split; [vm_compute; reflexivity|].
  do 5 (split; [apply mem_str_In; vm_compute; reflexivity|]). vm_compute. reflexivity.
Qed.
Print Assumptions C06_near_miss_witness.

(* non-vacuity: a Responder/AuthnFailed status with everything else fine *)
Example C06_witness :
  let st := {| st_code := Some (Code (Some STATUS_RESPONDER) (Some (Code (Some STATUS_AUTHN_FAILED) None))); st_msg := true |} in
  let i := {| id_mismatch := false; version := Some V20; ver_lt2 := Some false; asynchop := true; dest_ok := true;
              issue_ok := Ok true; status := Some st |} in
  parse_tail (authn_verify i (Ok (Some 7%nat))) = Err (s2l "StatusAuthnFailed")
  /\ parse_tail (authn_verify {| id_mismatch := false; version := Some V20; ver_lt2 := Some false; asynchop := true;
        dest_ok := true; issue_ok := Ok true;
        status := Some {| st_code := Some (Code (Some STATUS_SUCCESS) None); st_msg := false |} |} (Ok (Some 7%nat))) = Ok 7%nat.
Proof. vm_compute. split; reflexivity. Qed.
Print Assumptions C06_witness.

(* The title at full strength: whatever the message says, an identity is handed over ONLY IF the response carries a <Status> whose top-level
   StatusCode Value is exactly the Success URN and its Version is the string "2.0" — absent <Status>, <Status>
   without StatusCode, StatusCode without Value and every other Value are all refused. *)
Theorem C06_identity_only_from_success_2_0 :
  forall (A : Type) (i : verify_in) (rest : result (option A)) (a : A),
    parse_tail (authn_verify i rest) = Ok a ->
    version_is_20 (version i) = true /\
    exists st sub, status i = Some st /\ st_code st = Some (Code (Some STATUS_SUCCESS) sub).
Proof.
  intros A i rest a H. apply authn_verify_core in H.
  split; [apply (verify_core_ok i H)|exact (verify_core_ok_success i H)].
Qed.
Print Assumptions C06_identity_only_from_success_2_0.

(* the same for the logout / manage-name-id style responses (StatusResponse.verify) *)
Theorem C06_status_response_only_from_success :
  forall (i : verify_in), status_verify i = Ok (Some tt) ->
    exists st sub, status i = Some st /\ st_code st = Some (Code (Some STATUS_SUCCESS) sub).
Proof.
  intros i H. exact (verify_core_ok_success i (status_verify_core i H)). Qed.
Print Assumptions C06_status_response_only_from_success.

(* a response with NO <Status> element at all is never accepted … *)
Theorem C06_absent_status_refused :
  forall (A : Type) (i : verify_in) (rest : result (option A)),
    status i = None -> (forall a, parse_tail (authn_verify i rest) <> Ok a) /\ status_verify i <> Ok (Some tt).
Proof.
  intros A i rest Hs. apply not_accepted. intros H.
  destruct (verify_core_ok_success i H) as (st & sub & Hs' & _). congruence.
Qed.
Print Assumptions C06_absent_status_refused.

(* … the code before the repair "fix: a response without Status is refused" returned True from status_ok when
   `response.status` was None: a validly signed assertion below a Status-less response yielded its identity *)
Example C06_absent_status_before_fix_refuted :
  status_ok_before_fix None = Ok tt /\ status_ok None = Err (s2l "StatusError").
Proof. split; reflexivity. Qed.
Print Assumptions C06_absent_status_before_fix_refuted.
