(* Props/C17.v — encrypted assertions stay confidential and are validated like plain ones.

   Identity provider (Model/Encrypt.v PART I, symbolic encryption: an EncryptedData node for
   key k can be opened with k and with nothing else, reveals nothing; a digest is taken to
   reveal the tree it covers).  Service provider: Model/Response.v (the shared pipeline of
   C02/C04/C05, flat documents) and Model/Encrypt.v PART II (document trees: advice, nested
   and stray EncryptedData, any key set, tool policy and fault schedule).
   The certificates of the service provider are DERIVED from its metadata (Model/EncryptMd.v over
   Model/CertSelect.v's md_certs: key descriptors with an optional use attribute, several role
   descriptors, several sources, first entity with the id wins): the *_md theorems put the hypothesis there.
   [idp_build] / [t_fixed := true] follow the code WITH proposed_fix/C17-1 and C17-2;
   the *_before_fix theorems state the defects of the code without them.
   In this order: identity provider; the same with the hypothesis on metadata; service provider on the pipeline
   model; on document trees (with and without C17-2); signed responses; the glue to C16. *)
From PV Require Import Lib.Base Model.Status Model.Response Model.Encrypt Model.CertSelect Model.EncryptMd
  Proofs.Response_lemmas Proofs.EncryptSP_lemmas Proofs.Encrypt_lemmas Proofs.EncryptMd_lemmas Proofs.EncryptTree_lemmas Proofs.EncryptLoop_lemmas Model.EncryptSigned Proofs.EncryptSigned_lemmas.
From PV Require Model.MdStore Proofs.Glue_certs Proofs.Glue_enc_certs.
Open Scope Z_scope.

(* encrypt_assertion requested and the SP has an encryption certificate (in metadata or handed in):
   what an observer reads off the response (and whether one is emitted at all) is the same for ANY two
   identities — name identifier, attribute names and attribute values have no influence on it *)
Theorem C17_confidential :
  forall g i1 i2, g_encrypt_assertion g = true -> has_cert_for (g_cert_assertion g) g ->
    vis (idp_build g i1) = vis (idp_build g i2).
Proof. exact confidential_main. Qed.
Print Assumptions C17_confidential.

(* PEFIM / encrypted advice: the same for the attributes of the advice assertion, whatever the other options *)
Theorem C17_confidential_advice :
  forall g n a1 a2, g_pefim g = true -> has_cert_for (g_cert_advice g) g ->
    vis (idp_build g {| i_name_id := n; i_attrs := a1 |}) = vis (idp_build g {| i_name_id := n; i_attrs := a2 |}).
Proof. exact confidential_advice. Qed.
Print Assumptions C17_confidential_advice.

(* in the statement's words: a string that is not already readable in the response built for the empty
   identity (issuer, destination, ids ... are) is not readable in the response built for the real one *)
Theorem C17_no_identity_string :
  forall g i out s, g_encrypt_assertion g = true -> has_cert_for (g_cert_assertion g) g -> idp_build g i = Ok out ->
    (forall out0, idp_build g no_ident = Ok out0 -> ~ In s (visible out0)) -> ~ In s (visible out).
Proof. intros g i out s He Hc. exact (no_occurrence _ _ out s (confidential_main g i no_ident He Hc)). Qed.
Print Assumptions C17_no_identity_string.

Theorem C17_no_advice_attribute_string :
  forall g n attrs out s, g_pefim g = true -> has_cert_for (g_cert_advice g) g ->
    idp_build g {| i_name_id := n; i_attrs := attrs |} = Ok out ->
    (forall out0, idp_build g {| i_name_id := n; i_attrs := [] |} = Ok out0 -> ~ In s (visible out0)) -> ~ In s (visible out).
Proof. intros g n attrs out s Hp Hc. exact (no_occurrence _ _ out s (confidential_advice g n attrs [] Hp Hc)). Qed.
Print Assumptions C17_no_advice_attribute_string.

(* every ciphertext in the response (at any depth) is made for a usable certificate that was supplied for
   this SP — the explicit encrypt_cert_* argument, else its metadata: it opens under that key, no other *)
Theorem C17_opens_only_under_sp_key :
  forall g i t k, idp_build g i = Ok t -> In k (enc_keys t) ->
    In (k, true) (certs_for (g_cert_assertion g) (g_md_certs g)) \/ In (k, true) (certs_for (g_cert_advice g) (g_md_certs g)).
Proof. intros g i t k H. exact (enc_keys_for_sp true g i t H k). Qed.
Print Assumptions C17_opens_only_under_sp_key.

(* _encrypt_assertion: when every certificate fails nothing is emitted *)
Theorem C17_all_certificates_fail_raises :
  forall g i, g_encrypt_assertion g = true -> has_cert_for (g_cert_assertion g) g ->
    (forall k u, In (k, u) (certs_for (g_cert_assertion g) (g_md_certs g)) -> u = false) ->
    exists e, idp_build g i = Err e.
Proof.
  intros g i He Hc Hall. unfold idp_build, idp_build_with. destruct (gather g) as [[]|e0]; [|now exists e0].
  rewrite (response_with_encrypting _ _ _ He Hc). destruct (advice_kids g i) as [kids|e0]; [|now exists e0].
  cbn [bind]. unfold encrypted_main. rewrite (encrypt_main_all_bad _ _ _ _ (has_cert_certs _ _ Hc) Hall). now eexists.
Qed.
Print Assumptions C17_all_certificates_fail_raises.

(* a configured verify_encrypt_cert_assertion / _advice callable: a response whose assertion (advice) was to be
   encrypted is emitted only if the certificate handed in is the one the callable accepts *)
Theorem C17_verified_certificate_used :
  forall g i t k0, idp_build g i = Ok t ->
    (g_encrypt_assertion g = true -> g_verify_assertion g = Some k0 -> g_cert_assertion g = CGiven k0 true) /\
    (g_pefim g = true -> g_verify_advice g = Some k0 -> g_cert_advice g = CGiven k0 true).
Proof.
  intros g i t k0 H. unfold idp_build, idp_build_with in H. destruct (gather g) as [u|] eqn:G; [|discriminate].
  apply gather_ok in G as [Gd Ga]. split; intros A B.
  - specialize (Ga A). rewrite B in Ga. exact (cert_accepted_given _ _ _ Ga).
  - destruct Gd as [u' Gd]; [rewrite A; apply orb_true_r|]. rewrite B in Gd. exact (cert_accepted_given _ _ _ Gd).
Qed.
Print Assumptions C17_verified_certificate_used.

(* the code before proposed_fix/C17-1: PEFIM + sign_assertion without sign_response / encrypt_assertion
   returned before anything was encrypted — the attribute assertion went out in clear *)
Theorem C17_confidential_advice_before_fix_refuted :
  g_pefim g_pefim_signed = true /\ has_cert_for (g_cert_advice g_pefim_signed) g_pefim_signed /\
  exists out, idp_build_before_fix g_pefim_signed ident0 = Ok out /\ In (E "anna@example.org") (visible out) /\ In (E "mail") (visible out) /\
              enc_keys out = [].
Proof.
  split; [reflexivity|]. split; [left; discriminate|]. eexists. split; [reflexivity|].
  rewrite <- !mem_str_In. repeat split; vm_compute; reflexivity.
Qed.
Print Assumptions C17_confidential_advice_before_fix_refuted.

Example C17_idp_witness :
  exists out, idp_build g_pefim_signed ident0 = Ok out /\ ~ In (E "anna@example.org") (visible out) /\ ~ In (E "mail") (visible out) /\
              In (E "subject-7") (visible out) /\ enc_keys out = [1%N].
Proof.
  eexists. split; [reflexivity|]. split; [|split; [|split]]; [apply not_mem_str|apply not_mem_str|apply mem_str_In|]; vm_compute; reflexivity.
Qed.
Print Assumptions C17_idp_witness.

(* what has_encrypt_cert_in_metadata / _encrypt_assertion / _authn_response find for the SP:
   exactly the certificates of the key descriptors of THAT entity (the first entry the store serves for the id,
   any role descriptor) whose use is encryption OR ABSENT — never a signing-only descriptor, never another entity's *)
Theorem C17_metadata_certificates :
  forall m sp k u, In (k, u) (md_enc_certs m sp) <->
    (exists e r kd, find_entity m sp = Some e /\ In r e /\ In kd r /\
                    (kd_use kd = None \/ kd_use kd = Some ENCRYPTION) /\ In k (kd_certs kd)) /\ u = negb (k =? 0)%N.
Proof. exact md_enc_certs_spec. Qed.
Print Assumptions C17_metadata_certificates.

(* C17_confidential with the hypothesis "the SP's metadata has a key descriptor whose use is encryption or absent":
   a use-less key (hand-written / third-party metadata) obliges the IdP exactly like use=encryption *)
Theorem C17_confidential_md :
  forall g m sp i1 i2, g_encrypt_assertion g = true -> sp_has_enc_key m sp ->
    vis (idp_build_md g m sp i1) = vis (idp_build_md g m sp i2).
Proof. intros g m sp i1 i2 He Hk. exact (confidential_main (args_md g m sp) i1 i2 He (has_cert_md _ g m sp Hk)). Qed.
Print Assumptions C17_confidential_md.

Theorem C17_confidential_advice_md :
  forall g m sp n a1 a2, g_pefim g = true -> sp_has_enc_key m sp ->
    vis (idp_build_md g m sp {| i_name_id := n; i_attrs := a1 |}) = vis (idp_build_md g m sp {| i_name_id := n; i_attrs := a2 |}).
Proof. intros g m sp n a1 a2 Hp Hk. exact (confidential_advice (args_md g m sp) n a1 a2 Hp (has_cert_md _ g m sp Hk)). Qed.
Print Assumptions C17_confidential_advice_md.

Theorem C17_no_identity_string_md :
  forall g m sp i out s, g_encrypt_assertion g = true -> sp_has_enc_key m sp -> idp_build_md g m sp i = Ok out ->
    (forall out0, idp_build_md g m sp no_ident = Ok out0 -> ~ In s (visible out0)) -> ~ In s (visible out).
Proof. intros g m sp i out s He Hk. exact (no_occurrence _ _ out s (C17_confidential_md g m sp i no_ident He Hk)). Qed.
Print Assumptions C17_no_identity_string_md.

(* every ciphertext opens under a certificate handed in, or under a real certificate that the SP's OWN entity
   offers in a key descriptor with use encryption or absent *)
Theorem C17_opens_only_under_sp_key_md :
  forall g m sp i t k, idp_build_md g m sp i = Ok t -> In k (enc_keys t) ->
    g_cert_assertion g = CGiven k true \/ g_cert_advice g = CGiven k true \/ (sp_enc_cert m sp k /\ k <> 0%N).
Proof. exact enc_keys_md. Qed.
Print Assumptions C17_opens_only_under_sp_key_md.

(* only a LATER certificate is usable (garbage first, signing descriptors first, another role descriptor,
   a second X509Data ...): a response is emitted and its outermost ciphertext is for the first usable one *)
Theorem C17_later_certificate_used :
  forall g m sp i k0, g_encrypt_assertion g = true -> g_cert_assertion g = CNone -> g_cert_advice g = CNone ->
    g_verify_assertion g = None -> g_verify_advice g = None ->
    g_self_contained g || g_pefim g || g_sign_assertion g = true ->
    sp_enc_cert m sp k0 -> k0 <> 0%N ->
    exists t k, idp_build_md g m sp i = Ok t /\ hd_error (enc_keys t) = Some k /\
                first_usable (md_enc_certs m sp) = Some k /\ sp_enc_cert m sp k /\ k <> 0%N.
Proof.
  intros g m sp i k0 He Ha Hd Hva Hvd Htext Hs Hk0.
  assert (In (k0, true) (md_enc_certs m sp)) as Hin.
  { apply md_enc_certs_spec. split; [exact Hs|]. destruct (N.eqb_spec k0 0); [contradiction|reflexivity]. }
  destruct (first_usable (md_enc_certs m sp)) as [k|] eqn:Hk; [|exfalso; exact (proj1 (first_usable_None _) Hk k0 Hin)].
  destruct (later_cert_used (args_md g m sp) i k) as (t & Ht & Hh); cbn; auto.
  destruct (md_enc_certs_real _ _ _ (first_usable_In _ _ Hk)) as [Hr Hn]. exists t, k. repeat split; auto.
Qed.
Print Assumptions C17_later_certificate_used.

(* signing-only metadata (no key descriptor for encryption) and no certificate handed in: encryption is
   silently not done (observed, outside the statement) — but then NOTHING in the message claims to be
   encrypted: no <EncryptedAssertion>, no EncryptedData, at any depth *)
Theorem C17_no_certificate_nothing_claims_encrypted :
  forall g m sp i t, (forall k, ~ sp_enc_cert m sp k) -> g_cert_assertion g = CNone -> g_cert_advice g = CNone ->
    idp_build_md g m sp i = Ok t -> claims_encrypted t = false.
Proof.
  intros g m sp i t Hn Ha Hd. unfold idp_build_md, idp_build. apply nothing_claims_encrypted; cbn; auto. now apply no_enc_key_certs.
Qed.
Print Assumptions C17_no_certificate_nothing_claims_encrypted.

(* hypotheses satisfiable: use-less key after a signing key (another entity first) => encrypted for it, nothing of
   the identity readable; use-less key under another role only; garbage first; signing only => clear and nothing
   claims otherwise; the same entity in two sources => the first one served decides *)
Example C17_metadata_witness :
  (sp_has_enc_key md_useless SPID /\ md_enc_certs md_useless SPID = [(1%N, true)] /\
   exists out, idp_build_md g_enc md_useless SPID ident0 = Ok out /\ enc_keys out = [1%N] /\
               ~ In (E "subject-7") (visible out) /\ ~ In (E "anna@example.org") (visible out)) /\
  (md_enc_certs md_other_role SPID = [(1%N, true)]) /\
  (md_enc_certs md_later SPID = [(0%N, false); (1%N, true)] /\
   exists out, idp_build_md g_enc md_later SPID ident0 = Ok out /\ enc_keys out = [1%N]) /\
  ((forall k, ~ sp_enc_cert md_signing_only SPID k) /\
   exists out, idp_build_md g_enc md_signing_only SPID ident0 = Ok out /\ claims_encrypted out = false /\ In (E "subject-7") (visible out)) /\
  (md_enc_certs md_two_sources SPID = []).
Proof.
  split; [|split; [reflexivity|split; [|split; [|reflexivity]]]].
  - split; [|split; [reflexivity|]].
    + exists 1%N. exists [[kd "signing" [2%N]; kdn [1%N]]], [kd "signing" [2%N]; kdn [1%N]], (kdn [1%N]).
      split; [reflexivity|]. split; [now left|]. split; [right; now left|]. split; [now left|now left].
    + eexists. split; [reflexivity|]. split; [reflexivity|]. split; apply not_mem_str; vm_compute; reflexivity.
  - split; [reflexivity|]. eexists. split; reflexivity.
  - split.
    + intros k Hk. assert (In (k, negb (k =? 0)%N) (md_enc_certs md_signing_only SPID)) as Hin by (apply md_enc_certs_spec; auto). exact Hin.
    + eexists. split; [reflexivity|]. split; [reflexivity|]. apply mem_str_In. vm_compute. reflexivity.
Qed.
Print Assumptions C17_metadata_witness.

(* the assertion stage accepts exactly when the stage that sends decrypted assertions through the PLAIN path
   (_assertion(…, verified=False): the signature looked at again) accepts, with the same state: the
   verified=True flag skips nothing that decrypt_assertions had not verified *)
Theorem C17_same_checks :
  forall c req s r s', parse_assertion c req s r = Ok s' <-> parse_assertion_uniform c req s r = Ok s'.
Proof. exact parse_assertion_same_checks. Qed.
Print Assumptions C17_same_checks.

(* so for every decrypted assertion of an accepted response: the facts C04 / C05 state for plain assertions
   (validity windows, audience, retained confirmations, solicitation) hold verbatim, its signature — when it
   has one — verified, and the plain-path function accepts it *)
Theorem C17_decrypted_checked :
  forall c r o, parse_response c r = Ok o ->
    Forall (fun a => assertion_facts c (r_irt r) a /\ (a_sig a = None \/ a_sig a = Some (Ok tt)) /\
                     exists req s s', check_assertion c (r_irt r) req false s a = Ok s')
           (decrypted_prefix (r_encrypted r)).
Proof.
  intros c r o H. destruct (accepted_stage c r o H) as (req & s & s' & Hp & _).
  destruct (parse_assertion_ok _ _ _ _ _ Hp) as (_ & _ & Hd & Hv).
  apply verify_decrypted_ok in Hv. rewrite Forall_forall in *. intros a Ha.
  destruct (Hd a Ha) as (sa & sa' & Hc). specialize (Hv a Ha). split; [eapply check_assertion_facts; exact Hc|].
  split; [exact (sig_not_bad_cases a Hv)|]. rewrite (check_assertion_flag _ _ _ _ _ Hv) in Hc. now exists req, sa, sa'.
Qed.
Print Assumptions C17_decrypted_checked.

(* the application reads exactly the plain assertions and the assertions that opened, nothing else;
   the name identifier is the last one among them *)
Theorem C17_reads_exactly_processed :
  forall c r o, parse_response c r = Ok o ->
    (forall n, In n (o_assertions o) <-> In n (map a_id (processed r))) /\
    o_name_id o = last_name_id (r_assertions r ++ decrypted_prefix (r_encrypted r)) None.
Proof.
  intros c r o H. destruct (accepted_stage c r o H) as (req & s & s' & Hp & Hinc & Hn & -> & ->).
  destruct (parse_assertion_reads _ _ _ _ _ Hp) as [A B]. rewrite A, B, Hn. split; [|reflexivity].
  intros n. rewrite in_app_iff. split; [|now right].
  intros [Hi|Hi]; [|exact Hi]. apply Hinc in Hi. unfold processed. rewrite map_app, in_app_iff. now left.
Qed.
Print Assumptions C17_reads_exactly_processed.

(* content no configured key opens: no assertion, no identity *)
Theorem C17_undecryptable :
  forall c r o, parse_response c r = Ok o -> r_assertions r = [] -> (forall e, In e (r_encrypted r) -> e_opens e = false) ->
    o_assertions o = [] /\ o_name_id o = None.
Proof.
  intros c r o H Ha He. destruct (C17_reads_exactly_processed c r o H) as [Hin Hn].
  assert (decrypted_prefix (r_encrypted r) = []) as Hd.
  { destruct (r_encrypted r) as [|e encs]; [reflexivity|]. cbn. now rewrite (He e (or_introl eq_refl)). }
  unfold processed in Hin. rewrite Ha, Hd in *. split; [|exact Hn].
  destruct (o_assertions o) as [|n l]; [reflexivity|]. exfalso. apply (Hin n). now left.
Qed.
Print Assumptions C17_undecryptable.

(* Model.Response.parse_response is the instance of the retry skeleton used for trees *)
Theorem C17_pipeline_is_instance :
  forall c r, parse_response c r =
    parse_response_x (fun req s (_ : unit) => (parse_assertion c req s r, tt)) (fun req s _ => parse_assertion_residue c req s r) c r tt.
Proof. exact parse_response_is_x. Qed.
Print Assumptions C17_pipeline_is_instance.

(* the decrypt loops (first or second, any condition, keys, policy, faults, fuel) never remove or alter an
   assertion the parser saw before: plain assertions and assertions inside EncryptedAssertions only grow *)
Theorem C17_second_loop_only_adds :
  forall cond keys pol fuel fs root root' fs', dec_loop fuel cond keys pol fs root = Some (root', fs') ->
    subseq (as_of root) (as_of root') /\ subseq (ea_as_of root) (ea_as_of root').
Proof. intros cond keys pol. exact (dec_loop_grows cond keys pol). Qed.
Print Assumptions C17_second_loop_only_adds.

(* with the comparison of proposed_fix/C17-2: for EVERY document tree, key set, tool policy and fault
   schedule, every assertion the application reads (also after the retry of Entity._parse_response) has a
   signature that verified where it was looked at (or none) and is accepted by the plain-path function *)
Theorem C17_second_loop_sees_nothing_new :
  forall tc c r root fs o, t_fixed tc = true -> parse_response_t tc c r root fs = Ok o ->
    Forall (fun n => exists req v, a_id (v_a v) = n /\ view_not_bad v /\
                       exists sa sa', check_assertion c (r_irt r) req false sa (as_checked v) = Ok sa')
           (o_assertions o).
Proof.
  intros tc c r root fs o Hf. apply (tree_checked_when (fun _ => True)); [exact I|].
  intros req s rt ag fs0 _. split; [exact I|]. now apply parse_t_checked.
Qed.
Print Assumptions C17_second_loop_sees_nothing_new.

(* hence the C04/C05 facts for everything read from a tree document *)
Theorem C17_tree_assertion_facts :
  forall tc c r root fs o, t_fixed tc = true -> parse_response_t tc c r root fs = Ok o ->
    Forall (fun n => exists a, a_id a = n /\ assertion_facts c (r_irt r) a /\ (a_sig a = None \/ a_sig a = Some (Ok tt))) (o_assertions o).
Proof.
  intros tc c r root fs o Hf H. eapply Forall_impl; [|exact (C17_second_loop_sees_nothing_new tc c r root fs o Hf H)].
  intros n (req & v & Hn & Hv & sa & sa' & Hc). exists (as_checked v). split; [exact Hn|].
  rewrite view_not_bad_eq in Hv. split; [eapply check_assertion_facts; exact Hc|exact (sig_not_bad_cases _ Hv)].
Qed.
Print Assumptions C17_tree_assertion_facts.

(* for the code without proposed_fix/C17-2 (t_fixed = false): with a tool that fails on an EncryptedData it cannot
   open (xmlsec1) and does not fail otherwise, the second (verified=True) loop ends with exactly the response-level
   assertions the verifying call saw, and the plain assertions are the ones checked before decryption — because
   str(self.response) writes extension elements (a stray EncryptedData child of Response) after all assertions *)
Theorem C17_second_loop_nothing_new_without_faults :
  forall keys f1 f2 root t1 fs1 t2 fs2,
    dec_loop f1 find_encrypt_data keys PFail [] (reserialize root) = Some (t1, fs1) ->
    dec_loop f2 cond2 keys PFail fs1 t1 = Some (t2, fs2) ->
    as_of t2 = as_of root /\ ea_as_of t2 = ea_as_of t1.
Proof.
  intros keys f1 f2 root t1 fs1 t2 fs2 L1 L2. destruct (two_loops_nothing_new keys f1 f2 root t1 fs1 t2 fs2 L1 L2) as (_ & _ & A & B).
  split; assumption.
Qed.
Print Assumptions C17_second_loop_nothing_new_without_faults.

(* hence the conclusion of C17_second_loop_sees_nothing_new also WITHOUT the repair, but only fault-free *)
Theorem C17_second_loop_before_fix_partial :
  forall tc c r root o, t_pol tc = PFail -> parse_response_t tc c r root [] = Ok o ->
    Forall (fun n => exists req v, a_id (v_a v) = n /\ view_not_bad v /\
                       exists sa sa', check_assertion c (r_irt r) req false sa (as_checked v) = Ok sa')
           (o_assertions o).
Proof.
  intros tc c r root o Hp. apply (tree_checked_when (fun fs => fs = [])); [reflexivity|].
  intros req s rt ag fs0 ->. now apply parse_t_checked_nofault.
Qed.
Print Assumptions C17_second_loop_before_fix_partial.

(* data of the witnesses below: the SP and its endpoint, its configuration (want_assertions_signed = b2, now = 1000000),
   an assertion valid at that time, the response envelope, the tool configuration *)
Definition me := s2l "https://sp.example.org/sp".
Definition acs := s2l "https://sp.example.org/acs/post".
Definition cfgW (b2 : bool) := {| entity_id := me; return_addrs := Some [acs]; wrs := false; was := b2; waors := false;
  allow_unsolicited := false; dest_regex_set := false; dest_regex_match := false; slack := 0; now := 1000000;
  asynch := true; outstanding := [(s2l "req-1", s2l "/home")]; conv_info := None; test_mode := false |}.
Definition asrtW (n : N) (sg : option (result unit)) (nooa : Z) := {| a_id := n; a_sig := sg; a_authn := [None];
  a_conditions := Some {| k_empty := false; k_nb := Some 999700; k_nooa := Some nooa; k_audiences := [[me]]; k_unknown_condition := false |};
  a_has_subject := true;
  a_confirmations := [{| c_method := Bearer; c_data := Some {| d_address := None; d_address_valid := true; d_nooa := Some 1000300;
                          d_nb := None; d_irt := Some (s2l "req-1"); d_recipient := Some acs |} |}];
  a_name_id := Some (s2l "alice") |}.
Definition envW := {| r_sig := None; r_valid_instance := true; r_irt := Some (s2l "req-1");
  r_version := Some V20; r_ver_lt2 := Some false; r_destination := Some acs; r_issue_instant := 1000000;
  r_status := Some {| st_code := Some (Code (Some Gen.StatusTable.STATUS_SUCCESS) None); st_msg := false |};
  r_assertions := []; r_encrypted := [] |}.
Definition tcW (pol : policy) (fixed : bool) := {| t_keys := [1%N]; t_pol := pol; t_fixed := fixed |}.
Definition bad_sig : option (result unit) := Some (Err SignatureError).
(* an encrypted assertion whose signature does NOT verify, want_assertions_signed on *)
Definition doc_bad := [DEA [DEnc 1 (DAsrt (asrtW 1 bad_sig 1000300) false [] [])]].

(* the first decrypt_keys call fails once (tool fault): the verifying call sees nothing, the second loop
   decrypts and takes the signature for granted — the assertion with the bad signature is read *)
Theorem C17_second_loop_before_fix_refuted :
  (exists o, parse_response_t (tcW PFail false) (cfgW true) envW doc_bad [true] = Ok o /\ o_assertions o = [1%N]) /\
  is_ok (parse_response_t (tcW PFail false) (cfgW true) envW doc_bad []) = false /\
  is_ok (parse_response_t (tcW PFail true) (cfgW true) envW doc_bad [true]) = false.
Proof. split; [eexists; split; vm_compute; reflexivity|]. split; vm_compute; reflexivity. Qed.
Print Assumptions C17_second_loop_before_fix_refuted.

(* what-if, NOT xmlsec1's behaviour: a tool that skips an EncryptedData it cannot open and decrypts the next
   one lets a stray EncryptedData (child of Response) surface as a plain assertion that no check ever sees
   (expired, unsigned, want_assertions_signed on); the comparison of C17-2 refuses that as well *)
Definition doc_stray := [DEA [DEnc 9 (DAsrt (asrtW 1 (Some (Ok tt)) 1000300) false [] [])];
                         DEnc 1 (DAsrt (asrtW 2 None 5) false [] [])].
Theorem C17_skipping_tool_before_fix_refuted :
  (exists o, parse_response_t (tcW PSkip false) (cfgW true) envW doc_stray [] = Ok o /\ o_assertions o = [2%N]) /\
  (exists o, parse_response_t (tcW PFail false) (cfgW true) envW doc_stray [] = Ok o /\ o_assertions o = []) /\
  is_ok (parse_response_t (tcW PSkip true) (cfgW true) envW doc_stray []) = false.
Proof. split; [eexists; split; vm_compute; reflexivity|]. split; [eexists; split; vm_compute; reflexivity|]. vm_compute; reflexivity. Qed.
Print Assumptions C17_skipping_tool_before_fix_refuted.

(* non-vacuity: PEFIM with encrypt_assertion (nested ciphertext, the second loop is needed), signed assertion,
   want_assertions_signed: accepted, the advice assertion is merged; with a foreign key nothing is read;
   an expired assertion inside the ciphertext is refused like a plain one *)
Definition adviceW := DAsrt (asrtW 2 None 1000300) false [] [].
Definition doc_pefim (k1 k2 : N) (nooa : Z) :=
  [DEA [DEnc k1 (DAsrt (asrtW 1 (Some (Ok tt)) nooa) false [DEA [DEnc k2 adviceW]] [])]].
Example C17_tree_witness :
  (exists o, parse_response_t (tcW PFail true) (cfgW true) envW (doc_pefim 1 1 1000300) [] = Ok o /\ o_assertions o = [1%N] /\
             o_name_id o = Some (s2l "alice") /\ advice_merged (tcW PFail true) (doc_pefim 1 1 1000300) (o_assertions o) = [2%N]) /\
  (exists o, parse_response_t (tcW PFail true) (cfgW true) envW (doc_pefim 7 1 1000300) [] = Ok o /\ o_assertions o = [] /\ o_name_id o = None) /\
  is_ok (parse_response_t (tcW PFail true) (cfgW true) envW (doc_pefim 1 1 999999) []) = false /\
  is_ok (parse_response_t (tcW PFail true) (cfgW true) envW [DAsrt (asrtW 1 (Some (Ok tt)) 999999) false [] []] []) = false.
Proof.
  split; [eexists; repeat split; vm_compute; reflexivity|]. split; [eexists; repeat split; vm_compute; reflexivity|].
  split; vm_compute; reflexivity.
Qed.
Print Assumptions C17_tree_witness.

(* decrypted assertions in a SIGNED response (Model/EncryptSigned.v):
   parse_assertion hands a `verified` flag to decrypt_assertions after the first decrypt loop and in the advice pass.
   A valid response signature covers the ciphertext, not what is inside it: both flags are False whatever the
   response signature is, the model with the flags explicit IS the model of the theorems above, ... *)
Theorem C17_verified_flag_ignores_response_signature :
  (forall signed, vf_first code_flags signed = false /\ vf_advice code_flags signed = false) /\
  (forall signed tc c irt req s root again fs,
     parse_t_v code_flags signed tc c irt req s root again fs = parse_t tc c irt req s root again fs) /\
  (forall tc c r root fs, parse_response_t_v code_flags tc c r root fs = parse_response_t tc c r root fs).
Proof. split; [intros signed; split; reflexivity|]. split; [exact parse_t_v_code|exact parse_response_t_v_code]. Qed.
Print Assumptions C17_verified_flag_ignores_response_signature.

(* ... hence C17_decrypted_checked for SIGNED responses: for every tree, key set, tool policy, fault schedule and every
   signature-requirement setting of the SP (c is arbitrary), every assertion read from a validly signed response
   satisfies the C04/C05 facts and its own signature, if any, verified; the response signature plays no part in it
   (the hypothesis r_sig r = Some (Ok tt) is not used) *)
Theorem C17_decrypted_checked_signed_response :
  forall tc c r root fs o, t_fixed tc = true -> r_sig r = Some (Ok tt) ->
    parse_response_t_v code_flags tc c r root fs = Ok o ->
    Forall (fun n => exists a, a_id a = n /\ assertion_facts c (r_irt r) a /\ (a_sig a = None \/ a_sig a = Some (Ok tt))) (o_assertions o) /\
    Forall (fun n => exists req v, a_id (v_a v) = n /\ view_not_bad v /\
                       exists sa sa', check_assertion c (r_irt r) req false sa (as_checked v) = Ok sa') (o_assertions o).
Proof.
  intros tc c r root fs o Hf _ H. rewrite parse_response_t_v_code in H. split.
  - exact (C17_tree_assertion_facts tc c r root fs o Hf H).
  - exact (C17_second_loop_sees_nothing_new tc c r root fs o Hf H).
Qed.
Print Assumptions C17_decrypted_checked_signed_response.

(* the same code with a flag that trusts the response signature (verified = bool(self.response.signature)) is refuted:
   a validly signed response, an encrypted assertion whose own signature does NOT verify, want_assertions_signed on or
   off: read; the code as it is refuses it, and the trusting variant refuses it too when the response is unsigned.
   Likewise for the flag of the advice pass (PEFIM: encrypted advice assertion with a bad signature). *)
Definition envS := {| r_sig := Some (Ok tt); r_valid_instance := true; r_irt := Some (s2l "req-1");
  r_version := Some V20; r_ver_lt2 := Some false; r_destination := Some acs; r_issue_instant := 1000000;
  r_status := Some {| st_code := Some (Code (Some Gen.StatusTable.STATUS_SUCCESS) None); st_msg := false |};
  r_assertions := []; r_encrypted := [] |}.
Definition doc_pefim_bad :=
  [DEA [DEnc 1 (DAsrt (asrtW 1 (Some (Ok tt)) 1000300) false [DEA [DEnc 1 (DAsrt (asrtW 2 bad_sig 1000300) false [] [])]] [])]].
Theorem C17_trusting_response_signature_refuted :
  (forall b, exists o, parse_response_t_v trusting_flags (tcW PFail true) (cfgW b) envS doc_bad [] = Ok o /\ o_assertions o = [1%N]) /\
  (forall b, is_ok (parse_response_t_v code_flags (tcW PFail true) (cfgW b) envS doc_bad []) = false) /\
  (forall b, is_ok (parse_response_t_v trusting_flags (tcW PFail true) (cfgW b) envW doc_bad []) = false) /\
  (forall b, exists o, parse_response_t_v trusting_advice_flags (tcW PFail true) (cfgW b) envS doc_pefim_bad [] = Ok o /\ o_assertions o = [1%N]) /\
  (forall b, is_ok (parse_response_t_v code_flags (tcW PFail true) (cfgW b) envS doc_pefim_bad []) = false).
Proof.
  split; [intros []; eexists; split; vm_compute; reflexivity|]. split; [intros []; vm_compute; reflexivity|].
  split; [intros []; vm_compute; reflexivity|]. split; [intros []; eexists; split; vm_compute; reflexivity|intros []; vm_compute; reflexivity].
Qed.
Print Assumptions C17_trusting_response_signature_refuted.

(* non-vacuity: a validly signed response with a validly signed encrypted assertion is accepted and read *)
Example C17_signed_response_witness :
  exists o, parse_response_t_v code_flags (tcW PFail true) (cfgW true) envS
              [DEA [DEnc 1 (DAsrt (asrtW 1 (Some (Ok tt)) 1000300) false [] [])]] [] = Ok o /\ o_assertions o = [1%N].
Proof. eexists; split; vm_compute; reflexivity. Qed.
Print Assumptions C17_signed_response_witness.

(* GLUE to C16 (Proofs/Glue_enc_certs.v, docs/Glue.md): the metadata store of the *_md theorems is Model/CertSelect.v's;
   C16 ties Model/MdStore.v to MetadataStore.  For the store an IdP loaded from its configured sources, read as a
   CertSelect store ([abs_store num]): every ciphertext opens under a certificate handed in, or under a real
   certificate of an encryption / use-less KeyDescriptor of an UNEXPIRED EntityDescriptor carrying the SP's entity id
   in the document of a source load() registered; and the hypothesis sp_enc_cert of the theorems above is exactly
   "the entity the C16 store serves for the SP declares such a certificate". *)
Theorem C17_ciphertext_keys_are_declared_in_loaded_metadata :
  forall num now srcs g sp i t k,
    idp_build_md g (Glue_certs.abs_store num (MdStore.load_all now [] srcs)) sp i = Ok t -> In k (enc_keys t) ->
    (g_cert_assertion g = CGiven k true \/ g_cert_advice g = CGiven k true \/
     (Glue_certs.declared_in_documents num now srcs MdStore.U_ENCRYPTION sp k /\ k <> 0%N)) /\
    (forall st x, sp_enc_cert (Glue_certs.abs_store num st) sp x <-> Glue_certs.declared_enc_key num st sp x).
Proof.
  intros num now srcs g sp i t k H Hk. split.
  - exact (Glue_enc_certs.ciphertext_keys_from_loaded_documents num now srcs g sp i t k H Hk).
  - intros st x. apply Glue_enc_certs.sp_enc_cert_declared.
Qed.
Print Assumptions C17_ciphertext_keys_are_declared_in_loaded_metadata.
