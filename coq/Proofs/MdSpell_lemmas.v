(* Proofs/MdSpell_lemmas.v — the text layer of validUntil (Model/MdSpell.v):
   which spellings are interpreted, the bridge to Model/MdStore.v (the text
   layer registers what Model/MdStore.v registers of the elaborated document, and raises when it raises), what a served entity's
   validUntil text can be, and histories of store operations. *)
From PV Require Import Lib.Base Model.MdStore Model.MdSpell Proofs.MdStore_lemmas.
Open Scope N_scope.

Lemma drop_digits_app ds : forallb is_digit ds = true -> forall r, drop_digits (ds ++ r) = drop_digits r.
Proof.
  induction ds as [|d ds IH]; intros H r; [reflexivity|].
  cbn [forallb] in H. apply andb_true_iff in H as [Hd Hds]. cbn [app drop_digits]. rewrite Hd. now apply IH.
Qed.

Lemma fragment_dot_digits ds :
  forallb is_digit ds = true ->
  fragment_suffix (46 :: ds) = true /\ fragment_suffix (46 :: ds ++ [90]) = true.
Proof.
  intros H. unfold fragment_suffix. cbn [after_fraction N.eqb Pos.eqb]. split.
  - rewrite <- (app_nil_r ds), (drop_digits_app ds H []). reflexivity.
  - rewrite (drop_digits_app ds H [90]). reflexivity.
Qed.

(* the characters a text that str_to_time interprets can have after the 19th *)
Definition suffix_char_ok (c : N) : bool :=
  is_digit c || (c =? 46) || (c =? 90) || (c =? 122) || (c =? 10).

Lemma drop_digits_ok s : forallb suffix_char_ok (drop_digits s) = true -> forallb suffix_char_ok s = true.
Proof.
  induction s as [|c s IH]; [reflexivity|]. cbn [drop_digits]. destruct (is_digit c) eqn:Ed; [|auto].
  intros H. cbn [forallb]. rewrite (IH H), andb_true_r. unfold suffix_char_ok. now rewrite Ed.
Qed.

Lemma end_ok_chars s : end_ok s = true -> forallb suffix_char_ok s = true.
Proof.
  destruct s as [|c [|d [|x s]]]; cbn [end_ok forallb]; intros H; [reflexivity| | |discriminate].
  - unfold suffix_char_ok. apply orb_true_iff in H as [->| ->]; now rewrite ?orb_true_r.
  - apply andb_true_iff in H as [Hc Hd]. unfold suffix_char_ok. now rewrite Hc, Hd, ?orb_true_r.
Qed.

Lemma fragment_suffix_chars s : fragment_suffix s = true -> forallb suffix_char_ok s = true.
Proof.
  unfold fragment_suffix. destruct s as [|c r]; [reflexivity|]. cbn [after_fraction].
  destruct (c =? 46) eqn:Ec.
  - intros H. apply end_ok_chars, drop_digits_ok in H. cbn [forallb]. rewrite H, andb_true_r.
    unfold suffix_char_ok. now rewrite Ec, ?orb_true_r.
  - apply end_ok_chars.
Qed.

Lemma strptime_suffix_chars s : strptime_suffix s = true -> forallb suffix_char_ok s = true.
Proof.
  destruct s as [|c [|d s]]; cbn [strptime_suffix forallb]; intros H; try discriminate.
  unfold suffix_char_ok. apply orb_true_iff in H as [->| ->]; now rewrite ?orb_true_r.
Qed.

(* str_to_time raises nothing but AttributeError and ValueError *)
Lemma str_to_time_errors v e : str_to_time v = Err e -> e = AttributeError \/ e = ValueError.
Proof.
  unfold str_to_time. destruct (vt_core v).
  - destruct (_ || _); [discriminate|]. intros H; injection H as <-. now left.
  - destruct (fragment_suffix _); intros H; injection H as <-; [now right|now left].
  - intros H; injection H as <-. now left.
Qed.

(* the same table, or an exception on both sides - the class may differ (raising_body raises MustValueError where
   the text layer raises ValueError) *)
Definition same_outcome {A} (r1 r2 : result A) : Prop :=
  match r1, r2 with
  | Ok a, Ok b => a = b
  | Err _, Err _ => True
  | _, _ => False
  end.
Lemma same_outcome_refl {A} (r : result A) : same_outcome r r.
Proof. destruct r; cbn; auto. Qed.

Definition raising_body : docbody := Many None IvRaises [].

(* the document Model/MdStore.v sees *)
Definition elab_body (lenient check : bool) (b : rdocbody) : docbody :=
  match b with
  | RNotMetadata => NotMetadata
  | RMany vu iv es => Many (vu_parsed vu) (doc_ivalid vu iv es) (map ent_of es)
  | RSingle re =>
      if check then
        match re_vu re with
        | None => Single (ent_of re)
        | Some x =>
            match str_to_time x with
            | Ok _ => Single (ent_of re)
            | Err e => if str_eqb e AttributeError
                       then (if lenient then Single (ent_of re)     (* swallowed: no validUntil as far as the store cares *)
                             else NotMetadata)                      (* skipped: the document contributes nothing *)
                       else raising_body                            (* ValueError leaves parse *)
            end
        end
      else Single (ent_of re)
  end.

Definition elab_source (lenient : bool) (rs : rsource) : source :=
  {| s_key := s_key (rs_src rs); s_kind := s_kind (rs_src rs); s_cert := s_cert (rs_src rs);
     s_check := s_check (rs_src rs); s_http_ok := s_http_ok (rs_src rs); s_verdict := s_verdict (rs_src rs);
     s_doc := {| d_signed := d_signed (s_doc (rs_src rs));
                 d_body := elab_body lenient (eff_check (rs_src rs)) (rs_body rs) |} |}.

Lemma do_entity_split now check m e :
  do_entity now check m e = if check && negb (valid now (e_valid_until e)) then Ok m else do_entity now false m e.
Proof. destruct check; reflexivity. Qed.

Lemma vu_good_gate lenient now v : vu_bad v = false -> validity_gate lenient now v = Ok (valid now (vu_parsed v)).
Proof.
  unfold vu_bad, validity_gate, vu_valid, vu_parsed. destruct v as [x|]; [|reflexivity].
  destruct (str_to_time x); cbn [is_ok negb valid]; [reflexivity|discriminate].
Qed.

Lemma rdo_entity_good lenient now check m re :
  vu_bad (re_vu re) = false -> rdo_entity lenient now check m re = do_entity now check m (ent_of re).
Proof.
  intros Hg. unfold rdo_entity. rewrite (do_entity_split now check m (ent_of re)).
  destruct check; cbn [andb]; [|reflexivity]. rewrite (vu_good_gate _ _ _ Hg). cbn [ent_of e_valid_until].
  destruct (valid now (vu_parsed (re_vu re))); reflexivity.
Qed.

Definition all_good (es : list rentity) : bool := forallb (fun re => negb (vu_bad (re_vu re))) es.

Lemma rfold_good lenient now check es : all_good es = true ->
  forall m, rfold_ents lenient now check m es = fold_ents now check m (map ent_of es).
Proof.
  induction es as [|e es IH]; intros H m; [reflexivity|].
  cbn [all_good forallb] in H. apply andb_true_iff in H as [He Hes]. apply negb_true_iff in He.
  cbn [rfold_ents map fold_ents]. rewrite (rdo_entity_good _ _ _ _ _ He).
  destruct (do_entity now check m (ent_of e)); [now apply IH|reflexivity].
Qed.

Lemma ents_ivalid_ok es : ents_ivalid es = IvOk -> all_good es = true.
Proof.
  induction es as [|e es IH]; [reflexivity|]. cbn [ents_ivalid all_good forallb].
  destruct (vu_bad (re_vu e)); [discriminate|]. destruct (re_iv e); try discriminate. intros H. now apply IH.
Qed.

Lemma doc_ivalid_ok vu iv es :
  doc_ivalid vu iv es = IvOk -> vu_bad vu = false /\ iv = IvOk /\ all_good es = true.
Proof.
  unfold doc_ivalid. destruct (vu_bad vu); [discriminate|]. destruct iv; try discriminate.
  intros H. split; [reflexivity|]. split; [reflexivity|]. now apply ents_ivalid_ok.
Qed.

Lemma rparse_bridge lenient now check b :
  same_outcome (rparse lenient now check b) (parse now check (elab_body lenient check b)).
Proof.
  destruct b as [vu iv es|re|].
  - cbn [rparse elab_body parse]. destruct (doc_ivalid vu iv es) eqn:Ed; [|reflexivity|exact I].
    destruct (doc_ivalid_ok _ _ _ Ed) as (Hvu & _ & Hall).
    destruct check; cbn [andb].
    + rewrite (vu_good_gate true now vu Hvu). destruct (valid now (vu_parsed vu)); cbn [negb]; [|exact I].
      rewrite (rfold_good _ _ _ _ Hall). apply same_outcome_refl.
    + rewrite (rfold_good _ _ _ _ Hall). apply same_outcome_refl.
  - cbn [rparse elab_body]. destruct check; [|apply same_outcome_refl].
    destruct (re_vu re) as [x|] eqn:Ev.
    2: { rewrite rdo_entity_good by (now rewrite Ev). apply same_outcome_refl. }
    destruct (str_to_time x) as [t|e] eqn:Es.
    + rewrite rdo_entity_good by (unfold vu_bad; now rewrite Ev, Es). apply same_outcome_refl.
    + unfold rdo_entity, validity_gate, vu_valid. rewrite Ev, Es.
      destruct (str_eqb e AttributeError); [|exact I]. destruct lenient; [|reflexivity].
      cbn [parse]. rewrite (do_entity_split now true [] (ent_of re)). cbn [andb ent_of e_valid_until].
      unfold vu_parsed. rewrite Ev, Es. apply same_outcome_refl.
  - reflexivity.
Qed.

Lemma parse_and_check_gate now check s :
  parse_and_check now check s =
  match parse now check (d_body (s_doc s)) with Err e => Err e | Ok m => sig_gate s m end.
Proof. unfold parse_and_check, sig_gate. destruct (parse now check (d_body (s_doc s))); reflexivity. Qed.

Lemma rparse_and_check_bridge lenient now rs check :
  check = eff_check (rs_src rs) ->
  same_outcome (rparse_and_check lenient now check rs) (parse_and_check now check (elab_source lenient rs)).
Proof.
  intros ->. rewrite parse_and_check_gate. unfold rparse_and_check. cbn [elab_source s_doc d_body].
  pose proof (rparse_bridge lenient now (eff_check (rs_src rs)) (rs_body rs)) as B.
  destruct (rparse lenient now (eff_check (rs_src rs)) (rs_body rs)) as [m|x],
           (parse now (eff_check (rs_src rs)) (elab_body lenient (eff_check (rs_src rs)) (rs_body rs))) as [m'|x'];
    cbn [same_outcome] in B; try contradiction; [|exact I].
  subst m'. apply same_outcome_refl.
Qed.

Lemma rload_bridge lenient now rs :
  same_outcome (rload_source lenient now rs) (load_source now (elab_source lenient rs)).
Proof.
  unfold rload_source, load_source. cbn [elab_source s_kind s_http_ok s_check].
  destruct (s_kind (rs_src rs)) eqn:Ek.
  - cbn [elab_source s_doc d_body]. unfold eff_check. rewrite Ek. apply rparse_bridge.
  - apply rparse_and_check_bridge. unfold eff_check. now rewrite Ek.
  - destruct (s_http_ok (rs_src rs)); [|exact I]. apply rparse_and_check_bridge. unfold eff_check. now rewrite Ek.
Qed.

Lemma rstore_load_bridge lenient now st rs :
  fst (rstore_load lenient now st rs) = fst (store_load now st (elab_source lenient rs)) /\
  none_b (snd (rstore_load lenient now st rs)) = none_b (snd (store_load now st (elab_source lenient rs))).
Proof.
  unfold rstore_load, store_load. pose proof (rload_bridge lenient now rs) as B.
  destruct (rload_source lenient now rs) as [m|x], (load_source now (elab_source lenient rs)) as [m'|x'];
    cbn [same_outcome] in B; try contradiction; cbn [fst snd none_b]; [subst m'|]; split; reflexivity.
Qed.

Lemma rload_all_bridge lenient now srcs : forall st,
  rload_all lenient now st srcs = load_all now st (map (elab_source lenient) srcs).
Proof.
  induction srcs as [|s srcs IH]; intros st; [reflexivity|]. cbn [rload_all load_all map].
  destruct (rstore_load_bridge lenient now st s) as [-> _]. apply IH.
Qed.

Lemma rload_outcomes_bridge lenient now srcs : forall st,
  map none_b (rload_outcomes lenient now st srcs) =
  map none_b (load_outcomes now st (map (elab_source lenient) srcs)).
Proof.
  induction srcs as [|s srcs IH]; intros st; [reflexivity|]. cbn [rload_outcomes load_outcomes map].
  destruct (rstore_load_bridge lenient now st s) as [-> ->]. now rewrite IH.
Qed.

Lemma rimp_bridge lenient now srcs : forall st,
  fst (rimp lenient now st srcs) = fst (imp now st (map (elab_source lenient) srcs)) /\
  none_b (snd (rimp lenient now st srcs)) = none_b (snd (imp now st (map (elab_source lenient) srcs))).
Proof.
  induction srcs as [|s srcs IH]; intros st; [split; reflexivity|]. cbn [rimp imp map].
  destruct (rstore_load_bridge lenient now st s) as [H1 H2].
  destruct (rstore_load lenient now st s) as [st1 o1], (store_load now st (elab_source lenient s)) as [st2 o2].
  cbn [fst snd] in H1, H2. subst st2. destruct o1, o2; cbn [none_b] in H2; try discriminate; cbn [fst snd none_b].
  - split; reflexivity.
  - apply IH.
Qed.

(* absent / empty, or interpreted by str_to_time as an instant that has not passed *)
Definition spelled_unexpired (now : Z) (v : vuspell) : Prop :=
  v = None \/ exists x t, v = Some x /\ str_to_time x = Ok t /\ (now <= t)%Z.

Lemma good_valid_unexpired now v : vu_bad v = false -> valid now (vu_parsed v) = true -> spelled_unexpired now v.
Proof.
  unfold vu_bad, vu_parsed, spelled_unexpired. destruct v as [x|]; [|now left].
  destruct (str_to_time x) as [t|e] eqn:Es; cbn [is_ok negb valid]; [|discriminate].
  intros _ H. right. exists x, t. split; [reflexivity|]. split; [exact Es|]. now apply Z.leb_le.
Qed.

(* served_entity_declared for the text layer: an entity held by a registered source, in terms of the texts *)
Lemma rserved_declared lenient now rsrcs k m eid e :
  In (k, m) (rload_all lenient now [] rsrcs) -> aget eid m = Some e ->
  exists rs re, In rs rsrcs /\ s_key (rs_src rs) = k /\ admissible (rs_src rs) /\
    e = stored_form (ent_of re) /\ e_id (re_ent re) = eid /\
    match rs_body rs with
    | RMany vu iv es =>
        In re es /\ doc_ivalid vu iv es = IvOk /\
        (eff_check (rs_src rs) = true -> spelled_unexpired now vu /\ spelled_unexpired now (re_vu re))
    | RSingle re1 =>
        re = re1 /\
        (eff_check (rs_src rs) = true ->
           spelled_unexpired now (re_vu re) \/
           (lenient = true /\ exists x, re_vu re = Some x /\ str_to_time x = Err AttributeError))
    | RNotMetadata => False
    end.
Proof.
  intros Hin Hget. rewrite rload_all_bridge in Hin.
  destruct (served_entity_declared now _ k m eid e Hin Hget) as (s & e0 & Hs & Hk & Hadm & He & Hid & Hval & Hbody).
  apply in_map_iff in Hs as (rs & <- & Hrs). exists rs.
  cbn [elab_source s_doc d_body] in Hbody.
  change (eff_check (elab_source lenient rs)) with (eff_check (rs_src rs)) in Hval.
  destruct (rs_body rs) as [vu iv es|re1|] eqn:Eb; cbn [elab_body] in Hbody.
  - destruct Hbody as (Hiv & He0 & Hroot). apply in_map_iff in He0 as (re & <- & Hre). exists re.
    destruct (doc_ivalid_ok _ _ _ Hiv) as (Hvu & _ & Hall).
    split; [exact Hrs|]. split; [exact Hk|]. split; [exact Hadm|]. split; [exact He|]. split; [exact Hid|].
    split; [exact Hre|]. split; [exact Hiv|]. intros Hc. split.
    + apply good_valid_unexpired; [exact Hvu|]. now apply Hroot.
    + apply good_valid_unexpired; [|exact (Hval Hc)].
      unfold all_good in Hall. rewrite forallb_forall in Hall. now apply negb_true_iff, Hall.
  - exists re1. split; [exact Hrs|]. split; [exact Hk|]. split; [exact Hadm|].
    (* the elaborated body is Single (ent_of re1) unless the text is uninterpretable *)
    assert (e0 = ent_of re1 /\
            (eff_check (rs_src rs) = true -> vu_bad (re_vu re1) = false \/
               (lenient = true /\ exists x, re_vu re1 = Some x /\ str_to_time x = Err AttributeError))) as [-> Hc].
    { destruct (eff_check (rs_src rs)); [|split; [exact Hbody|discriminate]].
      unfold vu_bad. destruct (re_vu re1) as [x|]; [|split; [exact Hbody|now left]].
      destruct (str_to_time x) as [t|x0] eqn:Es; [split; [exact Hbody|now left]|].
      destruct (str_eqb_spec x0 AttributeError) as [->|Hne]; [|destruct Hbody as [Hx _]; discriminate].
      destruct lenient; [|destruct Hbody]. split; [exact Hbody|]. intros _. right. split; [reflexivity|]. now exists x. }
    split; [exact He|]. split; [exact Hid|]. split; [reflexivity|].
    intros C. destruct (Hc C) as [Hg|Hl]; [left|now right]. exact (good_valid_unexpired _ _ Hg (Hval C)).
  - destruct Hbody.
Qed.

Lemma ops_store_loads lenient now ops : forall st,
  ops_store lenient now st ops = rload_all lenient now st (loads_of ops).
Proof.
  induction ops as [|o ops IH]; intros st; [reflexivity|].
  destruct o; cbn [ops_store loads_of flat_map app rload_all]; apply IH.
Qed.

Lemma run_ops_app lenient now ops1 : forall st ops2,
  run_ops lenient now st (ops1 ++ ops2) =
  run_ops lenient now st ops1 ++ run_ops lenient now (ops_store lenient now st ops1) ops2.
Proof.
  induction ops1 as [|o ops1 IH]; intros st ops2; [reflexivity|].
  destruct o; cbn [app run_ops ops_store].
  - now rewrite IH.
  - now rewrite IH, app_assoc.
  - now rewrite IH, app_assoc.
Qed.

Lemma no_role_anywhere_never_unsupported st eid typ svc b :
  (forall km, In km st -> has_role (snd km) eid typ = false) ->
  store_service st eid typ svc b = Err UnknownSystemEntity.
Proof. apply store_service_unknown_iff. Qed.
