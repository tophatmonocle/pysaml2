(* Proofs/TimeUtil_lemmas.v — the calendar of Model/TimeUtil.v: gmtime and timegm are inverse, the day number is
   strictly monotone in (year, month, day), tuple order of normalised struct_time values is the order of instants,
   what strptime reads, instant / str_to_time round trip, and the text tests = the integer tests. *)
From Coq Require Import ZifyBool.
From PV Require Import Lib.Base Model.TimeUtil.
Open Scope Z_scope.

Lemma is_leap_spec y : is_leap y = true <-> (y mod 4 = 0 /\ (y mod 100 <> 0 \/ y mod 400 = 0)).
Proof. unfold is_leap. rewrite andb_true_iff, orb_true_iff, negb_true_iff, !Z.eqb_eq, Z.eqb_neq. tauto. Qed.

Definition year_len (y : Z) : Z := if is_leap y then 366 else 365.

Lemma dby_succ y : days_before_year (y + 1) = days_before_year y + year_len y.
Proof.
  pose proof (is_leap_spec y) as L. unfold days_before_year, year_len. replace (y + 1 - 1) with y by lia.
  destruct (is_leap y); Z.to_euclidean_division_equations; lia.
Qed.

Lemma dby_mono y y' : y <= y' -> days_before_year y <= days_before_year y'.
Proof. unfold days_before_year. Z.to_euclidean_division_equations. lia. Qed.

Lemma year_of_ordinal_spec n : days_before_year (year_of_ordinal n) < n <= days_before_year (year_of_ordinal n + 1).
Proof.
  unfold year_of_ordinal. set (q := 400 * n / 146097).
  assert (days_before_year q < n <= days_before_year (q + 3)) as [L U]
    by (unfold days_before_year, q; Z.to_euclidean_division_equations; lia).
  destruct (Z.leb_spec n (days_before_year (q + 1))) as [A|A].
  - split; [exact L|exact A].
  - destruct (Z.ltb_spec (days_before_year (q + 2)) n) as [B|B].
    + replace (q + 2 + 1) with (q + 3) by lia. split; [exact B|exact U].
    + replace (q + 1 + 1) with (q + 2) by lia. split; [exact A|exact B].
Qed.

Ltac month_cases m :=
  let H := fresh "Hm" in
  assert (m = 1 \/ m = 2 \/ m = 3 \/ m = 4 \/ m = 5 \/ m = 6 \/ m = 7 \/ m = 8 \/ m = 9 \/ m = 10 \/ m = 11 \/ m = 12) as H by lia;
  repeat (destruct H as [H|H]; [subst m|]); [..|subst m].

Lemma dbm_step y m : 1 <= m <= 12 -> days_before_month y (m + 1) = days_before_month y m + days_in_month y m.
Proof. intros H. unfold days_before_month, days_in_month. month_cases m; destruct (is_leap y); reflexivity. Qed.
Lemma dim_pos y m : 1 <= m <= 12 -> 28 <= days_in_month y m <= 31.
Proof. intros H. unfold days_in_month. month_cases m; destruct (is_leap y); lia. Qed.
Lemma dbm_13 y : days_before_month y 13 = year_len y.
Proof. unfold days_before_month, year_len. destruct (is_leap y); reflexivity. Qed.
Lemma dbm_mono y a b : 1 <= a -> a <= b -> b <= 13 -> days_before_month y a <= days_before_month y b.
Proof.
  intros Ha Hab. revert b Hab. apply (Z.le_ind (fun b => b <= 13 -> _ <= days_before_month y b)).
  - intros ? ? ->. reflexivity.
  - reflexivity.
  - intros m Hm IH H13. unfold Z.succ. rewrite dbm_step by lia. pose proof (dim_pos y m). lia.
Qed.

Lemma ordinal_lt y m d y' m' d' : valid_date y m d -> valid_date y' m' d' ->
  (y < y' \/ (y = y' /\ (m < m' \/ (m = m' /\ d < d')))) -> ordinal y m d < ordinal y' m' d'.
Proof.
  intros [Hm Hd] [Hm' Hd'] H. unfold ordinal.
  assert (days_before_month y m + days_in_month y m <= year_len y) as E.
  { rewrite <- dbm_step, <- dbm_13 by exact Hm. apply dbm_mono; lia. }
  assert (0 <= days_before_month y' m') as P by (apply (dbm_mono y' 1); lia).
  destruct H as [H|[-> [H|[-> H]]]].
  - assert (days_before_year (y + 1) <= days_before_year y') as M by (apply dby_mono; lia).
    rewrite dby_succ in M. lia.
  - assert (days_before_month y' (m + 1) <= days_before_month y' m') as M by (apply dbm_mono; lia).
    rewrite dbm_step in M by exact Hm. lia.
  - lia.
Qed.

Lemma ordinal_inj y m d y' m' d' : valid_date y m d -> valid_date y' m' d' ->
  ordinal y m d = ordinal y' m' d' -> y = y' /\ m = m' /\ d = d'.
Proof.
  intros V V' E. pose proof (ordinal_lt _ _ _ _ _ _ V V') as L. pose proof (ordinal_lt _ _ _ _ _ _ V' V) as L'. lia.
Qed.

Lemma month_of_spec y k : 1 <= k <= year_len y ->
  1 <= month_of y k <= 12 /\ days_before_month y (month_of y k) < k <= days_before_month y (month_of y k) + days_in_month y (month_of y k).
Proof.
  intros H. unfold month_of, month_search, year_len in *. unfold days_before_month, days_in_month.
  destruct (is_leap y); cbn [andb cum_days Z.ltb Z.compare Pos.compare Pos.compare_cont];
  repeat match goal with |- context [?a <? k] => destruct (Z.ltb_spec a k) end; cbn; lia.
Qed.

Lemma civil_of_ordinal_spec n : let '(y, m, d) := civil_of_ordinal n in valid_date y m d /\ ordinal y m d = n.
Proof.
  unfold civil_of_ordinal. pose proof (year_of_ordinal_spec n) as Y. set (y := year_of_ordinal n) in *.
  rewrite dby_succ in Y.
  assert (1 <= n - days_before_year y <= year_len y) as K by lia.
  pose proof (month_of_spec y _ K) as M. set (m := month_of y (n - days_before_year y)) in *.
  unfold valid_date, ordinal. lia.
Qed.

Lemma civil_of_ordinal_inv y m d : valid_date y m d -> civil_of_ordinal (ordinal y m d) = (y, m, d).
Proof.
  intros V. pose proof (civil_of_ordinal_spec (ordinal y m d)) as S.
  destruct (civil_of_ordinal (ordinal y m d)) as [[y' m'] d']. destruct S as [V' E].
  destruct (ordinal_inj _ _ _ _ _ _ V' V E) as (-> & -> & ->). reflexivity.
Qed.

Lemma timegm_eq c :
  timegm c = (ordinal (tm_year c) (tm_mon c) (tm_mday c) - EPOCH_ORD) * 86400 + tm_hour c * 3600 + tm_min c * 60 + tm_sec c.
Proof. unfold timegm, timegm6, days_from_civil, ordinal. lia. Qed.

Lemma gmtime_fields t :
  let c := gmtime t in
  valid_date (tm_year c) (tm_mon c) (tm_mday c) /\ ordinal (tm_year c) (tm_mon c) (tm_mday c) = t / 86400 + EPOCH_ORD /\
  tm_hour c = t mod 86400 / 3600 /\ tm_min c = t mod 86400 mod 3600 / 60 /\ tm_sec c = t mod 86400 mod 60 /\
  tm_wday c = (ordinal (tm_year c) (tm_mon c) (tm_mday c) + 6) mod 7 /\
  tm_yday c = days_before_month (tm_year c) (tm_mon c) + tm_mday c /\ tm_isdst c = 0.
Proof.
  unfold gmtime. pose proof (civil_of_ordinal_spec (t / 86400 + EPOCH_ORD)) as S.
  destruct (civil_of_ordinal (t / 86400 + EPOCH_ORD)) as [[y m] d]. cbn [tm_year tm_mon tm_mday tm_hour tm_min tm_sec tm_wday tm_yday tm_isdst].
  destruct S as [V E]. rewrite <- E. repeat split; try apply V. unfold ordinal. lia.
Qed.

Lemma hms_range r : 0 <= r < 86400 -> 0 <= r / 3600 < 24 /\ 0 <= r mod 3600 / 60 < 60 /\ 0 <= r mod 60 < 60.
Proof. intros R. Z.to_euclidean_division_equations. lia. Qed.

Theorem timegm_gmtime t : timegm (gmtime t) = t.
Proof.
  rewrite timegm_eq. destruct (gmtime_fields t) as (_ & E & H & M & S & _). rewrite E, H, M, S.
  Z.to_euclidean_division_equations. lia.
Qed.

Theorem gmtime_valid t : valid_tm (gmtime t).
Proof.
  destruct (gmtime_fields t) as (V & _ & H & M & S & W & Y & D).
  destruct (hms_range _ (Z.mod_pos_bound t 86400 eq_refl)) as (Rh & Rm & Rs). rewrite <- H in Rh. rewrite <- M in Rm. rewrite <- S in Rs.
  exact (conj (conj V (conj Rh (conj Rm (conj Rs (conj W Y))))) D).
Qed.

Theorem gmtime_timegm c : valid_tm c -> gmtime (timegm c) = c.
Proof.
  intros [(V & H & M & S & W & Y) D]. pose proof (timegm_eq c) as T.
  assert (timegm c / 86400 + EPOCH_ORD = ordinal (tm_year c) (tm_mon c) (tm_mday c) /\
          timegm c mod 86400 = tm_hour c * 3600 + tm_min c * 60 + tm_sec c) as [Q R]
    by (Z.to_euclidean_division_equations; lia).
  unfold gmtime. rewrite Q, R, (civil_of_ordinal_inv _ _ _ V). unfold ordinal in *.
  destruct c as [y mo d h mi s wd yd dst]; cbn [tm_year tm_mon tm_mday tm_hour tm_min tm_sec tm_wday tm_yday tm_isdst] in *.
  f_equal; Z.to_euclidean_division_equations; lia.
Qed.

(* one position of a lexicographic comparison: when the order of a and b decides the order of ta and tb, and for
   a = b the remaining positions [r] compare as ta and tb do, so does the whole *)
Lemma lex_step a b r ta tb (e : comparison) :
  (a < b -> ta < tb) -> (b < a -> tb < ta) -> (a = b -> r = match ta ?= tb with Eq => e | c => c end) ->
  match a ?= b with Eq => r | c => c end = match ta ?= tb with Eq => e | c => c end.
Proof.
  intros L G E. destruct (Z.compare_spec a b) as [H|H|H]; [exact (E H)| |].
  - rewrite (proj2 (Z.compare_lt_iff _ _) (L H)). reflexivity.
  - rewrite (proj2 (Z.compare_gt_iff _ _) (G H)). reflexivity.
Qed.

Lemma tuple_cmp_valid8 a b : valid8 a -> valid8 b ->
  tuple_cmp a b = match timegm a ?= timegm b with Eq => tm_isdst a ?= tm_isdst b | r => r end.
Proof.
  intros (Va & Ha & Ma & Sa & Wa & Ya) (Vb & Hb & Mb & Sb & Wb & Yb).
  pose proof (ordinal_lt _ _ _ _ _ _ Va Vb) as L. pose proof (ordinal_lt _ _ _ _ _ _ Vb Va) as L'.
  rewrite !timegm_eq. unfold tuple_cmp, tm_list.
  destruct a as [y mo d h mi s wd yd dst], b as [y' mo' d' h' mi' s' wd' yd' dst'].
  cbn [tm_year tm_mon tm_mday tm_hour tm_min tm_sec tm_wday tm_yday tm_isdst list_cmp] in *.
  (* timegm is a mixed-radix number with bounded digits (L, L' for year / month / day, the ranges for hour, minute,
     second): the first field that differs has the sign of the difference of the instants *)
  do 6 (apply lex_step; [lia|lia|intros ->]).
  subst wd wd' yd yd'. rewrite !Z.compare_refl. destruct (dst ?= dst'); reflexivity.
Qed.

Theorem tuple_cmp_is_instant_cmp a b : valid_tm a -> valid_tm b -> tuple_cmp a b = (timegm a ?= timegm b).
Proof.
  intros [Va Da] [Vb Db]. rewrite (tuple_cmp_valid8 a b Va Vb), Da, Db. destruct (timegm a ?= timegm b); reflexivity.
Qed.

Lemma tuple_leb_instant a b : valid_tm a -> valid_tm b -> tuple_leb a b = (timegm a <=? timegm b).
Proof. intros Va Vb. unfold tuple_leb, Z.leb. rewrite (tuple_cmp_is_instant_cmp a b Va Vb). reflexivity. Qed.
Lemma tuple_geb_instant a b : valid_tm a -> valid_tm b -> tuple_geb a b = (timegm a >=? timegm b).
Proof. intros Va Vb. unfold tuple_geb, Z.geb. rewrite (tuple_cmp_is_instant_cmp a b Va Vb). reflexivity. Qed.
Lemma tuple_ltb_instant a b : valid_tm a -> valid_tm b -> tuple_ltb a b = (timegm a <? timegm b).
Proof. intros Va Vb. unfold tuple_ltb, Z.ltb. rewrite (tuple_cmp_is_instant_cmp a b Va Vb). reflexivity. Qed.

(* datetime.timetuple(): tm_isdst = -1 breaks the tie at equal instants *)
Lemma timetuple_valid8 t : valid8 (timetuple t) /\ timegm (timetuple t) = t /\ tm_isdst (timetuple t) = -1.
Proof.
  destruct (gmtime_valid t) as [V _]. split; [exact V|]. split; [|reflexivity].
  rewrite <- (timegm_gmtime t) at 2. unfold timegm, timetuple. cbn [tm_year tm_mon tm_mday tm_hour tm_min tm_sec]. reflexivity.
Qed.
Lemma timetuple_ltb_l t c : valid_tm c -> tuple_ltb (timetuple t) c = (t <=? timegm c).
Proof.
  intros [V D]. destruct (timetuple_valid8 t) as (V' & T & D'). unfold tuple_ltb, Z.leb.
  rewrite (tuple_cmp_valid8 _ _ V' V), T, D, D'. destruct (t ?= timegm c); reflexivity.
Qed.
Lemma timetuple_ltb_r t c : valid_tm c -> tuple_ltb c (timetuple t) = (timegm c <? t).
Proof.
  intros [V D]. destruct (timetuple_valid8 t) as (V' & T & D'). unfold tuple_ltb, Z.ltb.
  rewrite (tuple_cmp_valid8 _ _ V V'), T, D, D'. destruct (timegm c ?= t); reflexivity.
Qed.

Definition zrange (lo : Z) (n : nat) : list Z := map (fun i => lo + Z.of_nat i) (seq 0 n).
(* a field function reads the two-digit texts of a whole range: a finite check *)
Definition reads (f : str -> option Z) (k : Z) : bool := match f (pad2 k) with Some v => v =? k | None => false end.
Lemma reads_range f lo n : forallb (reads f) (zrange lo n) = true -> forall k, lo <= k < lo + Z.of_nat n -> f (pad2 k) = Some k.
Proof.
  intros H k Hk. rewrite forallb_forall in H.
  assert (In k (zrange lo n)) as Hin by (apply in_map_iff; exists (Z.to_nat (k - lo)); split; [lia|apply in_seq; lia]).
  apply H in Hin. unfold reads in Hin. destruct (f (pad2 k)) as [v|]; [|discriminate]. apply Z.eqb_eq in Hin. now subst.
Qed.

Lemma dchar_digit j : 0 <= j <= 9 -> udigit (dchar j) = Some j.
Proof.
  intros H. assert (j = 0 \/ j = 1 \/ j = 2 \/ j = 3 \/ j = 4 \/ j = 5 \/ j = 6 \/ j = 7 \/ j = 8 \/ j = 9) as C by lia.
  repeat (destruct C as [C|C]; [subst j; reflexivity|]). subst j; reflexivity.
Qed.

Lemma udigit_range zs c v : digit_in zs c = Some v -> 0 <= v <= 9.
Proof.
  induction zs as [|z r IH]; cbn [digit_in]; [discriminate|].
  destruct ((z <=? c)%N && (c <? z + 10)%N) eqn:E; [|exact IH]. intros H. injection H as <-. lia.
Qed.
Lemma ascii_digit_udigit b : (48 <= b <= 57)%N -> udigit b = Some (Z.of_N (b - 48)).
Proof. intros H. unfold udigit, digit_zeros. cbn [digit_in]. destruct ((48 <=? b)%N && (b <? 48 + 10)%N) eqn:E; [reflexivity|lia]. Qed.

Lemma digit_no_sep b : is_udigit b = true -> is_dash b = false /\ is_colon b = false /\ is_T b = false /\ is_Z b = false.
Proof. intros U. unfold is_dash, is_colon, is_T, is_Z. rewrite !(eqb_sep is_udigit b _ U) by reflexivity. repeat split; reflexivity. Qed.

(* [rd o P]: what a successful read guarantees of the value *)
Definition rd (o : option Z) (P : Z -> Prop) : Prop := forall v, o = Some v -> P v.
Lemma rd_weaken o (P Q : Z -> Prop) : rd o P -> (forall v, P v -> Q v) -> rd o Q.
Proof. intros H K v E. exact (K v (H v E)). Qed.
Lemma rd_orelse a b P : rd a P -> rd b P -> rd (orelse a b) P.
Proof. intros A B. destruct a; [exact A|exact B]. Qed.
Lemma rd_two a b (P Q R : Z -> Prop) : rd a P -> rd b Q -> (forall x y, P x -> Q y -> R (10 * x + y)) -> rd (two a b) R.
Proof.
  intros A B K v. destruct a as [x|], b as [y|]; try discriminate. intros H. injection H as <-.
  apply K; [apply A|apply B]; reflexivity.
Qed.
Lemma rd_udigit c : rd (udigit c) (fun v => is_udigit c = true /\ 0 <= v <= 9).
Proof. intros v H. split; [unfold is_udigit; rewrite H; reflexivity|exact (udigit_range _ c v H)]. Qed.
Lemma rd_adigit lo hi c : (48 <= lo)%N -> (hi <= 57)%N ->
  rd (adigit lo hi c) (fun v => is_udigit c = true /\ Z.of_N lo - 48 <= v <= Z.of_N hi - 48).
Proof.
  intros Hl Hh v. unfold adigit. destruct ((lo <=? c)%N && (c <=? hi)%N) eqn:E; [|discriminate]. intros H. injection H as <-.
  split; [unfold is_udigit; rewrite ascii_digit_udigit by lia; reflexivity|lia].
Qed.

(* every field is one or two characters, and the second one is a digit (never a separator) *)
Definition field_shape (f : str) : Prop := (exists a, f = [a]) \/ (exists a b, f = [a; b] /\ is_udigit b = true).
Lemma field_spec (A : N -> option Z) (B : N -> N -> option Z) (R : Z -> Prop) f :
  (forall a, rd (A a) R) -> (forall a b, rd (B a b) (fun v => is_udigit b = true /\ R v)) ->
  rd (match f with [a] => A a | [a; b] => B a b | _ => None end) (fun v => field_shape f /\ R v).
Proof.
  intros HA HB v. destruct f as [|a [|b [|? ?]]]; try discriminate; intros H.
  - split; [left; eauto|exact (HA a v H)].
  - destruct (HB a b v H) as [U Hv]. split; [right; eauto|exact Hv].
Qed.

Lemma field_m_spec f : rd (field_m f) (fun v => field_shape f /\ 1 <= v <= 12).
Proof.
  apply field_spec.
  - intros a. eapply rd_weaken; [apply rd_adigit; lia|cbn beta; lia].
  - intros a b. apply rd_orelse; (eapply rd_two; [apply rd_adigit; lia|apply rd_adigit; lia|cbn beta; lia]).
Qed.
Lemma field_d_spec f : rd (field_d f) (fun v => field_shape f /\ 1 <= v <= 31).
Proof.
  apply field_spec.
  - intros a. eapply rd_weaken; [apply rd_adigit; lia|cbn beta; lia].
  - intros a b. repeat apply rd_orelse.
    + eapply rd_two; [apply rd_adigit; lia|apply rd_adigit; lia|cbn beta; lia].
    + eapply rd_two; [apply rd_adigit; lia|apply rd_udigit|cbn beta; lia].
    + eapply rd_two; [apply rd_adigit; lia|apply rd_adigit; lia|cbn beta; lia].
    + destruct (a =? 32)%N; [|discriminate]. eapply rd_weaken; [apply rd_adigit; lia|cbn beta; lia].
Qed.
Lemma field_H_spec f : rd (field_H f) (fun v => field_shape f /\ 0 <= v <= 23).
Proof.
  apply field_spec.
  - intros a. eapply rd_weaken; [apply rd_udigit|cbn beta; lia].
  - intros a b. apply rd_orelse; eapply rd_two; [apply rd_adigit; lia|apply rd_adigit; lia|cbn beta; lia|apply rd_adigit; lia|apply rd_udigit|cbn beta; lia].
Qed.
Lemma field_M_spec f : rd (field_M f) (fun v => field_shape f /\ 0 <= v <= 59).
Proof.
  apply field_spec.
  - intros a. eapply rd_weaken; [apply rd_udigit|cbn beta; lia].
  - intros a b. eapply rd_two; [apply rd_adigit; lia|apply rd_udigit|cbn beta; lia].
Qed.
Lemma field_S_spec f : rd (field_S f) (fun v => field_shape f /\ 0 <= v <= 61).
Proof.
  apply field_spec.
  - intros a. eapply rd_weaken; [apply rd_udigit|cbn beta; lia].
  - intros a b. apply rd_orelse; eapply rd_two; [apply rd_adigit; lia|apply rd_adigit; lia|cbn beta; lia|apply rd_adigit; lia|apply rd_udigit|cbn beta; lia].
Qed.

Lemma take_field_app sep f c r : field_shape f -> (forall b, is_udigit b = true -> sep b = false) -> sep c = true ->
  take_field sep (f ++ c :: r) = Some (f, r).
Proof.
  intros [[a ->]|(a & b & -> & U)] Hs Hc; cbn [app take_field].
  - rewrite Hc. reflexivity.
  - rewrite (Hs b U), Hc. reflexivity.
Qed.
Lemma take_field_inv sep s f r : take_field sep s = Some (f, r) -> exists c, s = f ++ c :: r /\ sep c = true.
Proof.
  destruct s as [|a [|b r0]]; try discriminate. cbn [take_field]. destruct (sep b) eqn:Eb.
  - intros H. injection H as <- <-. exists b. split; [reflexivity|exact Eb].
  - destruct r0 as [|c r']; [discriminate|]. destruct (sep c) eqn:Ec; [|discriminate].
    intros H. injection H as <- <-. exists c. split; [reflexivity|exact Ec].
Qed.

(* the parser, one equation: the text is year - month - day T hour : minute : second Z, each field cut at its separator *)
Lemma strptime_iso_fields y1 y2 y3 y4 r1 y fm r2 fd r3 fH r4 fM r5 fS mo d h mi s :
  field_Y y1 y2 y3 y4 = Some y ->
  take_field is_dash r1 = Some (fm, r2) -> take_field is_T r2 = Some (fd, r3) -> take_field is_colon r3 = Some (fH, r4) ->
  take_field is_colon r4 = Some (fM, r5) -> take_field is_Z r5 = Some (fS, []) ->
  field_m fm = Some mo -> field_d fd = Some d -> field_H fH = Some h -> field_M fM = Some mi -> field_S fS = Some s ->
  strptime_iso (y1 :: y2 :: y3 :: y4 :: c_dash :: r1) =
    if (y <? 1) || (days_in_month y mo <? d) then None else Some (mk_parsed y mo d h mi s).
Proof.
  intros HY T1 T2 T3 T4 T5 F1 F2 F3 F4 F5. unfold strptime_iso. rewrite HY. cbn [is_dash c_dash N.eqb Pos.eqb negb].
  rewrite T1, T2, T3, T4, T5, F1, F2, F3, F4, F5. reflexivity.
Qed.

(* the texts strptime reads: year(4 digits) - month - day T hour : minute : second Z, with the fields as field_* read them *)
Definition iso_text (y1 y2 y3 y4 : N) (fm fd : str) (cT : N) (fH fM fS : str) (cZ : N) : str :=
  [y1; y2; y3; y4] ++ [c_dash] ++ fm ++ [c_dash] ++ fd ++ [cT] ++ fH ++ [c_colon] ++ fM ++ [c_colon] ++ fS ++ [cZ].

Theorem strptime_iso_characterised s c :
  strptime_iso s = Some c <->
  exists y1 y2 y3 y4 fm fd cT fH fM fS cZ y mo d h mi sec,
    s = iso_text y1 y2 y3 y4 fm fd cT fH fM fS cZ /\ is_T cT = true /\ is_Z cZ = true /\
    field_Y y1 y2 y3 y4 = Some y /\ field_m fm = Some mo /\ field_d fd = Some d /\
    field_H fH = Some h /\ field_M fM = Some mi /\ field_S fS = Some sec /\
    1 <= y /\ d <= days_in_month y mo /\ c = mk_parsed y mo d h mi sec.
Proof.
  split.
  - unfold strptime_iso. destruct s as [|y1 [|y2 [|y3 [|y4 [|sep1 r1]]]]]; try discriminate.
    destruct (field_Y y1 y2 y3 y4) as [y|] eqn:HY; [|discriminate].
    destruct (is_dash sep1) eqn:D1; [|discriminate]. cbn [negb].
    destruct (take_field is_dash r1) as [[fm r2]|] eqn:T1; [|discriminate].
    destruct (take_field is_T r2) as [[fd r3]|] eqn:T2; [|discriminate].
    destruct (take_field is_colon r3) as [[fH r4]|] eqn:T3; [|discriminate].
    destruct (take_field is_colon r4) as [[fM r5]|] eqn:T4; [|discriminate].
    destruct (take_field is_Z r5) as [[fS r6]|] eqn:T5; [|discriminate].
    destruct r6 as [|? ?]; [|discriminate].
    destruct (field_m fm) as [mo|] eqn:F1; [|discriminate]. destruct (field_d fd) as [d|] eqn:F2; [|discriminate].
    destruct (field_H fH) as [h|] eqn:F3; [|discriminate]. destruct (field_M fM) as [mi|] eqn:F4; [|discriminate].
    destruct (field_S fS) as [sec|] eqn:F5; [|discriminate].
    destruct (Z.ltb_spec y 1) as [L|L]; [discriminate|]. destruct (Z.ltb_spec (days_in_month y mo) d) as [L2|L2]; [discriminate|].
    cbn [orb]. intros H. injection H as <-.
    apply N.eqb_eq in D1. subst sep1.
    destruct (take_field_inv _ _ _ _ T1) as (c1 & -> & S1). destruct (take_field_inv _ _ _ _ T2) as (c2 & -> & S2).
    destruct (take_field_inv _ _ _ _ T3) as (c3 & -> & S3). destruct (take_field_inv _ _ _ _ T4) as (c4 & -> & S4).
    destruct (take_field_inv _ _ _ _ T5) as (c5 & -> & S5).
    apply N.eqb_eq in S1, S3, S4. subst c1 c3 c4.
    exists y1, y2, y3, y4, fm, fd, c2, fH, fM, fS, c5, y, mo, d, h, mi, sec. repeat split; try assumption; lia.
  - intros (y1 & y2 & y3 & y4 & fm & fd & cT & fH & fM & fS & cZ & y & mo & d & h & mi & sec & -> & HT & HZ & HY & F1 & F2 & F3 & F4 & F5 & Ly & Ld & ->).
    unfold iso_text. cbn [app].
    erewrite (strptime_iso_fields _ _ _ _ _ y fm _ fd _ fH _ fM _ fS mo d h mi sec); try eassumption.
    + destruct (Z.ltb_spec y 1); [lia|]. destruct (Z.ltb_spec (days_in_month y mo) d); [lia|]. reflexivity.
    + apply take_field_app; [exact (proj1 (field_m_spec _ _ F1))|intros b U; apply (digit_no_sep b U)|reflexivity].
    + apply take_field_app; [exact (proj1 (field_d_spec _ _ F2))|intros b U; apply (digit_no_sep b U)|exact HT].
    + apply take_field_app; [exact (proj1 (field_H_spec _ _ F3))|intros b U; apply (digit_no_sep b U)|reflexivity].
    + apply take_field_app; [exact (proj1 (field_M_spec _ _ F4))|intros b U; apply (digit_no_sep b U)|reflexivity].
    + apply take_field_app; [exact (proj1 (field_S_spec _ _ F5))|intros b U; apply (digit_no_sep b U)|exact HZ].
Qed.

Theorem strptime_iso_ranges s c : strptime_iso s = Some c ->
  1 <= tm_year c <= 9999 /\ valid_date (tm_year c) (tm_mon c) (tm_mday c) /\
  0 <= tm_hour c <= 23 /\ 0 <= tm_min c <= 59 /\ 0 <= tm_sec c <= 61 /\ tm_isdst c = -1.
Proof.
  intros H. apply strptime_iso_characterised in H.
  destruct H as (y1 & y2 & y3 & y4 & fm & fd & cT & fH & fM & fS & cZ & y & mo & d & h & mi & sec & _ & _ & _ & HY & F1 & F2 & F3 & F4 & F5 & Ly & Ld & ->).
  cbn [mk_parsed tm_year tm_mon tm_mday tm_hour tm_min tm_sec tm_isdst].
  apply field_m_spec in F1. apply field_d_spec in F2. apply field_H_spec in F3. apply field_M_spec in F4. apply field_S_spec in F5.
  cbn beta in *. unfold field_Y in HY.
  destruct (udigit y1) as [a|] eqn:A; [|discriminate]. destruct (udigit y2) as [b|] eqn:B; [|discriminate].
  destruct (udigit y3) as [c'|] eqn:C; [|discriminate]. destruct (udigit y4) as [d'|] eqn:D; [|discriminate].
  apply udigit_range in A, B, C, D. assert (y = 1000 * a + 100 * b + 10 * c' + d') as -> by congruence.
  unfold valid_date. repeat split; lia.
Qed.

(* what strftime writes is read back (4-digit years: this platform's %Y does not pad) *)
Lemma strptime_strftime c : valid8 c -> 1000 <= tm_year c <= 9999 ->
  strptime_iso (strftime_iso c) = Some (mk_parsed (tm_year c) (tm_mon c) (tm_mday c) (tm_hour c) (tm_min c) (tm_sec c)).
Proof.
  intros ((Vm & Vd) & Vh & Vmi & Vs & _) Vy. pose proof (dim_pos (tm_year c) _ Vm) as Dm.
  apply strptime_iso_characterised. do 11 eexists. exists (tm_year c), (tm_mon c), (tm_mday c), (tm_hour c), (tm_min c), (tm_sec c).
  split.
  { unfold strftime_iso, year_text.
    destruct (Z.ltb_spec (tm_year c) 10); [lia|]. destruct (Z.ltb_spec (tm_year c) 100); [lia|]. destruct (Z.ltb_spec (tm_year c) 1000); [lia|].
    reflexivity. }
  split; [reflexivity|]. split; [reflexivity|].
  split; [unfold field_Y; rewrite !dchar_digit by (Z.to_euclidean_division_equations; lia); f_equal; Z.to_euclidean_division_equations; lia|].
  split; [apply (reads_range field_m 1 12); [reflexivity|lia]|]. split; [apply (reads_range field_d 1 31); [reflexivity|lia]|].
  split; [apply (reads_range field_H 0 24); [reflexivity|lia]|]. split; [apply (reads_range field_M 0 60); [reflexivity|lia]|].
  split; [apply (reads_range field_S 0 62); [reflexivity|lia]|]. repeat split; lia.
Qed.

(* [unfold] first: left to itself the conversion test unfolds the arithmetic of timegm6 *)
Lemma timegm_parsed_fields c :
  timegm (mk_parsed (tm_year c) (tm_mon c) (tm_mday c) (tm_hour c) (tm_min c) (tm_sec c)) = timegm c.
Proof. unfold timegm. reflexivity. Qed.

Theorem str_to_time_strftime c : valid_tm c -> 1000 <= tm_year c <= 9999 -> str_to_time (strftime_iso c) = Ok (Some c).
Proof.
  intros V Y. pose proof (strptime_strftime c (proj1 V) Y) as P. unfold str_to_time.
  destruct (strftime_iso c) as [|x r]; [discriminate P|]. rewrite P, timegm_parsed_fields, (gmtime_timegm c V). reflexivity.
Qed.

Theorem instant_round_trip t : 1000 <= tm_year (gmtime t) <= 9999 -> str_to_time (instant_of t) = Ok (Some (gmtime t)).
Proof. intros Y. apply str_to_time_strftime; [apply gmtime_valid|exact Y]. Qed.

(* the year of gmtime t, from the instant: 1000-01-01T00:00:00Z = -30610224000, 9999-12-31T23:59:59Z = 253402300799 *)
Lemma gmtime_year_range t : -30610224000 <= t <= 253402300799 -> 1000 <= tm_year (gmtime t) <= 9999.
Proof.
  intros H. destruct (gmtime_fields t) as (V & E & _). set (c := gmtime t) in *.
  assert (ordinal 1000 1 1 <= ordinal (tm_year c) (tm_mon c) (tm_mday c) <= ordinal 9999 12 31) as R.
  { rewrite E. change (ordinal 1000 1 1) with 364878. change (ordinal 9999 12 31) with 3652059. unfold EPOCH_ORD.
    Z.to_euclidean_division_equations. lia. }
  assert (valid_date 1000 1 1) as V1 by (unfold valid_date; cbn; lia).
  assert (valid_date 9999 12 31) as V2 by (unfold valid_date; cbn; lia).
  pose proof (ordinal_lt _ _ _ _ _ _ V V1). pose proof (ordinal_lt _ _ _ _ _ _ V2 V). lia.
Qed.

Lemma str_to_time_inv s o : str_to_time s = Ok o ->
  match o with
  | None => s = []
  | Some c => exists p, c = gmtime (timegm p) /\
      (strptime_iso s = Some p \/ (strptime_iso s = None /\ exists g, fragment_group s = Some g /\ strptime_iso (g ++ [c_Z]) = Some p))
  end.
Proof.
  unfold str_to_time. destruct s as [|x r]; [intros H; injection H as <-; reflexivity|].
  destruct (strptime_iso (x :: r)) as [p|] eqn:P.
  - intros H. injection H as <-. exists p. split; [reflexivity|left; reflexivity].
  - destruct (fragment_group (x :: r)) as [g|]; [|discriminate].
    destruct (strptime_iso (g ++ [c_Z])) as [p|] eqn:P2; [|discriminate]. intros H. injection H as <-.
    exists p. split; [reflexivity|]. right. split; [reflexivity|]. exists g. split; [reflexivity|exact P2].
Qed.

(* an accepted text denotes exactly one instant, computed from the fields read; and str_to_time returns the normalised tuple of it *)
Theorem str_to_time_denotes s c : str_to_time s = Ok (Some c) ->
  valid_tm c /\ c = gmtime (timegm c) /\
  ((exists p, strptime_iso s = Some p /\ timegm c = timegm p) \/
   (strptime_iso s = None /\ exists g p, fragment_group s = Some g /\ strptime_iso (g ++ [c_Z]) = Some p /\ timegm c = timegm p)).
Proof.
  intros H. destruct (str_to_time_inv _ _ H) as (p & -> & D). rewrite timegm_gmtime.
  split; [apply gmtime_valid|]. split; [reflexivity|]. destruct D as [P|(P & g & G & P2)].
  - left. exists p. split; [exact P|reflexivity].
  - right. split; [exact P|]. exists g, p. split; [exact G|]. split; [exact P2|reflexivity].
Qed.
Lemma str_to_time_valid s c : str_to_time s = Ok (Some c) -> valid_tm c.
Proof. intros H. exact (proj1 (str_to_time_denotes s c H)). Qed.
(* with falsy_text: the branch `Ok None => Err TypeError` of before is not reached *)
Lemma str_to_time_nonempty s : s <> [] -> str_to_time s <> Ok None.
Proof. intros NE H. exact (NE (str_to_time_inv s None H)). Qed.
Lemma falsy_text s : falsy (AText s) = false -> s <> [].
Proof. destruct s; discriminate. Qed.

Theorem before_text now s c : str_to_time s = Ok (Some c) -> before now (AText s) = Ok (now <=? timegm c).
Proof.
  intros H. pose proof (str_to_time_valid s c H) as V. unfold before.
  destruct s as [|x r]; [discriminate|]. cbn [falsy]. rewrite H.
  rewrite (tuple_leb_instant _ _ (gmtime_valid now) V), timegm_gmtime. reflexivity.
Qed.
Theorem after_text now s c : str_to_time s = Ok (Some c) -> after now (AText s) = Ok (negb (now <=? timegm c)).
Proof.
  intros H. unfold after. rewrite (before_text now s c H). destruct s as [|x r]; [discriminate|]. reflexivity.
Qed.
Theorem later_than_text a b ca cb : str_to_time a = Ok (Some ca) -> str_to_time b = Ok (Some cb) ->
  later_than (AText a) (AText b) = Ok (timegm ca >=? timegm cb).
Proof.
  intros Ha Hb. unfold later_than, convert. rewrite Ha, Hb.
  rewrite (tuple_geb_instant _ _ (str_to_time_valid _ _ Ha) (str_to_time_valid _ _ Hb)). reflexivity.
Qed.
Theorem before_int now z : z <> 0 -> before now (AInt z) = Ok (now <=? z) /\ after now (AInt z) = Ok (negb (now <=? z)).
Proof.
  intros NZ. unfold after, before. destruct z; [congruence| |]; cbn [falsy];
  rewrite (tuple_leb_instant _ _ (gmtime_valid now) (gmtime_valid _)), !timegm_gmtime; split; reflexivity.
Qed.
Theorem issue_window_text now slack s c : str_to_time s = Ok (Some c) ->
  issue_window now slack c = (now - 86400 - slack <=? timegm c) && (timegm c <? now + 86400 + slack).
Proof.
  intros H. pose proof (str_to_time_valid s c H) as V. unfold issue_window.
  rewrite (timetuple_ltb_l _ _ V), (timetuple_ltb_r _ _ V). reflexivity.
Qed.

Theorem same_instant_same_verdict now s1 s2 c1 c2 other :
  str_to_time s1 = Ok (Some c1) -> str_to_time s2 = Ok (Some c2) -> timegm c1 = timegm c2 ->
  c1 = c2 /\ before now (AText s1) = before now (AText s2) /\ after now (AText s1) = after now (AText s2) /\
  later_than (AText s1) other = later_than (AText s2) other /\ later_than other (AText s1) = later_than other (AText s2).
Proof.
  intros H1 H2 E.
  assert (c1 = c2) as <-.
  { rewrite <- (gmtime_timegm c1 (str_to_time_valid _ _ H1)), <- (gmtime_timegm c2 (str_to_time_valid _ _ H2)), E. reflexivity. }
  split; [reflexivity|]. rewrite (before_text now s1 c1 H1), (before_text now s2 c1 H2), (after_text now s1 c1 H1), (after_text now s2 c1 H2).
  repeat split; unfold later_than; cbn [convert]; rewrite H1, H2; reflexivity.
Qed.
