(* Proofs/PickBinding_bindstr.v — binding strings (and entity ids) that contain
   each other: a proper super-/sub-string is a different string for str_eqb,
   the answered binding is one of the admitted bindings, and an issuer whose
   endpoints are registered only under bindings that contain / are contained in
   the admitted ones is refused. *)
From PV Require Import Lib.Base Model.PickBinding Proofs.PickBinding_lemmas.
Open Scope N_scope.

(* x occurs inside y with a non-empty prefix or suffix around it *)
Definition proper_sub (x y : str) : Prop :=
  exists p s, y = p ++ x ++ s /\ (p <> [] \/ s <> []).
(* one of the two strings properly contains the other *)
Definition contain_each_other (x y : str) : Prop := proper_sub x y \/ proper_sub y x.

Lemma proper_sub_length x y : proper_sub x y -> (List.length x < List.length y)%nat.
Proof.
  intros (p & s & -> & Hps). rewrite !app_length.
  destruct Hps as [Hp|Hs].
  - destruct p; [congruence|]. cbn [List.length]. lia.
  - destruct s; [congruence|]. cbn [List.length]. lia.
Qed.

Lemma contain_each_other_neq x y : contain_each_other x y -> x <> y.
Proof. intros [H|H] ->; apply proper_sub_length in H; lia. Qed.

Lemma contain_each_other_irrefl x : ~ contain_each_other x x.
Proof. intros H. exact (contain_each_other_neq _ _ H eq_refl). Qed.

(* appending or prepending a non-empty string gives a proper containment *)
Lemma proper_sub_suffix x s : s <> [] -> proper_sub x (x ++ s).
Proof. intros Hs. exists [], s. split; [reflexivity|right; exact Hs]. Qed.
Lemma proper_sub_prefix p x : p <> [] -> proper_sub x (p ++ x).
Proof. intros Hp. exists p, []. rewrite app_nil_r. split; [reflexivity|left; exact Hp]. Qed.

Lemma response_args_admitted both c md r bindings dt b d :
  response_args_with both c md r bindings dt = Ok (Some (b, d)) -> ~ soap_only bindings ->
  exists s bl, kind_service (rq_kind r) = Some s /\ binding_list c s bindings (Some r) = Ok bl /\ In b bl.
Proof.
  intros H Hns.
  destruct (response_args_ok _ _ _ _ _ _ _ _ H) as [[Hs _]|[_ (s & _ & bl & Hk & _ & Hbl & Hin & _)]]; [contradiction|].
  exists s, bl. repeat split; assumption.
Qed.

(* the issuer's endpoints are registered only under bindings that are unequal
   to every admitted binding: refused *)
Lemma response_args_no_equal_binding both c md r bindings dt s eid bl :
  kind_service (rq_kind r) = Some s -> request_entity r = Ok eid -> ~ soap_only bindings ->
  binding_list c s bindings (Some r) = Ok bl ->
  (forall b loc, registered md eid (kind_role c (rq_kind r) dt) s b loc -> ~ In b bl) ->
  exists e, response_args_with both c md r bindings dt = Err e.
Proof.
  intros Hk He Hns Hbl Hno. apply (response_args_refused both c md r bindings dt s Hns Hk).
  intros eid' bl' b d He' Hbl' (Hin & sv & Hreg & Hb & Hl & _).
  rewrite He in He'. injection He' as <-. rewrite Hbl in Hbl'. injection Hbl' as <-.
  apply (Hno b d); [|exact Hin]. exists sv. repeat split; assumption.
Qed.

Lemma response_args_contained_binding_refused both c md r bindings dt s eid bl :
  kind_service (rq_kind r) = Some s -> request_entity r = Ok eid -> ~ soap_only bindings ->
  binding_list c s bindings (Some r) = Ok bl ->
  (forall b loc, registered md eid (kind_role c (rq_kind r) dt) s b loc ->
                 forall x, In x bl -> contain_each_other b x) ->
  exists e, response_args_with both c md r bindings dt = Err e.
Proof.
  intros Hk He Hns Hbl Hrel.
  apply (response_args_no_equal_binding both c md r bindings dt s eid bl Hk He Hns Hbl).
  intros b loc Hreg Hin. exact (contain_each_other_irrefl b (Hrel b loc Hreg b Hin)).
Qed.

(* every entity id in the store contains / is contained in the stripped issuer
   without being equal to it (trailing slash, prefix, ...): refused *)
Lemma response_args_contained_entity_refused both c md r bindings dt s eid :
  ~ soap_only bindings -> kind_service (rq_kind r) = Some s -> request_entity r = Ok eid ->
  (forall src e, In src md -> In e src -> contain_each_other (en_id e) eid) ->
  exists e, response_args_with both c md r bindings dt = Err e.
Proof.
  intros Hns Hk He Hrel.
  apply (response_args_unknown both c md r bindings dt s Hns Hk).
  intros eid' He' src e descs H1 H2 H3 _.
  assert (Heq : en_id e = eid) by congruence.
  pose proof (Hrel src e H1 H2) as Hc. rewrite Heq in Hc.
  exact (contain_each_other_irrefl _ Hc).
Qed.
