(* Proofs/Glue_time.v — GLUE: the time tests, stated once.

     time_util.before / valid / not_on_or_after  (now <= point)      Model/MdStore.v valid, Model/Cache.v t_before / t_after
     validate.validate_on_or_after / validate_before (with slack)     Model/Response.v (C04, C05, C17)
     issue_instant_ok (one day either side, with slack)               Model/Response.v (C04) and Model/Request.v (C10)

   [not_past now p] and [day_window now slack t] are the two arithmetic facts; every copy is one of them.  The copies
   of Model/MdStore.v and Model/Cache.v are so by computation: they are stated in Props/Glue.v (G4), which uses the
   module names MS and CA given here. *)
From PV Require Import Lib.Base.
From PV Require Model.Status Model.Response Model.Request Model.Cache Model.MdStore.
Module RS := PV.Model.Response.
Module RQ := PV.Model.Request.
Module CA := PV.Model.Cache.
Module MS := PV.Model.MdStore.
Open Scope Z_scope.

(* time_util.before(point) for a point that is present: the point has not passed *)
Definition not_past (now p : Z) : bool := now <=? p.
(* issue_instant_ok: lower <= t < upper, one day and the allowance either side of now *)
Definition day_window (now slack t : Z) : bool := (now - 86400 - slack <=? t) && (t <? now + 86400 + slack).

Lemma not_past_spec now p : not_past now p = true <-> now <= p.
Proof. apply Z.leb_le. Qed.
Lemma day_window_spec now slack t : day_window now slack t = true <-> now - 86400 - slack <= t < now + 86400 + slack.
Proof. unfold day_window. rewrite andb_true_iff, Z.leb_le, Z.ltb_lt. tauto. Qed.

(* a larger allowance only widens the window; the window is never empty for a non-negative allowance *)
Lemma day_window_mono now s1 s2 t : s1 <= s2 -> day_window now s1 t = true -> day_window now s2 t = true.
Proof. rewrite !day_window_spec. lia. Qed.
Lemma day_window_now now slack : 0 <= slack -> day_window now slack now = true.
Proof. rewrite day_window_spec. lia. Qed.

(* validate_on_or_after(not_on_or_after, slack) raises unless now <= nooa + slack; validate_before(not_before, slack)
   raises unless not_before <= now + slack *)
Theorem response_lifetime_tests_are_not_past c t :
  is_ok (RS.validate_on_or_after c (Some t)) = not_past (RS.now c) (t + RS.slack c) /\
  is_ok (RS.validate_before c (Some t)) = not_past t (RS.now c + RS.slack c).
Proof.
  unfold RS.validate_on_or_after, RS.validate_before, not_past.
  rewrite !Z.gtb_ltb, !Z.leb_antisym. split; now destruct (_ <? _).
Qed.

Theorem issue_instant_same cs cq t :
  RS.now cs = RQ.c_now cq -> RS.slack cs = RQ.c_slack cq -> RS.issue_instant_ok cs t = RQ.issue_instant_ok cq t.
Proof. intros Hn Hs. unfold RS.issue_instant_ok, RQ.issue_instant_ok. now rewrite Hn, Hs. Qed.

Theorem request_in_window_is_day_window c t : RQ.in_window c t <-> day_window (RQ.c_now c) (RQ.c_slack c) t = true.
Proof. unfold RQ.in_window. now rewrite day_window_spec. Qed.

(* C04 next to C19: an assertion whose NotOnOrAfter has not passed is accepted by validate_on_or_after, whatever the
   (non-negative) allowance - inside the allowance the two differ, Glue_accepted_inside_allowance_is_expired_in_cache *)
Theorem accepted_before_expiry_is_live_in_cache c nooa :
  RS.now c <= nooa -> is_ok (RS.validate_on_or_after c (Some nooa)) = true \/ RS.slack c < 0.
Proof.
  intros H. destruct (Z.ltb_spec (RS.slack c) 0) as [Hs|Hs]; [now right|left].
  destruct (response_lifetime_tests_are_not_past c nooa) as [-> _]. apply not_past_spec. lia.
Qed.
