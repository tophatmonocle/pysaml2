(* C02 on document trees with encrypted advice: a present-but-invalid signature of an advice assertion is never
   ignored.  About Model.Encrypt.parse_t / parse_response_t (the model shared with C17), via Model.AdviceSig. *)
From PV Require Import Lib.Base Model.Status Model.Response Model.Encrypt Model.AdviceSig
     Proofs.Response_lemmas Proofs.EncryptSP_lemmas Proofs.EncryptTree_lemmas.

Lemma sig_bad_false_iff v : sig_bad v = false <-> view_not_bad v.
Proof.
  unfold sig_bad, view_not_bad. destruct (sig_now v) as [[u|e]|]; split.
  - intros _ e0 K. discriminate.
  - reflexivity.
  - discriminate.
  - intros H. exfalso. now apply (H e).
  - intros _ e0 K. discriminate.
  - reflexivity.
Qed.

Lemma advice_pass_ok : forall l, advice_pass l = Ok tt -> Forall view_not_bad (flat_map advice_views l).
Proof.
  induction l as [|v l IH]; cbn [advice_pass flat_map]; intros H; [constructor|].
  destruct (verify_views (advice_views v)) as [[]|] eqn:EV; [|discriminate].
  apply Forall_app. split; [now apply verify_views_ok|now apply IH].
Qed.

Lemma advice_pass_bad : forall l, Exists (fun v => sig_bad v = true) (flat_map advice_views l) -> exists e, advice_pass l = Err e.
Proof.
  intros l HX. destruct (advice_pass l) as [[]|e] eqn:AP; [|now exists e].
  apply advice_pass_ok in AP. apply Exists_exists in HX as (v & Hin & Hb).
  rewrite Forall_forall in AP. apply AP in Hin. apply sig_bad_false_iff in Hin. congruence.
Qed.

(* the stage: for every requirement flag, state, retry state and fault schedule *)
Lemma parse_t_advice tc c irt req s root again fs s' :
  so_res (parse_t tc c irt req s root again fs) = Ok s' -> find_encrypt_data root = true ->
  exists t2, decrypted tc root fs = Some t2 /\ Forall (fun v => sig_bad v = false) (advice_read t2).
Proof.
  unfold parse_t, decrypted, advice_read. cbv zeta. intros H FE. rewrite FE in H. cbn [negb] in H.
  destruct (negb ((List.length (asrts root) =? 1)%nat || (List.length (eas root) =? 1)%nat || again)); [discriminate|].
  destruct (check_assertions c irt req false false s (map as_checked (asrts root))) as [s1|]; [|discriminate].
  destruct (dec_loop (fuel_for (reserialize root) fs) find_encrypt_data (t_keys tc) (t_pol tc) fs (reserialize root)) as [[t1 fs1]|];
    [|discriminate].
  destruct (verify_views (ea_asrts t1)) as [[]|]; [|discriminate].
  destruct (dec_loop (fuel_for t1 fs1) cond2 (t_keys tc) (t_pol tc) fs1 t1) as [[t2 fs2]|]; [|discriminate].
  destruct (t_fixed tc && negb (nlist_eqb (ids_of (ea_asrts t2)) (ids_of (ea_asrts t1)) && nlist_eqb (ids_of (asrts t2)) (ids_of (asrts root))));
    [discriminate|].
  destruct (advice_pass (ea_asrts t2 ++ asrts t2)) as [[]|] eqn:AP; [|discriminate].
  exists t2. split; [reflexivity|].
  apply advice_pass_ok in AP. rewrite Forall_forall in *. intros v Hv. apply sig_bad_false_iff. now apply AP.
Qed.

(* contrapositive: a bad advice signature in the decrypted text stops the stage, whatever is required *)
Lemma parse_t_bad_advice_refused tc c irt req s root again fs t2 :
  find_encrypt_data root = true -> decrypted tc root fs = Some t2 ->
  Exists (fun v => sig_bad v = true) (advice_read t2) ->
  exists e, so_res (parse_t tc c irt req s root again fs) = Err e.
Proof.
  intros FE D HX. destruct (so_res (parse_t tc c irt req s root again fs)) as [s'|e] eqn:R; [|now exists e].
  destruct (parse_t_advice _ _ _ _ _ _ _ _ _ R FE) as (t2' & D' & F). rewrite D in D'. injection D' as <-.
  apply Exists_exists in HX as (v & Hin & Hb). rewrite Forall_forall in F. apply F in Hin. congruence.
Qed.

Lemma stage_t_advice tc c irt req s fs root again s' x' :
  stage_t tc c irt req s (fs, root, again) = (Ok s', x') -> find_encrypt_data root = true ->
  exists t2, decrypted tc root fs = Some t2 /\ Forall (fun v => sig_bad v = false) (advice_read t2).
Proof. unfold stage_t. intros H. injection H as H _. exact (parse_t_advice _ _ _ _ _ _ _ _ _ H). Qed.
