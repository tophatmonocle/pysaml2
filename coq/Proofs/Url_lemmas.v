(* Proofs/Url_lemmas.v — urllib percent-encoding: per-byte facts about quote_byte (finite checks over 0..255), the
   round trip and output alphabet of any byte-wise encoder, split / join, and name=value&... queries over any such
   encoder (Section Encoder), of which urlencode / parse_qsl are the instance at quote_plus. *)
From PV Require Import Lib.Base Model.Codec Proofs.Base64_lemmas.
Open Scope N_scope.

Lemma forallb_join_with (P : N -> bool) sep parts :
  P sep = true -> Forall (fun p => forallb P p = true) parts -> forallb P (join_with sep parts) = true.
Proof.
  intros Hs. induction 1 as [|p ps Hp _ IH]; [reflexivity|]. cbn [join_with]. destruct ps as [|p' ps]; [exact Hp|].
  rewrite forallb_app. cbn [forallb]. now rewrite Hp, Hs, IH.
Qed.


(* per-byte facts by finite check over 0..255 *)
Definition qb_ok (plus : bool) (b : N) : bool :=
  match quote_byte plus b with
  | [c] => negb (c =? PCT) && (if plus && (c =? PLUS) then b =? SPACE else c =? b)
  | [p; h; l] => (p =? PCT) && match hexval h, hexval l with Some x, Some y => (x * 16 + y =? b) | _, _ => false end
  | _ => false
  end.
Lemma qb_all : forallb (qb_ok true) (upto 256) && forallb (qb_ok false) (upto 256) = true.
Proof. vm_compute. reflexivity. Qed.
Lemma qb plus b : byte b -> qb_ok plus b = true.
Proof.
  intros H. pose proof qb_all as A. apply andb_true_iff in A as [A1 A2].
  rewrite forallb_forall in A1, A2. destruct plus; [apply A1|apply A2]; apply upto_In; exact H.
Qed.

Lemma unquote_quote_byte plus b rest : byte b ->
  unquote_gen plus (quote_byte plus b ++ rest) = b :: unquote_gen plus rest.
Proof.
  intros H. pose proof (qb plus b H) as Q. unfold qb_ok in Q.
  destruct (quote_byte plus b) as [|c [|h [|l [|? ?]]]] eqn:E; try discriminate.
  - apply andb_true_iff in Q as [Q1 Q2]. cbn [app unquote_gen].
    destruct (c =? PCT); [discriminate|].
    destruct (plus && (c =? PLUS)).
    + apply N.eqb_eq in Q2. now subst b.
    + apply N.eqb_eq in Q2. now subst c.
  - apply andb_true_iff in Q as [Q1 Q2]. cbn [app unquote_gen]. rewrite Q1.
    destruct (hexval h) as [x|]; [|discriminate]. destruct (hexval l) as [y|]; [|discriminate].
    apply N.eqb_eq in Q2. now rewrite Q2.
Qed.

(* a byte-wise encoder whose every spelling decodes to its byte is inverted by unquote *)
Lemma unquote_flat_map (Q : N -> Prop) plus (f : N -> str) bs :
  (forall b rest, Q b -> unquote_gen plus (f b ++ rest) = b :: unquote_gen plus rest) ->
  Forall Q bs -> unquote_gen plus (flat_map f bs) = bs.
Proof.
  intros Hf. induction 1 as [|b bs Hb _ IH]; [reflexivity|]. cbn [flat_map]. now rewrite (Hf b _ Hb), IH.
Qed.

Theorem unquote_quote_gen plus bs : Forall byte bs -> unquote_gen plus (flat_map (quote_byte plus) bs) = bs.
Proof. apply unquote_flat_map. intros b rest. apply unquote_quote_byte. Qed.

Corollary quote_plus_roundtrip bs : Forall byte bs -> unquote_plus (quote_plus bs) = bs.
Proof. exact (unquote_quote_gen true bs). Qed.

Definition url_safe (c : N) : bool := is_unreserved c || (c =? PCT) || (c =? PLUS).
Lemma qsafe_all : forallb (fun b => forallb url_safe (quote_byte true b) && forallb url_safe (quote_byte false b)) (upto 256) = true.
Proof. vm_compute. reflexivity. Qed.
Lemma quote_byte_safe plus b : byte b -> forallb url_safe (quote_byte plus b) = true.
Proof.
  intros H. pose proof qsafe_all as A. rewrite forallb_forall in A. specialize (A b (upto_In 256 b H)).
  apply andb_true_iff in A as [A1 A2]. now destruct plus.
Qed.
Theorem quote_gen_alphabet plus bs : Forall byte bs -> forallb url_safe (flat_map (quote_byte plus) bs) = true.
Proof. apply forallb_flat_map_Forall. apply quote_byte_safe. Qed.

(* a url_safe character is no delimiter of a URL (& = # ? space /), of an HTML attribute (double quote < >) or of ident.code (,) *)
Lemma url_safe_not_special c : url_safe c = true ->
  c <> AMP /\ c <> EQ /\ c <> 35 /\ c <> 63 /\ c <> 32 /\ c <> 34 /\ c <> 60 /\ c <> 62 /\ c <> 47 /\ c <> 44.
Proof. intros H. repeat split; intros ->; discriminate H. Qed.

Lemma split_on_app_nosep sep p s cur :
  forallb (fun c => negb (c =? sep)) p = true -> split_on sep (p ++ s) cur = split_on sep s (rev p ++ cur).
Proof.
  revert cur; induction p as [|c p IH]; intros cur H; [reflexivity|].
  cbn [forallb] in H. apply andb_true_iff in H as [Hc Hp]. cbn [app split_on].
  destruct (c =? sep); [discriminate|]. rewrite (IH _ Hp). cbn [rev]. now rewrite <- app_assoc.
Qed.

Lemma split_on_nosep sep p : forallb (fun c => negb (c =? sep)) p = true -> split_on sep p [] = [p].
Proof.
  intros H. rewrite <- (app_nil_r p) at 1. rewrite (split_on_app_nosep sep p [] [] H).
  cbn [split_on]. now rewrite app_nil_r, rev_involutive.
Qed.

Lemma split_join sep parts : parts <> [] ->
  Forall (fun p => forallb (fun c => negb (c =? sep)) p = true) parts ->
  split_on sep (join_with sep parts) [] = parts.
Proof.
  intros Hne H. induction H as [|p parts Hp Hrest IH]; [congruence|].
  destruct parts as [|q parts].
  - cbn [join_with]. now apply split_on_nosep.
  - cbn [join_with] in *. rewrite (split_on_app_nosep sep p _ [] Hp). cbn [split_on]. rewrite N.eqb_refl.
    rewrite app_nil_r, rev_involutive. f_equal. apply IH. discriminate.
Qed.

Lemma split_first_app_nosep sep p s cur :
  forallb (fun c => negb (c =? sep)) p = true -> split_first sep (p ++ sep :: s) cur = Some (rev cur ++ p, s).
Proof.
  revert cur; induction p as [|c p IH]; intros cur H.
  - cbn [app split_first]. rewrite N.eqb_refl. now rewrite app_nil_r.
  - cbn [forallb] in H. apply andb_true_iff in H as [Hc Hp]. cbn [app split_first].
    destruct (c =? sep); [discriminate|]. rewrite (IH _ Hp). cbn [rev]. now rewrite <- app_assoc.
Qed.

Definition bytes_pair (kv : list N * list N) : Prop := Forall byte (fst kv) /\ Forall byte (snd kv).

(* parse_qsl never needs its special case: the empty query splits into one field without "=" *)
Lemma parse_qsl_fields q : parse_qsl q = filter_some (map parse_field (split_on AMP q [])).
Proof. destruct q; reflexivity. Qed.

(* name=value&... over ANY byte-string encoder that unquote_plus inverts and whose output is url_safe:
   Codec.quote_plus, and the two quote_plus of Model/Redirect.v *)
Section Encoder.
  Variable q : list N -> str.
  Hypothesis q_roundtrip : forall bs, Forall byte bs -> unquote_plus (q bs) = bs.
  Hypothesis q_safe : forall bs, Forall byte bs -> forallb url_safe (q bs) = true.

  Definition pair_of (kv : list N * list N) : str := q (fst kv) ++ EQ :: q (snd kv).

  Lemma q_no sep bs : url_safe sep = false -> Forall byte bs -> forallb (fun c => negb (c =? sep)) (q bs) = true.
  Proof. intros Hs Hb. apply (forallb_sep url_safe); [exact Hs|now apply q_safe]. Qed.

  Lemma parse_field_pair kv : bytes_pair kv -> parse_field (pair_of kv) = Some kv.
  Proof.
    intros [Hk Hv]. unfold parse_field, pair_of. rewrite split_first_app_nosep by (apply q_no; auto).
    cbn [rev app]. rewrite (q_roundtrip _ Hk), (q_roundtrip _ Hv). now destruct kv.
  Qed.

  Lemma pair_no_amp kv : bytes_pair kv -> forallb (fun c => negb (c =? AMP)) (pair_of kv) = true.
  Proof. intros [Hk Hv]. unfold pair_of. rewrite forallb_app. cbn [forallb]. now rewrite !q_no by auto. Qed.

  Theorem parse_qsl_pairs ps : Forall bytes_pair ps -> parse_qsl (join_with AMP (map pair_of ps)) = ps.
  Proof.
    intros H. rewrite parse_qsl_fields. destruct ps as [|kv0 ps0]; [reflexivity|]. rewrite split_join.
    - induction H as [|kv ps Hkv _ IH]; [reflexivity|]. cbn [map filter_some].
      now rewrite (parse_field_pair kv Hkv), IH.
    - discriminate.
    - rewrite Forall_map. eapply Forall_impl; [|exact H]. exact pair_no_amp.
  Qed.

  Theorem pairs_alphabet ps : Forall bytes_pair ps ->
    forallb (fun c => url_safe c || (c =? AMP) || (c =? EQ)) (join_with AMP (map pair_of ps)) = true.
  Proof.
    intros H. apply forallb_join_with; [reflexivity|]. rewrite Forall_map. eapply Forall_impl; [|exact H].
    intros kv [Hk Hv]. unfold pair_of. rewrite forallb_app. cbn [forallb].
    rewrite !(forallb_impl url_safe) by (auto; intros c Hc; now rewrite Hc). reflexivity.
  Qed.
End Encoder.

(* one name=value field: the step of parse_qsl_urlencode *)
Lemma parse_field_encode kv : bytes_pair kv -> parse_field (encode_pair kv) = Some kv.
Proof. exact (parse_field_pair quote_plus quote_plus_roundtrip (quote_gen_alphabet true) kv). Qed.

Theorem parse_qsl_urlencode ps : Forall bytes_pair ps -> parse_qsl (urlencode ps) = ps.
Proof. exact (parse_qsl_pairs quote_plus quote_plus_roundtrip (quote_gen_alphabet true) ps). Qed.

