(* Proofs/IdpBuildTree_lemmas.v — C08, tree level: the tokenizer on a serialised tree gives its
   token stream, the tree builder on that stream gives the tree back (character data modulo the
   end-of-line rule), whatever the text and attribute values are; the serialised form is XML-legal. *)
From PV Require Import Lib.Base Model.Codec Model.IdpBuild Proofs.IdpBuild_lemmas.
Open Scope N_scope.

Fixpoint xml_ind' (P : xml -> Prop)
         (H : forall tag attrs text kids, Forall P kids -> P (Node tag attrs text kids)) (t : xml) : P t :=
  match t with
  | Node tag attrs text kids =>
      H tag attrs text kids
        ((fix go (l : list xml) : Forall P l :=
            match l with [] => Forall_nil P | k :: r => Forall_cons k (xml_ind' P H k) (go r) end) kids)
  end.

Definition text_tok (text : str) : list token := match text with [] => [] | _ => [TText (norm_eol text)] end.
Fixpoint tokens (t : xml) : list token :=
  match t with
  | Node tag attrs text kids =>
      match text, kids with
      | [], [] => [TEmpty tag attrs]
      | _, _ => TOpen tag attrs :: text_tok text ++ flat_map tokens kids ++ [TClose tag]
      end
  end.

Lemma tsteps_app st a b out :
  tsteps st (a ++ b) out = match tsteps st a out with Some (st', out') => tsteps st' b out' | None => None end.
Proof.
  revert st out. induction a as [|c a IH]; intros st out; [reflexivity|].
  cbn [app tsteps]. destruct (tstep st c out) as [[st' out']|]; [apply IH|reflexivity].
Qed.

(* name characters: letters, digits and _ - . : *)
Lemma name_char_range c : name_char c = true -> 45 <= c <= 122 /\ c <> 47 /\ ~ 59 <= c <= 64.
Proof.
  unfold name_char, is_alpha, is_digit. intros H.
  repeat (apply orb_true_iff in H; destruct H as [H|H]);
    repeat (apply andb_true_iff in H; destruct H as [? H]);
    repeat match goal with
           | X : (_ <=? _) = true |- _ => apply N.leb_le in X
           | X : (_ =? _) = true |- _ => apply N.eqb_eq in X
           end; lia.
Qed.
(* ... so none of the delimiters the tokenizer looks for *)
Lemma name_char_plain c : name_char c = true ->
  (c =? 62) = false /\ (c =? 47) = false /\ is_ws c = false /\ (c =? 61) = false /\ (c =? 34) = false /\ (c =? 60) = false.
Proof.
  intros H. apply name_char_range in H. unfold is_ws.
  repeat split; repeat (apply orb_false_iff; split); apply N.eqb_neq; lia.
Qed.
Lemma name_start_char c : name_start c = true -> name_char c = true.
Proof.
  unfold name_start, name_char. intros H. apply orb_true_iff in H as [H|H]; rewrite H; [reflexivity|].
  now rewrite !orb_true_r.
Qed.

Lemma name_ok_inv s : name_ok s = true -> exists c r, s = c :: r /\ name_start c = true /\ forallb name_char r = true.
Proof.
  destruct s as [|c r]; [discriminate|]. cbn [name_ok]. intros H. apply andb_true_iff in H as [A B]. now exists c, r.
Qed.

Lemma name_ok_snoc buf : forall acc,
  forallb name_char buf = true ->
  name_ok (rev acc) = true -> name_ok (rev (rev buf ++ acc)) = true.
Proof.
  intros acc Hb Ha. rewrite rev_app_distr, rev_involutive.
  apply name_ok_inv in Ha as (c & r & E & S & R). rewrite E. cbn [app name_ok]. rewrite S, forallb_app, R, Hb. reflexivity.
Qed.

(* a state that holds a buffer and only pushes the characters of [rest] onto it *)
Lemma tsteps_run (mk : str -> tstate) (P : N -> bool) (Inv : str -> Prop) :
  (forall c buf out, P c = true -> Inv buf -> tstep (mk buf) c out = Some (mk (c :: buf), out) /\ Inv (c :: buf)) ->
  forall rest buf out, forallb P rest = true -> Inv buf -> tsteps (mk buf) rest out = Some (mk (rev rest ++ buf), out).
Proof.
  intros Step. induction rest as [|c rest IH]; intros buf out H I; [reflexivity|].
  cbn [forallb] in H. apply andb_true_iff in H as [Hc Hr]. destruct (Step c buf out Hc I) as [E I'].
  cbn [tsteps rev]. rewrite E, <- app_assoc. now apply IH.
Qed.

Lemma open_name_run rest buf out : forallb name_char rest = true ->
  tsteps (SOpenName buf) rest out = Some (SOpenName (rev rest ++ buf), out).
Proof.
  intros H. apply (tsteps_run SOpenName name_char (fun _ => True)); [|exact H|exact I].
  intros c b o Hc _. destruct (name_char_plain c Hc) as (E62 & E47 & Ews & _). cbn [tstep]. now rewrite E62, E47, Ews, Hc.
Qed.
Lemma attr_name_run rest tag attrs buf out : forallb name_char rest = true ->
  tsteps (SAttrName tag attrs buf) rest out = Some (SAttrName tag attrs (rev rest ++ buf), out).
Proof.
  intros H. apply (tsteps_run (SAttrName tag attrs) name_char (fun _ => True)); [|exact H|exact I].
  intros c b o Hc _. destruct (name_char_plain c Hc) as (_ & _ & Ews & E61 & _). cbn [tstep]. now rewrite E61, Ews, Hc.
Qed.
Lemma close_name_run rest buf out : forallb name_char rest = true -> buf <> [] ->
  tsteps (SCloseName buf) rest out = Some (SCloseName (rev rest ++ buf), out).
Proof.
  apply (tsteps_run SCloseName name_char (fun b => b <> [])).
  intros c b o Hc Hb. destruct (name_char_plain c Hc) as (E62 & _ & Ews & _). cbn [tstep]. rewrite E62, Ews.
  destruct b; [congruence|]. now rewrite Hc.
Qed.
Lemma attr_val_run v tag attrs name buf out : forallb (fun c => negb (c =? 34)) v = true ->
  tsteps (SAttrVal tag attrs name buf) v out = Some (SAttrVal tag attrs name (rev v ++ buf), out).
Proof.
  intros H. apply (tsteps_run (SAttrVal tag attrs name) (fun c => negb (c =? 34)) (fun _ => True)); [|exact H|exact I].
  intros c b o Hc _. apply negb_true_iff in Hc. cbn [tstep]. now rewrite Hc.
Qed.
Lemma content_run v buf out : forallb (fun c => negb (c =? 60)) v = true ->
  tsteps (SContent buf) v out = Some (SContent (rev v ++ buf), out).
Proof.
  intros H. apply (tsteps_run SContent (fun c => negb (c =? 60)) (fun _ => True)); [|exact H|exact I].
  intros c b o Hc _. apply negb_true_iff in Hc. cbn [tstep]. now rewrite Hc.
Qed.

Lemma escape_attrib_no_quote v : forallb (fun c => negb (c =? 34)) (escape_attrib v) = true.
Proof.
  eapply forallb_impl; [|apply escape_attrib_safe]. cbv beta. intros c H.
  apply negb_true_iff in H. repeat (apply orb_false_iff in H; destruct H as [H ?]). now apply negb_true_iff.
Qed.
Lemma escape_cdata_no_lt v : forallb (fun c => negb (c =? 60)) (escape_cdata v) = true.
Proof.
  eapply forallb_impl; [|apply escape_cdata_safe]. cbv beta. intros c H.
  apply negb_true_iff, orb_false_iff in H. apply negb_true_iff, H.
Qed.

Lemma has_key_false_rev k l : has_key k l = false -> has_key k (rev l) = false.
Proof.
  unfold has_key. intros H. destruct (existsb (fun kv => str_eqb k (fst kv)) (rev l)) eqn:E; [|reflexivity].
  apply existsb_exists in E as (x & Hx & Ex). apply in_rev in Hx.
  assert (existsb (fun kv => str_eqb k (fst kv)) l = true) by (apply existsb_exists; now exists x). congruence.
Qed.

(* one attribute: from "just after the tag name / a value" to "just after its value" *)
Lemma one_attr tag acc kv out :
  name_ok (fst kv) = true -> has_key (fst kv) acc = false ->
  tsteps (SAfterVal tag acc) (ser_attr kv) out = Some (SAfterVal tag (kv :: acc), out).
Proof.
  intros Hn Hk. destruct kv as [k v]. cbn [fst snd] in *. unfold ser_attr. cbn [fst snd].
  apply name_ok_inv in Hn as (c & r & -> & S & R).
  assert (name_char c = true) as Hc by now apply name_start_char.
  destruct (name_char_plain c Hc) as (E62 & E47 & Ews & E61 & _).
  cbn [app tsteps tstep N.eqb Pos.eqb is_ws orb]. cbn [tstep]. rewrite E62, E47, Ews, S.
  rewrite tsteps_app, attr_name_run by exact R. cbn [tsteps tstep N.eqb Pos.eqb].
  rewrite rev_unit, rev_involutive.
  rewrite Hk. cbn [tsteps tstep N.eqb Pos.eqb]. rewrite tsteps_app, attr_val_run by apply escape_attrib_no_quote.
  cbn [tsteps tstep N.eqb Pos.eqb]. rewrite app_nil_r, rev_involutive, unescape_attr_escape. reflexivity.
Qed.

Fixpoint disjoint_keys (l acc : list (str * str)) : bool :=
  match l with [] => true | kv :: r => negb (has_key (fst kv) acc) && disjoint_keys r acc end.

Lemma has_key_cons k kv acc : has_key k (kv :: acc) = str_eqb k (fst kv) || has_key k acc.
Proof. reflexivity. Qed.

(* keys that avoid kv (it is not among them) and avoid acc avoid kv :: acc *)
Lemma disjoint_keys_cons kv l acc : has_key (fst kv) l = false -> disjoint_keys l acc = true -> disjoint_keys l (kv :: acc) = true.
Proof.
  induction l as [|kv' l IH]; [reflexivity|]. cbn [disjoint_keys]. intros D J. cbn [has_key existsb] in D.
  apply orb_false_iff in D as [D1 D2]. apply andb_true_iff in J as [A B]. apply negb_true_iff in A.
  rewrite has_key_cons, A, orb_false_r, (IH D2 B), andb_true_r.
  destruct (str_eqb_spec (fst kv') (fst kv)) as [E|]; [|reflexivity]. rewrite E, str_eqb_refl in D1. discriminate.
Qed.

Lemma attrs_run tag l : forall acc out,
  forallb (fun kv => name_ok (fst kv)) l = true -> nodup_keys l = true -> disjoint_keys l acc = true ->
  tsteps (SAfterVal tag acc) (ser_attrs l) out = Some (SAfterVal tag (rev l ++ acc), out).
Proof.
  induction l as [|kv l IH]; intros acc out Hn Hd Hj; [reflexivity|].
  cbn [forallb] in Hn. apply andb_true_iff in Hn as [Hn1 Hn2].
  cbn [nodup_keys] in Hd. apply andb_true_iff in Hd as [Hd1 Hd2]. apply negb_true_iff in Hd1.
  cbn [disjoint_keys] in Hj. apply andb_true_iff in Hj as [Hj1 Hj2]. apply negb_true_iff in Hj1.
  unfold ser_attrs. cbn [flat_map]. rewrite tsteps_app, one_attr by assumption.
  fold (ser_attrs l). rewrite IH by (assumption || now apply disjoint_keys_cons).
  cbn [rev]. now rewrite <- app_assoc.
Qed.

Lemma disjoint_nil l : disjoint_keys l [] = true.
Proof. induction l as [|kv l IH]; [reflexivity|]. cbn. exact IH. Qed.

(* after the tag name the tokenizer moves exactly as after an attribute value *)
Definition head_delim (s : str) : bool :=
  match s with x :: _ => (x =? 62) || (x =? 47) || is_ws x | [] => false end.
Lemma open_as_after buf s out : head_delim s = true ->
  tsteps (SOpenName buf) s out = tsteps (SAfterVal (rev buf) []) s out.
Proof.
  destruct s as [|x xs]; [discriminate|]. cbn [head_delim]. intros H. cbn [tsteps tstep rev].
  destruct (x =? 62); [reflexivity|]. destruct (x =? 47); [reflexivity|]. cbn [orb] in H. rewrite H. reflexivity.
Qed.

Lemma head_delim_app a b : head_delim a = true -> head_delim (a ++ b) = true.
Proof. destruct a; [discriminate|]. intros H; exact H. Qed.

(* "<tag attrs" : from content (with pending text buf) to the point after the last attribute *)
Lemma open_tag_run tag attrs buf out out' rest :
  name_ok tag = true -> forallb (fun kv => name_ok (fst kv)) attrs = true -> nodup_keys attrs = true ->
  flush buf out = Some out' -> head_delim rest = true ->
  tsteps (SContent buf) (60 :: tag ++ ser_attrs attrs ++ rest) out = tsteps (SAfterVal tag (rev attrs)) rest out'.
Proof.
  intros Ht Hn Hd Hf Hrest.
  apply name_ok_inv in Ht as (c & r & -> & S & R).
  assert (name_char c = true) as Hc by now apply name_start_char.
  destruct (name_char_plain c Hc) as (_ & E47 & _).
  cbn [app tsteps tstep N.eqb Pos.eqb]. rewrite Hf. cbn [tstep]. rewrite E47, S.
  rewrite tsteps_app, open_name_run by exact R.
  rewrite open_as_after.
  - rewrite rev_unit, rev_involutive.
    rewrite tsteps_app, attrs_run; try assumption; [now rewrite app_nil_r|apply disjoint_nil].
  - destruct attrs as [|kv attrs]; [exact Hrest|reflexivity].
Qed.

Lemma flush_text text o : flush (rev (escape_cdata text)) o = Some (rev (text_tok text) ++ o).
Proof.
  destruct text as [|c text]; [reflexivity|].
  unfold flush. rewrite rev_involutive, unescape_text_escape.
  assert (rev (escape_cdata (c :: text)) <> []) as Hne.
  { rewrite escape_cdata_cons. intros E. apply (f_equal (@List.length N)) in E. rewrite rev_length, app_length in E.
    destruct (etc_cases c) as [[_ X]|[[_ X]|[[_ X]|(_ & _ & _ & X)]]]; rewrite X in E; cbn in E; lia. }
  destruct (rev (escape_cdata (c :: text))); [congruence|]. reflexivity.
Qed.

Lemma close_tag_run tag o r : name_ok tag = true ->
  tsteps SLt (47 :: tag ++ 62 :: r) o = tsteps (SContent []) r (TClose tag :: o).
Proof.
  intros Ht. pose proof Ht as Ht0. apply name_ok_inv in Ht as (c & rest & -> & S & R).
  assert (name_char c = true) as Hc by now apply name_start_char.
  destruct (name_char_plain c Hc) as (E62 & _ & Ews & _).
  cbn [app tsteps tstep N.eqb Pos.eqb]. rewrite E62, Ews, S.
  rewrite tsteps_app, close_name_run by (assumption || discriminate).
  cbn [tsteps tstep N.eqb Pos.eqb].
  rewrite rev_unit, rev_involutive.
  rewrite Ht0. reflexivity.
Qed.

Lemma wf_xml_inv tag attrs text kids : wf_xml (Node tag attrs text kids) = true ->
  name_ok tag = true /\ forallb (fun kv => name_ok (fst kv)) attrs = true /\ nodup_keys attrs = true /\
  forallb (fun kv => forallb xml_char (snd kv)) attrs = true /\ forallb xml_char text = true /\ forallb wf_xml kids = true.
Proof.
  cbn [wf_xml]. intros H.
  apply andb_true_iff in H as [H Hkids]. apply andb_true_iff in H as [H Htext].
  apply andb_true_iff in H as [H Hnd]. apply andb_true_iff in H as [Htag Hattrs].
  repeat split; try assumption.
  - rewrite forallb_forall in *. intros kv Hk. specialize (Hattrs kv Hk). apply andb_true_iff in Hattrs. tauto.
  - rewrite forallb_forall in *. intros kv Hk. specialize (Hattrs kv Hk). apply andb_true_iff in Hattrs. tauto.
Qed.

Lemma serialise_open tag attrs text kids : (text, kids) <> ([], []) ->
  serialise (Node tag attrs text kids) =
  60 :: tag ++ ser_attrs attrs ++ 62 :: (escape_cdata text ++ flat_map serialise kids) ++ 60 :: 47 :: tag ++ [62].
Proof. destruct text, kids; [congruence|reflexivity..]. Qed.
Lemma tokens_open tag attrs text kids : (text, kids) <> ([], []) ->
  tokens (Node tag attrs text kids) = TOpen tag attrs :: text_tok text ++ flat_map tokens kids ++ [TClose tag].
Proof. destruct text, kids; [congruence|reflexivity..]. Qed.

(* both sides are the same list up to associativity of ++ and rev of an append *)
Ltac finish_lists := f_equal; cbn [text_tok flat_map rev app]; repeat (progress (rewrite ?rev_app_distr, <- ?app_assoc; cbn [rev app])); reflexivity.
(* right-nest the appends, so that the serialised text reads character :: rest *)
Ltac norm_app := repeat (progress (rewrite <- ?app_assoc; cbn [app])).

(* the tokenizer on a serialised tree (with pending character data [buf] in front of it) *)
Lemma tok_node : forall t, wf_xml t = true -> forall buf out out' r, flush buf out = Some out' ->
  tsteps (SContent buf) (serialise t ++ r) out = tsteps (SContent []) r (rev (tokens t) ++ out').
Proof.
  induction t as [tag attrs text kids IH] using xml_ind'. intros W buf out out' r Hf.
  apply wf_xml_inv in W as (Ht & Hn & Hd & _ & _ & Hk).
  (* the children, followed by the '<' of whatever comes next *)
  assert (forall ks, Forall (fun t => wf_xml t = true -> forall buf out out' r, flush buf out = Some out' ->
                                tsteps (SContent buf) (serialise t ++ r) out = tsteps (SContent []) r (rev (tokens t) ++ out')) ks ->
                     forallb wf_xml ks = true ->
                     forall b o o' r', flush b o = Some o' ->
                     tsteps (SContent b) (flat_map serialise ks ++ 60 :: r') o = tsteps SLt r' (rev (flat_map tokens ks) ++ o')) as KIDS.
  { induction ks as [|k ks IHk]; intros F Wk b o o' r' Hfl.
    - cbn [flat_map app tsteps tstep N.eqb Pos.eqb rev]. rewrite Hfl. reflexivity.
    - cbn [flat_map]. inversion F as [|? ? Pk Pks]; subst. cbn [forallb] in Wk. apply andb_true_iff in Wk as [W1 W2].
      rewrite <- app_assoc. rewrite (Pk W1 b o o' _ Hfl). rewrite (IHk Pks W2 [] _ _ r' eq_refl).
      rewrite rev_app_distr, <- app_assoc. reflexivity. }
  destruct text as [|c0 text0], kids as [|k0 kids0].
  { (* empty element *)
    cbn [serialise tokens]. norm_app.
    rewrite (open_tag_run tag attrs buf out out' (s2l " />" ++ r)) by (assumption || reflexivity).
    change (s2l " />") with [32; 47; 62]. cbn [app tsteps tstep N.eqb Pos.eqb is_ws orb]. rewrite rev_involutive. reflexivity. }
  (* open tag, character data, children, close tag *)
  all: rewrite serialise_open, tokens_open by discriminate; norm_app.
  all: rewrite (open_tag_run tag attrs buf out out') by (assumption || reflexivity).
  all: cbn [tsteps tstep N.eqb Pos.eqb]; rewrite rev_involutive.
  all: rewrite tsteps_app, content_run by apply escape_cdata_no_lt; rewrite app_nil_r.
  all: rewrite (KIDS _ IH Hk _ _ _ _ (flush_text _ _)), close_tag_run by exact Ht.
  all: finish_lists.
Qed.

Theorem tokenize_serialise t : wf_xml t = true -> tokenize (serialise t) = Some (tokens t).
Proof.
  intros W. unfold tokenize. rewrite <- (app_nil_r (serialise t)).
  rewrite (tok_node t W [] [] [] [] eq_refl). cbn [tsteps flush]. now rewrite app_nil_r, rev_involutive.
Qed.

(* a finished element goes to the frame below it, or - the stack being empty - is the document element *)
Definition deliver (stack : list frame) (x : xml) : list frame * option xml :=
  match stack with [] => ([], Some x) | f :: up => (add_kid f x :: up, None) end.

Lemma build_text text tag attrs up rest :
  build (text_tok text ++ rest) ({| f_tag := tag; f_attrs := attrs; f_text := []; f_kids := [] |} :: up) None =
  build rest ({| f_tag := tag; f_attrs := attrs; f_text := norm_eol text; f_kids := [] |} :: up) None.
Proof. destruct text; reflexivity. Qed.

Lemma build_node : forall t stack rest,
  build (tokens t ++ rest) stack None = build rest (fst (deliver stack (norm_xml t))) (snd (deliver stack (norm_xml t))).
Proof.
  induction t as [tag attrs text kids IH] using xml_ind'. intros stack rest.
  assert (forall ks, Forall (fun t => forall stack rest, build (tokens t ++ rest) stack None =
                                 build rest (fst (deliver stack (norm_xml t))) (snd (deliver stack (norm_xml t)))) ks ->
          forall g up rest', build (flat_map tokens ks ++ rest') (g :: up) None =
                             build rest' ({| f_tag := f_tag g; f_attrs := f_attrs g; f_text := f_text g;
                                             f_kids := rev (map norm_xml ks) ++ f_kids g |} :: up) None) as KIDS.
  { induction ks as [|k ks IHk]; intros F g up rest'.
    - destruct g; reflexivity.
    - inversion F as [|? ? Pk Pks]; subst. cbn [flat_map]. rewrite <- app_assoc, Pk. cbn [deliver fst snd].
      rewrite (IHk Pks). cbn [add_kid f_tag f_attrs f_text f_kids map rev]. now rewrite <- app_assoc. }
  destruct text as [|c0 text0], kids as [|k0 kids0].
  1: destruct stack; reflexivity.
  (* an open tag, the text, the children, the close tag *)
  all: cbn [tokens norm_xml app]; rewrite <- !app_assoc; cbn [build].
  all: rewrite build_text, (KIDS _ IH); cbn [app build f_tag f_attrs f_text f_kids]; rewrite str_eqb_refl.
  all: unfold close_frame; cbn [f_tag f_attrs f_text f_kids]; rewrite app_nil_r, rev_involutive.
  all: destruct stack; reflexivity.
Qed.

Theorem build_tokens t : build (tokens t) [] None = Some (norm_xml t).
Proof. rewrite <- (app_nil_r (tokens t)). apply build_node. Qed.

Lemma name_char_legal c : name_char c = true -> xml_char c = true.
Proof.
  intros H. apply name_char_range in H. unfold xml_char.
  assert ((32 <=? c) && (c <=? 55295) = true) as -> by (apply andb_true_iff; split; apply N.leb_le; lia).
  now rewrite !orb_true_r.
Qed.
Lemma name_legal s : name_ok s = true -> forallb xml_char s = true.
Proof.
  intros H. apply name_ok_inv in H as (c & r & -> & S & R). cbn [forallb].
  rewrite (name_char_legal c (name_start_char c S)). cbn [andb]. rewrite forallb_forall in R |- *. intros x Hx. apply name_char_legal, R, Hx.
Qed.

Lemma serialise_legal : forall t, wf_xml t = true -> forallb xml_char (serialise t) = true.
Proof.
  induction t as [tag attrs text kids IH] using xml_ind'. intros W.
  apply wf_xml_inv in W as (Ht & Hn & _ & Hv & Hx & Hk).
  assert (forallb xml_char (ser_attrs attrs) = true) as HA.
  { unfold ser_attrs. rewrite forallb_flat_map. rewrite forallb_forall in Hn, Hv |- *. intros kv Hin.
    unfold ser_attr. cbn [forallb]. rewrite forallb_app. cbn [forallb]. rewrite forallb_app.
    assert (forallb xml_char (escape_attrib (snd kv)) = true) as -> by apply escape_attrib_legal, Hv, Hin.
    now rewrite (name_legal _ (Hn kv Hin)). }
  assert (forallb xml_char (flat_map serialise kids) = true) as HK.
  { rewrite forallb_flat_map. rewrite Forall_forall in IH. rewrite forallb_forall in Hk |- *. intros k Hin. exact (IH k Hin (Hk k Hin)). }
  cbn [serialise].
  destruct text as [|c0 text0], kids as [|k0 kids0];
    repeat (progress (cbn [forallb app]; rewrite ?forallb_app));
    rewrite ?(name_legal _ Ht), ?HA, ?HK, ?(escape_cdata_legal _ Hx); reflexivity.
Qed.

Theorem parse_serialise t : wf_xml t = true -> xml_parse (serialise t) = Some (norm_xml t).
Proof.
  intros W. unfold xml_parse. rewrite (serialise_legal t W), (tokenize_serialise t W). apply build_tokens.
Qed.

Lemma skeleton_norm : forall t, skeleton (norm_xml t) = skeleton t.
Proof.
  induction t as [tag attrs text kids IH] using xml_ind'. cbn [norm_xml skeleton]. f_equal.
  rewrite map_map. induction kids as [|k l IHl]; [reflexivity|]. inversion IH as [|? ? Pk Pl]; subst.
  cbn [map]. now rewrite Pk, (IHl Pl).
Qed.

(* the structure read back is the structure written - whatever the values are *)
Theorem skeleton_parse t : wf_xml t = true -> option_map skeleton (xml_parse (serialise t)) = Some (skeleton t).
Proof. intros W. rewrite (parse_serialise t W). cbn [option_map]. now rewrite skeleton_norm. Qed.

(* without CR in character data nothing at all changes *)
Fixpoint no_cr_xml (t : xml) : bool :=
  match t with Node _ _ text kids => forallb (fun c => negb (c =? 13)) text && forallb no_cr_xml kids end.
Lemma norm_xml_id : forall t, no_cr_xml t = true -> norm_xml t = t.
Proof.
  induction t as [tag attrs text kids IH] using xml_ind'. cbn [no_cr_xml norm_xml]. intros H.
  apply andb_true_iff in H as [Ht Hk]. rewrite (norm_eol_id _ Ht). f_equal.
  induction kids as [|k l IHl]; [reflexivity|]. inversion IH as [|? ? Pk Pl]; subst.
  cbn [forallb] in Hk. apply andb_true_iff in Hk as [K1 K2]. cbn [map]. now rewrite (Pk K1), (IHl Pl K2).
Qed.
Theorem parse_serialise_exact t : wf_xml t = true -> no_cr_xml t = true -> xml_parse (serialise t) = Some t.
Proof. intros W C. rewrite (parse_serialise t W). now rewrite (norm_xml_id t C). Qed.
