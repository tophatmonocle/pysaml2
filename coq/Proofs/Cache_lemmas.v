(* Proofs/Cache_lemmas.v — the SP session cache model refines its functional
   specification; get_identity is characterised; isolation; delete; reads. *)
From PV Require Import Lib.Base Model.Codec Model.Cache.
Open Scope N_scope.

Section AlistFacts.
  Context {V : Type}.
  Implicit Types l : list (str * V).

  Lemma alookup_aset_same k (v : V) l : alookup k (aset k v l) = Some v.
  Proof.
    induction l as [|[k' v'] l IH]; cbn [aset alookup].
    - now rewrite str_eqb_refl.
    - destruct (str_eqb k k') eqn:E; cbn [alookup]; rewrite E; [reflexivity|exact IH].
  Qed.

  Lemma alookup_aset_other k k' (v : V) l : k' <> k -> alookup k' (aset k v l) = alookup k' l.
  Proof.
    intros Hne. assert (str_eqb k' k = false) as Hb by now apply str_eqb_neq.
    induction l as [|[k0 v0] l IH]; cbn [aset alookup].
    - now rewrite Hb.
    - destruct (str_eqb k k0) eqn:E; cbn [alookup].
      + apply str_eqb_eq in E. subst k0. now rewrite Hb.
      + now rewrite IH.
  Qed.

  Lemma alookup_adel_same k l : alookup k (adel k l) = None.
  Proof.
    unfold adel. induction l as [|[k' v'] l IH]; cbn [filter alookup fst]; [reflexivity|].
    destruct (str_eqb k k') eqn:E; cbn [negb alookup]; [exact IH|now rewrite E].
  Qed.

  Lemma alookup_adel_other k k' l : k' <> k -> alookup k' (adel k l) = alookup k' l.
  Proof.
    intros Hne. unfold adel. induction l as [|[k0 v0] l IH]; cbn [filter alookup fst]; [reflexivity|].
    destruct (str_eqb k k0) eqn:E; cbn [negb alookup].
    - apply str_eqb_eq in E. subst k0. apply str_eqb_neq in Hne. now rewrite Hne.
    - now rewrite IH.
  Qed.

  Lemma alookup_some_in k l (v : V) : alookup k l = Some v -> In k (map fst l).
  Proof.
    induction l as [|[k' v'] l IH]; cbn [alookup map fst]; [discriminate|].
    destruct (str_eqb_spec k k') as [->|Hn]; [now left|]. intros H. right. now apply IH.
  Qed.

  Lemma alookup_in_some k l : In k (map fst l) -> exists v, alookup k l = Some v.
  Proof.
    induction l as [|[k' v'] l IH]; cbn [alookup map fst]; [intros []|].
    destruct (str_eqb_spec k k') as [->|Hn]; [intros _; now exists v'|].
    intros [H|H]; [congruence|now apply IH].
  Qed.

  Lemma alookup_none_notin k l : alookup k l = None -> ~ In k (map fst l).
  Proof. intros H Hin. apply alookup_in_some in Hin as [v Hv]. congruence. Qed.

  Lemma alookup_app k l (kv : str * V) :
    alookup k (l ++ [kv]) =
    match alookup k l with
    | Some v => Some v
    | None => if str_eqb k (fst kv) then Some (snd kv) else None
    end.
  Proof.
    induction l as [|[k' v'] l IH]; cbn [app alookup].
    - now destruct kv.
    - destruct (str_eqb k k'); [reflexivity|exact IH].
  Qed.
End AlistFacts.

Lemma final_cons s now o r : final s ((now, o) :: r) = final (fst (step now s o)) r.
Proof.
  unfold final. cbn [run]. destruct (step now s o) as [s1 x]. cbn [fst].
  destruct (run s1 r) as [s2 xs]. reflexivity.
Qed.

Lemma final_nil s : final s [] = s.
Proof. reflexivity. Qed.

Lemma delete_unknown_keeps_state now s n :
  alookup (code n) s = None -> step now s (ODelete n) = (s, RExn KeyError).
Proof. intros H. cbn [step]. now rewrite H. Qed.

Lemma entry_of_do_set s k0 e0 ent k e :
  entry_of (do_set s k0 e0 ent) k e = upd (entry_of s) k0 e0 ent k e.
Proof.
  unfold do_set, upd, entry_of.
  destruct (str_eqb_spec k k0) as [->|Hk]; cbn [andb].
  - rewrite alookup_aset_same.
    destruct (str_eqb_spec e e0) as [->|He].
    + now rewrite alookup_aset_same.
    + rewrite (alookup_aset_other e0 e ent _ He). now destruct (alookup k0 s).
  - now rewrite (alookup_aset_other k0 k _ s Hk).
Qed.

Lemma step_refines now s o k e :
  entry_of (fst (step now s o)) k e = spec_step (entry_of s) o k e.
Proof.
  destruct o; cbn [step spec_step fst]; try reflexivity.
  - apply entry_of_do_set.
  - apply entry_of_do_set.
  - destruct (alookup (code n) s) eqn:E; cbn [fst].
    + unfold entry_of. destruct (str_eqb_spec k (code n)) as [->|Hk].
      * now rewrite alookup_adel_same.
      * now rewrite (alookup_adel_other (code n) k s Hk).
    + unfold entry_of. destruct (str_eqb_spec k (code n)) as [->|Hk]; [now rewrite E|reflexivity].
Qed.

Lemma run_refines h : forall s (f : aspec),
  (forall k e, entry_of s k e = f k e) ->
  forall k e, entry_of (final s h) k e = fold_left (fun f no => spec_step f (snd no)) h f k e.
Proof.
  induction h as [|[now o] r IH]; intros s f Hsf k e; [exact (Hsf k e)|].
  rewrite final_cons. cbn [fold_left snd]. apply IH. intros k' e'.
  rewrite step_refines.
  destruct o; cbn [spec_step]; try apply Hsf.
  - unfold upd. now rewrite Hsf.
  - unfold upd. now rewrite Hsf.
  - now rewrite Hsf.
Qed.

Theorem history_refines_spec h k e : entry_of (final init h) k e = spec_of h k e.
Proof. unfold spec_of. apply run_refines. reflexivity. Qed.

(* time_util.after says "not after" only of a real instant that has not passed *)
Lemma t_after_false now ts : t_after now ts = false <-> exists z, ts = At z /\ (now <= z)%Z.
Proof.
  destruct ts as [|z]; cbn [t_after t_before].
  - split; [discriminate|]. intros (z & E & _). discriminate E.
  - rewrite negb_false_iff, Z.leb_le. split; [intros H; now exists z|]. intros (z' & [= <-] & H). exact H.
Qed.

(* expired (by the code's test) when checking, or reset/empty: not let through *)
Lemma contributes_expired now ts i : t_after now ts = true -> contributes now true (ts, i) = false.
Proof. intros H. unfold contributes. cbn [fst]. now rewrite H. Qed.
Lemma contributes_empty now check ts i : info_empty i = true -> contributes now check (ts, i) = false.
Proof. intros H. unfold contributes. cbn [snd]. rewrite H. now rewrite andb_false_r. Qed.

Lemma get_char now s k e check :
  match get now s k e check with
  | GKeyError => entry_of s k e = None
  | GValueError => True
  | GOld | GNone => exists ent, entry_of s k e = Some ent /\ contributes now check ent = false
  | GInfo io => exists ts i, entry_of s k e = Some (ts, i) /\ contributes now check (ts, i) = true /\
                             o_ava io = i_ava i /\ o_other io = i_other i
  end.
Proof.
  unfold get, entry_of. destruct (alookup k s) as [srcs|]; [|reflexivity].
  destruct (alookup e srcs) as [[ts i]|]; [|reflexivity].
  destruct (check && t_after now ts) eqn:Ec.
  - exists (ts, i). unfold contributes. cbn [fst snd]. now rewrite Ec.
  - destruct (i_nid i) as [c|] eqn:En.
    + destruct (decode c) as [n|x]; [|exact I].
      exists ts, i. unfold contributes. cbn [o_ava o_other fst snd]. rewrite Ec. cbn [negb andb].
      unfold info_empty. rewrite En. now destruct (i_ava i).
    + destruct (info_empty i) eqn:Ei.
      * exists (ts, i). unfold contributes. cbn [fst snd]. now rewrite Ec, Ei.
      * exists ts, i. unfold contributes. cbn [o_ava o_other fst snd]. now rewrite Ec, Ei.
Qed.

Lemma dedup_In v l : In v (dedup l) <-> In v l.
Proof.
  unfold dedup.
  assert (forall acc, In v (fold_left (fun acc x => if mem_str x acc then acc else acc ++ [x]) l acc) <-> In v acc \/ In v l) as G.
  { induction l as [|x l IH]; intros acc; cbn [fold_left].
    - cbn [In]. tauto.
    - rewrite IH. cbn [In]. destruct (mem_str x acc) eqn:E.
      + apply mem_str_In in E. split; [tauto|]. intros [H|[H|H]]; [tauto| |tauto]. subst x. tauto.
      + rewrite in_app_iff. cbn [In]. tauto. }
  rewrite G. cbn [In]. tauto.
Qed.

Lemma alookup_merge_one res k vals a :
  alookup a (merge_one res (k, vals)) =
  if str_eqb a k then Some (match alookup k res with Some old => dedup (old ++ vals) | None => vals end)
  else alookup a res.
Proof.
  unfold merge_one. cbn [fst snd]. destruct (alookup k res) as [old|] eqn:Ek.
  - destruct (str_eqb_spec a k) as [->|Hak]; [apply alookup_aset_same|now apply alookup_aset_other].
  - rewrite alookup_app. cbn [fst snd]. destruct (str_eqb_spec a k) as [->|Hak]; [now rewrite Ek|now destruct (alookup a res)].
Qed.

Lemma has_val_merge_one a v res k vals :
  has_val a v (merge_one res (k, vals)) <-> has_val a v res \/ (a = k /\ In v vals).
Proof.
  unfold has_val. rewrite alookup_merge_one. destruct (str_eqb_spec a k) as [->|Hak].
  - destruct (alookup k res) as [old|]; split.
    + intros (l & [= <-] & Hv). apply dedup_In, in_app_iff in Hv as [Hv|Hv]; [left; now exists old|now right].
    + intros [(l & [= <-] & Hv)|(_ & Hv)]; eexists; (split; [reflexivity|]); apply dedup_In, in_app_iff; auto.
    + intros (l & [= <-] & Hv). now right.
    + intros [(l & Hl & _)|(_ & Hv)]; [discriminate|now exists vals].
  - split; [now left|]. intros [H|(E & _)]; [exact H|contradiction].
Qed.

Lemma has_val_merge_ava a v av : forall res,
  has_val a v (merge_ava res av) <-> has_val a v res \/ exists vals, In (a, vals) av /\ In v vals.
Proof.
  unfold merge_ava. induction av as [|[k vals] av IH]; intros res; cbn [fold_left].
  - split; [tauto|]. intros [H|[vals [[] _]]]. exact H.
  - rewrite IH, has_val_merge_one. cbn [In]. split.
    + intros [[H|[-> Hv]]|[vals' [Hin Hv]]].
      * now left.
      * right. exists vals. split; [now left|exact Hv].
      * right. exists vals'. split; [now right|exact Hv].
    + intros [H|[vals' [[Heq|Hin] Hv]]].
      * left. now left.
      * inversion Heq; subst. left. right. now split.
      * right. now exists vals'.
Qed.

Lemma has_val_nil a v : ~ has_val a v [].
Proof. intros [l [H _]]. discriminate. Qed.

(* the valid sources among [ents] that hold value v under attribute a *)
Definition source_gives (now : Z) (check : bool) (f : str -> option entry) (ents : list str) (a v : str) : Prop :=
  exists e ts i av vals, In e ents /\ f e = Some (ts, i) /\ contributes now check (ts, i) = true /\
                         i_ava i = Some av /\ In (a, vals) av /\ In v vals.
Definition source_stale (now : Z) (check : bool) (f : str -> option entry) (ents : list str) (e : str) : Prop :=
  In e ents /\ exists ent, f e = Some ent /\ contributes now check ent = false.

(* the same, said of one source *)
Definition gives (now : Z) (check : bool) (f : str -> option entry) (e a v : str) : Prop :=
  exists ts i av vals, f e = Some (ts, i) /\ contributes now check (ts, i) = true /\
                       i_ava i = Some av /\ In (a, vals) av /\ In v vals.
Definition stale (now : Z) (check : bool) (f : str -> option entry) (e : str) : Prop :=
  exists ent, f e = Some ent /\ contributes now check ent = false.

Section Sources.
  Variables (now : Z) (check : bool) (f : str -> option entry).

  Lemma source_gives_iff ents a v : source_gives now check f ents a v <-> exists e, In e ents /\ gives now check f e a v.
  Proof.
    unfold source_gives, gives. split.
    - intros (e & ts & i & av & vals & Hin & H). exists e. split; [exact Hin|]. now exists ts, i, av, vals.
    - intros (e & Hin & ts & i & av & vals & H). now exists e, ts, i, av, vals.
  Qed.

  Lemma source_gives_cons e0 ents a v :
    source_gives now check f (e0 :: ents) a v <-> gives now check f e0 a v \/ source_gives now check f ents a v.
  Proof.
    rewrite !source_gives_iff. cbn [In]. split.
    - intros (e & [<-|Hin] & G); [now left|right; now exists e].
    - intros [G|(e & Hin & G)]; [exists e0|exists e]; auto.
  Qed.

  Lemma source_stale_cons e0 ents e :
    source_stale now check f (e0 :: ents) e <-> (e0 = e /\ stale now check f e0) \/ source_stale now check f ents e.
  Proof.
    unfold source_stale, stale. cbn [In]. split.
    - intros [[<-|Hin] H]; auto.
    - intros [[<- H]|[Hin H]]; auto.
  Qed.

  (* when the list holds every source there is *)
  Lemma source_gives_all ents a v : (forall e, f e <> None -> In e ents) ->
    source_gives now check f ents a v <-> exists e, gives now check f e a v.
  Proof.
    intros Hall. rewrite source_gives_iff. split; [intros (e & _ & G); now exists e|].
    intros (e & G). exists e. split; [|exact G]. apply Hall. destruct G as (ts & i & _ & _ & -> & _). discriminate.
  Qed.

  Lemma source_stale_all ents e : (forall e, f e <> None -> In e ents) ->
    source_stale now check f ents e <-> stale now check f e.
  Proof.
    intros Hall. unfold source_stale. split; [tauto|]. intros S. split; [|exact S].
    apply Hall. destruct S as (ent & -> & _). discriminate.
  Qed.
End Sources.

(* what one get() says about its source, [f] being what the cache holds for the subject *)
Lemma get_skip now s k e check f : entry_of s k e = f e ->
  get now s k e check = GOld \/ get now s k e check = GNone ->
  stale now check f e /\ forall a v, ~ gives now check f e a v.
Proof.
  intros Hf Hg. pose proof (get_char now s k e check) as G. rewrite Hf in G.
  assert (exists ent, f e = Some ent /\ contributes now check ent = false) as (ent & He & Hc)
    by (destruct Hg as [Hg|Hg]; now rewrite Hg in G).
  split; [now exists ent|]. intros a v (ts & i & av & vals & He' & Hc' & _). congruence.
Qed.

Lemma get_info now s k e check f io a0 : entry_of s k e = f e ->
  get now s k e check = GInfo io -> o_ava io = Some a0 ->
  ~ stale now check f e /\ forall a v, gives now check f e a v <-> exists vals, In (a, vals) a0 /\ In v vals.
Proof.
  intros Hf Hg Ha. pose proof (get_char now s k e check) as G. rewrite Hf, Hg in G.
  destruct G as (ts & i & He & Hc & Hava & _). rewrite Ha in Hava. split.
  - intros (ent & He' & Hc'). congruence.
  - intros a v. split.
    + intros (ts' & i' & av & vals & He' & _ & Hav & H). exists vals. congruence.
    + intros (vals & H). now exists ts, i, a0, vals.
Qed.

Lemma gi_loop_char now s k check f ents : (forall e, entry_of s k e = f e) -> forall res old res' old',
  gi_loop now s k check ents res old = Ok (res', old') ->
  (forall e, In e old' <-> In e old \/ source_stale now check f ents e) /\
  (forall a v, has_val a v res' <-> has_val a v res \/ source_gives now check f ents a v).
Proof.
  intros Hf. induction ents as [|e0 rest IH]; intros res old res' old' H; cbn [gi_loop] in H.
  - injection H as <- <-. split.
    + intros e. unfold source_stale. cbn [In]. tauto.
    + intros a v. rewrite source_gives_iff. split; [tauto|]. intros [Hr|(e & [] & _)]. exact Hr.
  - destruct (get now s k e0 check) as [| | | |io] eqn:Eg; try discriminate.
    1, 2: destruct (get_skip now s k e0 check f (Hf e0)) as (St & Ng); [rewrite Eg; auto|];
      apply IH in H as [Ho Hr]; split;
      [ intros e; rewrite Ho, in_app_iff, source_stale_cons; cbn [In]; tauto
      | intros a v; rewrite Hr, source_gives_cons; specialize (Ng a v); tauto ].
    destruct (o_ava io) as [a0|] eqn:Ea; [|discriminate].
    destruct (get_info now s k e0 check f io a0 (Hf e0) Eg Ea) as (Ns & Gv).
    apply IH in H as [Ho Hr]. split.
    + intros e. rewrite Ho, source_stale_cons. tauto.
    + intros a v. rewrite Hr, has_val_merge_ava, source_gives_cons, Gv. tauto.
Qed.

(* get_identity over all sources of the subject *)
Theorem get_identity_all_char now s k check f res old : (forall e, entry_of s k e = f e) ->
  get_identity now s k [] check = Ok (res, old) ->
  (forall e, In e old <-> stale now check f e) /\ (forall a v, has_val a v res <-> exists e, gives now check f e a v).
Proof.
  intros Hf. unfold get_identity. destruct (alookup k s) as [srcs|] eqn:Ek.
  - assert (forall e, f e <> None -> In e (map fst srcs)) as Hall.
    { intros e. rewrite <- Hf. unfold entry_of. rewrite Ek. destruct (alookup e srcs) eqn:E; [|congruence].
      intros _. now apply alookup_some_in in E. }
    intros H. apply (gi_loop_char now s k check f _ Hf) in H as [Ho Hr]. split.
    + intros e. rewrite Ho, (source_stale_all now check f _ e Hall). cbn [In]. tauto.
    + intros a v. rewrite Hr, (source_gives_all now check f _ a v Hall). pose proof (has_val_nil a v). tauto.
  - assert (forall e, f e = None) as Hn by (intros e; rewrite <- Hf; unfold entry_of; now rewrite Ek).
    intros H. injection H as <- <-. split.
    + intros e. split; [intros []|]. intros (ent & He & _). now rewrite Hn in He.
    + intros a v. split; [intros H; now apply has_val_nil in H|].
      intros (e & ts & i & av & vals & He & _). now rewrite Hn in He.
Qed.

(* after ANY history: get_identity against the specification (the statement of C19_refines_spec, with stale / gives
   written out) *)
Theorem get_identity_history h now k check res old :
  get_identity now (final init h) k [] check = Ok (res, old) ->
  (forall e, In e old <-> exists ent, spec_of h k e = Some ent /\ contributes now check ent = false) /\
  (forall a v, has_val a v res <->
     exists e ts i av vals, spec_of h k e = Some (ts, i) /\ contributes now check (ts, i) = true /\
                            i_ava i = Some av /\ In (a, vals) av /\ In v vals).
Proof. apply get_identity_all_char. intros e. apply history_refines_spec. Qed.

Lemma step_other_key now s o k : op_key o <> Some k -> alookup k (fst (step now s o)) = alookup k s.
Proof.
  destruct o; cbn [op_key step fst]; intros H; try reflexivity.
  - unfold do_set. apply alookup_aset_other. congruence.
  - unfold do_set. apply alookup_aset_other. congruence.
  - destruct (alookup (code n) s); cbn [fst]; [|reflexivity]. apply alookup_adel_other. congruence.
Qed.

Lemma get_view now s1 s2 k e c : alookup k s1 = alookup k s2 -> get now s1 k e c = get now s2 k e c.
Proof. intros H. unfold get. now rewrite H. Qed.

Lemma active_view now s1 s2 k e : alookup k s1 = alookup k s2 -> active now s1 k e = active now s2 k e.
Proof. intros H. unfold active. now rewrite H. Qed.

Lemma gi_loop_view now s1 s2 k c ents : alookup k s1 = alookup k s2 ->
  forall res old, gi_loop now s1 k c ents res old = gi_loop now s2 k c ents res old.
Proof.
  intros H. induction ents as [|e r IH]; intros res old; cbn [gi_loop]; [reflexivity|].
  rewrite (get_view now s1 s2 k e c H). destruct (get now s2 k e c); try reflexivity; try apply IH.
  destruct (o_ava i); [apply IH|reflexivity].
Qed.

Lemma get_identity_view now s1 s2 k ents c : alookup k s1 = alookup k s2 ->
  get_identity now s1 k ents c = get_identity now s2 k ents c.
Proof.
  intros H. unfold get_identity. destruct ents as [|e r]; [|now apply gi_loop_view].
  rewrite H. destruct (alookup k s2) eqn:E; [|reflexivity]. apply gi_loop_view. congruence.
Qed.

Lemma filter_active_view now s1 s2 k l : alookup k s1 = alookup k s2 ->
  filter (fun e => negb (active now s1 k e)) l = filter (fun e => negb (active now s2 k e)) l.
Proof. intros H. apply filter_ext. intros e. now rewrite (active_view now s1 s2 k e H). Qed.

(* every query about subject k is a function of that subject's own row *)
Lemma read_view now s1 s2 r k : is_read r = true -> op_key r = Some k ->
  alookup k s1 = alookup k s2 -> snd (step now s1 r) = snd (step now s2 r).
Proof.
  destruct r; cbn [is_read op_key]; intros Hr Hk H; try discriminate; inversion Hk; subst k; cbn [step snd].
  - now rewrite (get_view now s1 s2 _ e check H).
  - now rewrite (get_identity_view now s1 s2 _ ents check H).
  - now rewrite H.
  - now rewrite (active_view now s1 s2 _ e H).
  - assert (forall l, filter (fun e => negb (active now s1 (code n) e)) l =
                      filter (fun e => negb (active now s2 (code n) e)) l) as F
      by (intros l; now apply filter_active_view).
    rewrite H. destruct srcs; [destruct (alookup (code n) s2); [|reflexivity]|]; now rewrite F.
  - now rewrite (get_view now s1 s2 _ e check H).
Qed.

Lemma final_other_keys k h : forall s,
  Forall (fun no => op_key (snd no) <> Some k) h -> alookup k (final s h) = alookup k s.
Proof.
  induction h as [|[now o] r IH]; intros s H; [reflexivity|].
  rewrite final_cons. inversion H as [|x l Hx Hl]; subst. cbn [snd] in Hx.
  rewrite (IH _ Hl). now apply step_other_key.
Qed.

Lemma delete_clears now s n : alookup (code n) (fst (step now s (ODelete n))) = None.
Proof.
  cbn [step]. destruct (alookup (code n) s) eqn:E; cbn [fst]; [apply alookup_adel_same|exact E].
Qed.

