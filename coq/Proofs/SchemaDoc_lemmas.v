(* Proofs/SchemaDoc_lemmas.v — C12 beyond the round trip: qualified and local names, the intern table
   (distinct texts), look-alike names are no keys, what parse does with one attribute or child,
   documents with tails (forget / embed) *)
From PV Require Import Lib.Base Model.Schema Model.SchemaDoc Proofs.Schema_lemmas.
Open Scope N_scope.

Lemma qualify_qualified ns l : unqualified (qualify ns l) = false.
Proof. reflexivity. Qed.

Lemma after_brace_app ns l : ~ In 125 ns -> after_brace (ns ++ 125 :: l) = Some l.
Proof.
  induction ns as [|c ns IH]; intros Hn; cbn [app after_brace].
  - reflexivity.
  - destruct (N.eqb_spec c 125) as [He|_].
    + exfalso. apply Hn. left. exact He.
    + apply IH. intros Hi. apply Hn. right. exact Hi.
Qed.

Lemma local_of_qualify ns l : ~ In 125 ns -> local_of (qualify ns l) = l.
Proof. intros Hn. unfold qualify, local_of. rewrite (after_brace_app ns l Hn). reflexivity. Qed.

Lemma local_of_unqualified s : unqualified s = true -> local_of s = s.
Proof.
  destruct s as [|c s]; [reflexivity|]. cbn [unqualified local_of].
  destruct c as [|p]; [reflexivity|].
  (* the pattern 123 :: _ is a match on the bits of c: follow them *)
  repeat (destruct p as [p|p|]; try reflexivity); discriminate.
Qed.

Lemma nodup_str_NoDup l : nodup_str l = true -> NoDup l.
Proof.
  induction l as [|x l IH]; cbn [nodup_str]; intros H; [constructor|].
  apply andb_true_iff in H as [H1 H2]. constructor; [|apply IH; exact H2].
  intros Hi. apply negb_true_iff in H1.
  assert (Hex : existsb (str_eqb_sc x) l = true).
  { apply existsb_exists. exists x. split; [exact Hi|apply str_eqb_refl]. }
  rewrite Hex in H1. discriminate.
Qed.

Lemma NoDup_nodup_str l : NoDup l -> nodup_str l = true.
Proof.
  induction 1 as [|x l Hx _ IH]; cbn [nodup_str]; [reflexivity|]. rewrite IH, andb_true_r.
  apply negb_true_iff, not_true_is_false. intros E. apply existsb_exists in E as (y & Hy & E).
  apply str_eqb_eq in E as <-. exact (Hx Hy).
Qed.

Lemma names_distinct_NoDup tbl : names_distinct tbl = true -> NoDup tbl.
Proof.
  intros H. exact (NoDup_map_inv _ _ (nodup_str_NoDup _ H)).
Qed.

(* the intern table is injective: different ids, different texts *)
Lemma name_of_inj tbl a b :
  names_distinct tbl = true -> (N.to_nat a < List.length tbl)%nat -> (N.to_nat b < List.length tbl)%nat ->
  name_of tbl a = name_of tbl b -> a = b.
Proof.
  intros Hnd Ha Hb He. unfold name_of in He.
  apply names_distinct_NoDup in Hnd.
  apply N2Nat.inj. rewrite NoDup_nth in Hnd. apply (Hnd _ _ Ha Hb He).
Qed.

Section Lookalike.
  Variable nm : N -> str.

  Lemma lookalike_not_key keys q d :
    lookalike_free nm keys = true -> In d keys -> lookalike nm q d = true -> ~ In q keys.
  Proof.
    intros Hf Hd Hl Hq. unfold lookalike in Hl. apply andb_true_iff in Hl as [Hs Hne].
    unfold lookalike_free in Hf. rewrite forallb_forall in Hf. specialize (Hf q Hq).
    rewrite forallb_forall in Hf. specialize (Hf d Hd).
    apply orb_true_iff in Hf as [He|Hn].
    - apply N.eqb_eq in He. subst q. rewrite str_eqb_refl in Hne. discriminate.
    - rewrite Hs in Hn. discriminate.
  Qed.

End Lookalike.

(* the member of a declared attribute is read from the attribute of exactly that name
   (or keeps the value __init__ preset) *)
Lemma parse_attrs_lookup r attrs d :
  NoDup (map a_member (k_attrs r)) -> In d (k_attrs r) ->
  alookup (a_member d) (parse_attrs r attrs)
  = match alookup (a_xml d) attrs with
    | Some v => Some v
    | None => alookup (a_member d) (k_defaults r)
    end.
Proof.
  intros Hnd Hd.
  rewrite <- (proj_lookup a_member
                (fun a => match alookup (a_xml a) attrs with Some v => Some v | None => alookup (a_member a) (k_defaults r) end)
                (k_attrs r) d Hnd Hd).
  f_equal. unfold parse_attrs. apply flat_map_ext. intros a.
  destruct (alookup (a_xml a) attrs); reflexivity.
Qed.

Section ParseOne.
  Variables (NIL TYPE XMLNS_XS : N).
  Notation parse := (parse NIL TYPE XMLNS_XS).

  (* an attribute whose full name is not a declared one is kept, with its value, as extension
     attribute; a child whose tag is not a key of c_children is kept WHOLE (attributes, text,
     children at every depth) as extension element *)
  Theorem foreign_one_kept S c tag attrs text kids c2 a t K xa xe r :
    parse S c (X tag attrs text kids) = Ok (I c2 a t K xa xe) ->
    find_row S c = Some r -> over_kind r = OGeneric ->
    (forall q v, In (q, v) attrs -> ~ In q (map a_xml (k_attrs r)) -> In (q, v) xa) /\
    (forall k, In k kids -> ~ In (xtag k) (map c_tagkey (k_children r)) -> In k xe).
  Proof.
    intros Hp Hrow Hgen.
    destruct (foreign_kept NIL TYPE XMLNS_XS S c tag attrs text kids c2 a t K xa xe r Hp Hrow Hgen) as (Hxe & Hxa & _).
    subst xe xa. split.
    - intros q v Hin Hn. apply filter_In. split; [exact Hin|]. cbn [fst].
      apply negb_true_iff, memN_false. exact Hn.
    - intros k Hin Hn. apply filter_In. split; [exact Hin|].
      apply negb_true_iff, memN_false. exact Hn.
  Qed.

  (* ... and the declared attribute next to it is read from its own name only *)
  Theorem declared_attr_read S c tag attrs text kids c2 a t K xa xe r d :
    parse S c (X tag attrs text kids) = Ok (I c2 a t K xa xe) ->
    find_row S c = Some r -> over_kind r = OGeneric -> In d (k_attrs r) ->
    alookup (a_member d) a
    = match alookup (a_xml d) attrs with Some v => Some v | None => alookup (a_member d) (k_defaults r) end.
  Proof.
    intros Hp Hrow Hgen Hd.
    destruct (parse_generic_inv _ _ _ _ _ _ _ _ _ _ _ _ _ _ _ _ Hp Hrow Hgen) as (Hnd & -> & _).
    exact (parse_attrs_lookup r attrs d (attr_members_nodup r Hnd) Hd).
  Qed.
End ParseOne.

Lemma forget_embed : forall x, forget (embed x) = x.
Proof.
  apply xtree_ind'. intros t a tx k IH. cbn [embed forget]. f_equal.
  rewrite map_map. induction IH as [|y l Hy _ IHl]; cbn [map]; [reflexivity|].
  rewrite Hy, IHl. reflexivity.
Qed.

Lemma no_tail_embed : forall x, no_tail (embed x) = true.
Proof.
  apply xtree_ind'. intros t a tx k IH. cbn [embed no_tail].
  apply forallb_forall. intros d Hd. apply in_map_iff in Hd as [y [Hy Hin]]. subst d.
  rewrite Forall_forall in IH. apply IH. exact Hin.
Qed.

Lemma xtag_forget d : xtag (forget d) = dtag d.
Proof. destruct d; reflexivity. Qed.
