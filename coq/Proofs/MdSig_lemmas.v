(* Proofs/MdSig_lemmas.v — the verification call of parse_and_check_signature
   (no --node-id) and the root's own signature. *)
From PV Require Import Lib.Base Model.Xmlsec Model.MdStore Model.MdSig.
Open Scope N_scope.

(* without --node-id the tool's answer is about the FIRST signature in document order *)
Lemma tool_verify_no_node_id dupfail doc nm cert :
  tool_verify dupfail doc nm None cert =
  if dupfail && has_dup (registered nm doc []) then false
  else match first_sig doc with
       | None => false
       | Some p => sig_verifies doc nm p cert
       end.
Proof.
  unfold tool_verify, sig_verifies. cbn [subtree_at app].
  destruct (dupfail && has_dup (registered nm doc [])); [reflexivity|].
  destruct (first_sig doc) as [p|]; [|reflexivity].
  destruct (subtree_at p doc) as [[n i pl kids|refs key sv]|]; reflexivity.
Qed.

(* ---- registered IDs are IDs: registered nm t here is a sub-list of all_ids t here ---- *)
Lemma registered_sub nm : forall t here x, In x (registered nm t here) -> In x (all_ids t here).
Proof.
  fix IH 1. intros [n i pl kids|refs key sv] here x; cbn [registered all_ids]; [|intros []].
  rewrite !in_app_iff. intros [H|H].
  - left. destruct i as [v|]; [|exact H]. destruct (N.eqb n nm); [exact H|destruct H].
  - right. revert H. generalize 0%nat.
    induction kids as [|c r IHk]; intros k H; [exact H|].
    rewrite in_app_iff in H. rewrite in_app_iff. destruct H as [H|H].
    + left. exact (IH c _ _ H).
    + right. exact (IHk _ H).
Qed.

Lemma lookup_id_In v regs p : lookup_id v regs = Some p -> In (v, p) regs.
Proof.
  induction regs as [|[v' p'] r IH]; cbn [lookup_id]; [discriminate|].
  destruct (str_eqb_spec v' v) as [->|_].
  - intros H; injection H as <-. now left.
  - intros H. right. exact (IH H).
Qed.

(* the root carries v and nobody else does: a registered element with ID v is the root.  with_id v (all_ids root [])
   starts with the root's own (v, []), so length 1 leaves nothing after it *)
Lemma unique_root_id nm n v pl kids here p :
  Nat.eqb (List.length (with_id v (all_ids (El n (Some v) pl kids) here))) 1 = true ->
  lookup_id v (registered nm (El n (Some v) pl kids) here) = Some p -> p = here.
Proof.
  intros Hu Hl. apply lookup_id_In in Hl. apply registered_sub in Hl.
  assert (Hin : In (v, p) (with_id v (all_ids (El n (Some v) pl kids) here))).
  { unfold with_id. apply filter_In. split; [exact Hl|]. cbn [fst]. apply str_eqb_refl. }
  revert Hu Hin. cbn [all_ids app]. unfold with_id. cbn [filter fst]. rewrite str_eqb_refl.
  cbn [List.length]. intros Hu Hin. apply Nat.eqb_eq in Hu. injection Hu as Hu.
  apply length_zero_iff_nil in Hu. rewrite Hu in Hin. destruct Hin as [Hin|[]]. now injection Hin.
Qed.

Lemma md_verdict_prechecked_true dupfail doc nm cert :
  md_verdict_prechecked dupfail doc nm cert = Ok true ->
  md_precheck doc = true /\
  exists p, first_sig doc = Some p /\ sig_verifies doc nm p cert = true.
Proof.
  unfold md_verdict_prechecked. destruct (md_precheck doc); [|discriminate].
  destruct (tool_verify dupfail doc nm None cert) eqn:E; [|discriminate].
  intros _. split; [reflexivity|]. rewrite tool_verify_no_node_id in E.
  destruct (dupfail && has_dup (registered nm doc [])); [discriminate|].
  destruct (first_sig doc) as [p|]; [|discriminate]. now exists p.
Qed.

Lemma md_precheck_shape doc :
  md_precheck doc = true ->
  exists n i pl kids k u d key sv,
    doc = El n i pl kids /\ first_sig doc = Some [k] /\ count_sigs kids = 1%nat /\
    nth_error kids k = Some (Sg [(u, d)] key sv) /\
    (u = [] \/ exists v, i = Some v /\ v <> [] /\ u = HASH :: v /\
                        Nat.eqb (List.length (with_id v (all_ids doc []))) 1 = true).
Proof.
  unfold md_precheck. destruct doc as [n i pl kids|refs key sv]; [|discriminate].
  destruct (first_sig (El n i pl kids)) as [[|k [|k' p']]|] eqn:Ef; try discriminate.
  intros H. apply andb_true_iff in H as [Hc H]. apply Nat.eqb_eq in Hc.
  destruct (nth_error kids k) as [[n' i' pl' kids'|[|[u d] [|r2 refs]] key sv]|] eqn:En; try discriminate.
  exists n, i, pl, kids, k, u, d, key, sv. repeat split; auto.
  destruct u as [|c u']; [now left|]. right.
  destruct i as [v|]; [|discriminate]. apply andb_true_iff in H as [H Hu]. apply andb_true_iff in H as [Hv He].
  apply str_eqb_eq in He. exists v. repeat split; auto. intros ->. discriminate.
Qed.

Lemma sig_verifies_child n i pl kids nm k cert refs key sv :
  nth_error kids k = Some (Sg refs key sv) -> sig_verifies (El n i pl kids) nm [k] cert = true ->
  sv = true /\ key = cert /\
  forallb (ref_ok (El n i pl kids) (registered nm (El n i pl kids) []) [k]) refs = true.
Proof.
  intros Hn H. unfold sig_verifies in H. cbn [subtree_at] in H. rewrite Hn in H.
  apply andb_true_iff in H as [H Hrefs]. apply andb_true_iff in H as [H _].
  apply andb_true_iff in H as [Hsv Hkey]. apply N.eqb_eq in Hkey. auto.
Qed.

Lemma ref_ok_resolves doc regs ps ud : ref_ok doc regs ps ud = true -> exists pt, resolve (fst ud) regs = Some pt.
Proof. unfold ref_ok. destruct (resolve (fst ud) regs) as [pt|]; [now exists pt|discriminate]. Qed.

(* a Reference to the document element digests the document minus the signature *)
Lemma ref_ok_root doc regs ps u d :
  resolve u regs = Some [] -> ref_ok doc regs ps (u, d) = tree_eqb d (remove_at ps doc).
Proof. intros H. unfold ref_ok. cbn [fst snd]. now rewrite H. Qed.

Lemma resolve_hash v regs : resolve (HASH :: v) regs = lookup_id v regs.
Proof. reflexivity. Qed.

Lemma own_signature_ok_intro n i pl kids nm cert k refs key sv :
  nth_error kids k = Some (Sg refs key sv) -> sig_verifies (El n i pl kids) nm [k] cert = true ->
  covers_root (registered nm (El n i pl kids) []) refs = true ->
  own_signature_ok (El n i pl kids) nm cert = true.
Proof.
  intros Hn Hsv Hc. unfold own_signature_ok. apply existsb_exists. exists k. split.
  - apply in_seq. split; [apply Nat.le_0_l|]. apply nth_error_Some. now rewrite Hn.
  - unfold own_sig_ok_at. now rewrite Hn, Hsv, Hc.
Qed.
