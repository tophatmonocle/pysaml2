(* Proofs/Xsw_lemmas.v — what a positive verdict of the tool covers, what the enveloping
   pre-check adds, and what an attacker who cannot forge signature values can assemble (C01).
   Everything is for documents of unbounded size (induction over trees / paths). *)
From PV Require Import Lib.Base Model.Xsw.
Open Scope N_scope.

Section TreeInd.
  Variable P : tree -> Prop.
  Hypothesis HEl : forall n i pl kids, Forall P kids -> P (El n i pl kids).
  Hypothesis HSg : forall refs key sv i pl kids,
      Forall (fun r => P (snd r)) refs -> Forall P kids -> P (Sg refs key sv i pl kids).
  Fixpoint tree_ind2 (t : tree) : P t :=
    match t with
    | El n i pl kids =>
        HEl n i pl kids
          ((fix go (l : list tree) : Forall P l :=
              match l with [] => Forall_nil P | c :: r => Forall_cons c (tree_ind2 c) (go r) end) kids)
    | Sg refs key sv i pl kids =>
        HSg refs key sv i pl kids
          ((fix go (l : list (str * tree)) : Forall (fun r => P (snd r)) l :=
              match l with
              | [] => Forall_nil _
              | ud :: r => Forall_cons ud (match ud as x return P (snd x) with (u, d) => tree_ind2 d end) (go r)
              end) refs)
          ((fix go (l : list tree) : Forall P l :=
              match l with [] => Forall_nil P | c :: r => Forall_cons c (tree_ind2 c) (go r) end) kids)
    end.
End TreeInd.

(* ... when the two kinds of node need not be told apart *)
Lemma tree_kids_ind (P : tree -> Prop) : (forall t, Forall P (t_kids t) -> P t) -> forall t, P t.
Proof. intros H. induction t using tree_ind2; apply H; assumption. Qed.

Lemma tree_eqb_El n1 i1 p1 k1 n2 i2 p2 k2 :
  tree_eqb (El n1 i1 p1 k1) (El n2 i2 p2 k2) =
  N.eqb n1 n2 && opt_str_eqb i1 i2 && N.eqb p1 p2 && list_eqb tree_eqb k1 k2.
Proof. reflexivity. Qed.
Lemma tree_eqb_Sg r1 ky1 ok1 i1 p1 k1 r2 ky2 ok2 i2 p2 k2 :
  tree_eqb (Sg r1 ky1 ok1 i1 p1 k1) (Sg r2 ky2 ok2 i2 p2 k2) =
  N.eqb ky1 ky2 && Bool.eqb ok1 ok2 && opt_str_eqb i1 i2 && N.eqb p1 p2 && list_eqb ref_eqb r1 r2 && list_eqb tree_eqb k1 k2.
Proof. reflexivity. Qed.

Lemma opt_str_eqb_eq a b : opt_str_eqb a b = true -> a = b.
Proof. destruct a, b; cbn; try discriminate; auto. intros H. apply str_eqb_eq in H. now subst. Qed.
Lemma opt_str_eqb_refl a : opt_str_eqb a a = true.
Proof. destruct a; cbn; auto using str_eqb_refl. Qed.

Lemma list_eqb_sound {A} (f : A -> A -> bool) (l1 : list A) :
  Forall (fun x => forall y, f x y = true -> x = y) l1 -> forall l2, list_eqb f l1 l2 = true -> l1 = l2.
Proof.
  induction 1 as [|x r1 Hx _ IH]; intros [|y r2] H; cbn in H; try discriminate; [reflexivity|].
  apply andb_true_iff in H as [H1 H2]. f_equal; auto.
Qed.
Lemma list_eqb_refl {A} (f : A -> A -> bool) (l : list A) :
  Forall (fun x => f x x = true) l -> list_eqb f l l = true.
Proof. induction 1 as [|x r Hx _ IH]; cbn; [reflexivity|]. now rewrite Hx, IH. Qed.

Lemma tree_eqb_sound : forall a b, tree_eqb a b = true -> a = b.
Proof.
  induction a as [n1 i1 p1 k1 IHk|r1 ky1 ok1 i1 p1 k1 IHr IHk] using tree_ind2; intros [n2 i2 p2 k2|r2 ky2 ok2 i2 p2 k2] H;
    try discriminate.
  - rewrite tree_eqb_El in H. repeat (apply andb_true_iff in H as [H ?]).
    apply N.eqb_eq in H. apply opt_str_eqb_eq in H2. apply N.eqb_eq in H1.
    apply (list_eqb_sound tree_eqb k1 IHk) in H0. now subst.
  - rewrite tree_eqb_Sg in H. repeat (apply andb_true_iff in H as [H ?]).
    apply N.eqb_eq in H. apply Bool.eqb_prop in H4. apply opt_str_eqb_eq in H3. apply N.eqb_eq in H2.
    apply (list_eqb_sound tree_eqb k1 IHk) in H0.
    assert (r1 = r2) as ->.
    { apply (list_eqb_sound ref_eqb r1); [|exact H1].
      eapply Forall_impl; [|exact IHr]. intros [u1 d1] Hd [u2 d2] He. cbn in *.
      apply andb_true_iff in He as [E1 E2]. apply str_eqb_eq in E1. apply Hd in E2. now subst. }
    now subst.
Qed.

Lemma tree_eqb_refl : forall a, tree_eqb a a = true.
Proof.
  induction a as [n1 i1 p1 k1 IHk|r1 ky1 ok1 i1 p1 k1 IHr IHk] using tree_ind2.
  - rewrite tree_eqb_El, N.eqb_refl, opt_str_eqb_refl, N.eqb_refl, (list_eqb_refl _ _ IHk). reflexivity.
  - rewrite tree_eqb_Sg, N.eqb_refl, Bool.eqb_reflx, opt_str_eqb_refl, N.eqb_refl, (list_eqb_refl _ _ IHk).
    rewrite (list_eqb_refl ref_eqb r1); [reflexivity|].
    eapply Forall_impl; [|exact IHr]. intros [u d] Hd. cbn in *. now rewrite str_eqb_refl, Hd.
Qed.

Lemma subtree_at_app : forall p q t,
  subtree_at (p ++ q) t = match subtree_at p t with Some x => subtree_at q x | None => None end.
Proof.
  induction p as [|k p IH]; intros q t; cbn; [reflexivity|].
  destruct (nth_error (t_kids t) k); [apply IH|reflexivity].
Qed.

Lemma subtree_at_kid q d t c :
  subtree_at q d = Some t -> In c (t_kids t) -> exists j, subtree_at (q ++ [j]) d = Some c.
Proof. intros Hq Hc. apply In_nth_error in Hc as [j Hj]. exists j. rewrite subtree_at_app, Hq. cbn. now rewrite Hj. Qed.

(* a property of trees that passes to the children passes to every sub-tree *)
Lemma subtree_closed (P : tree -> Prop) :
  (forall t, P t -> Forall P (t_kids t)) -> forall p t Y, P t -> subtree_at p t = Some Y -> P Y.
Proof.
  intros HP. induction p as [|k p IH]; intros t Y Ht H; cbn in H.
  - now injection H as <-.
  - destruct (nth_error (t_kids t) k) as [c|] eqn:Hk; [|discriminate].
    apply (IH c); [|exact H]. apply HP in Ht. rewrite Forall_forall in Ht. apply Ht. eapply nth_error_In; eauto.
Qed.

Lemma is_prefix_app p q : is_prefix p (p ++ q) = true.
Proof. induction p as [|k p IH]; cbn; [reflexivity|]. now rewrite Nat.eqb_refl, IH. Qed.

Lemma skipn_length_app {A} (p q : list A) : skipn (List.length p) (p ++ q) = q.
Proof. induction p; cbn; auto. Qed.

Lemma t_kids_with_kids t k : t_kids (with_kids t k) = k.
Proof. destruct t; reflexivity. Qed.

Lemma ids_where_unfold f t : ids_where f t = own_id f t ++ ids_in (ids_where f) (t_kids t) O.
Proof. destruct t; reflexivity. Qed.

Lemma ids_in_spec (g : tree -> list (str * path)) v p : forall l k,
  In (v, p) (ids_in g l k) <-> exists j c q, nth_error l j = Some c /\ p = (k + j)%nat :: q /\ In (v, q) (g c).
Proof.
  induction l as [|c l IH]; intros k; cbn [ids_in].
  - split; [intros []|intros (j & c & q & H & _)]. destruct j; discriminate.
  - rewrite in_app_iff, in_map_iff, IH. split.
    + intros [([v' q] & E & Hin)|(j & c' & q & Hn & -> & Hin)].
      * cbn in E. injection E as -> <-. exists O, c, q. rewrite Nat.add_0_r. auto.
      * exists (S j), c', q. rewrite Nat.add_succ_r. auto.
    + intros (j & c' & q & Hn & -> & Hin). destruct j as [|j]; cbn in Hn.
      * injection Hn as <-. left. exists (v, q). rewrite Nat.add_0_r. auto.
      * right. exists j, c', q. rewrite Nat.add_succ_r. auto.
Qed.

Lemma own_id_spec f t v p : In (v, p) (own_id f t) <-> p = [] /\ t_id t = Some v /\ f t = true.
Proof.
  unfold own_id. destruct (t_id t) as [w|]; [destruct (f t)|]; cbn; split.
  - intros [[= -> <-]|[]]. auto.
  - intros (-> & [= ->] & _). now left.
  - intros [].
  - intros (_ & _ & [=]).
  - intros [].
  - intros (_ & [=] & _).
Qed.

Lemma ids_where_spec f v : forall t p,
  In (v, p) (ids_where f t) <-> exists Y, subtree_at p t = Some Y /\ t_id Y = Some v /\ f Y = true.
Proof.
  induction t as [t IH] using tree_kids_ind; intros p. rewrite Forall_forall in IH.
  rewrite ids_where_unfold, in_app_iff, own_id_spec, ids_in_spec. split.
  - intros [(-> & Hi & Hf)|(j & c & q & Hn & -> & Hin)].
    + exists t. auto.
    + cbn [subtree_at Nat.add]. rewrite Hn. apply (IH c (nth_error_In _ _ Hn)). exact Hin.
  - intros (Y & Hs & Hi & Hf). destruct p as [|j q]; cbn [subtree_at] in Hs.
    + injection Hs as <-. left. auto.
    + right. destruct (nth_error (t_kids t) j) as [c|] eqn:Hn; [|discriminate].
      exists j, c, q. repeat split; auto. apply (IH c (nth_error_In _ _ Hn)). eauto.
Qed.

Lemma registered_spec nm doc v p :
  In (v, p) (registered nm doc) <-> exists Y, subtree_at p doc = Some Y /\ t_id Y = Some v /\ t_name Y = nm.
Proof.
  unfold registered. rewrite ids_where_spec. split; intros (Y & H1 & H2 & H3); exists Y; repeat split; auto.
  - now apply N.eqb_eq. - now apply N.eqb_eq.
Qed.

Lemma carriers_spec v doc p :
  In p (carriers v doc) <-> exists Y, subtree_at p doc = Some Y /\ t_id Y = Some v.
Proof.
  unfold carriers. rewrite in_map_iff. split.
  - intros ([w q] & E & Hin). cbn in E. subst q. apply filter_In in Hin as [Hin Hw]. cbn in Hw.
    apply str_eqb_eq in Hw. subst w. apply ids_where_spec in Hin as (Y & H1 & H2 & _). eauto.
  - intros (Y & H1 & H2). exists (v, p). split; [reflexivity|]. apply filter_In. split.
    + apply ids_where_spec. eauto.
    + cbn. apply str_eqb_refl.
Qed.

Lemma carriers_unique v doc px :
  carriers v doc = [px] -> forall q Y, subtree_at q doc = Some Y -> t_id Y = Some v -> q = px.
Proof.
  intros Hc q Y Hs Hi. assert (In q (carriers v doc)) as Hin by (apply carriers_spec; eauto).
  rewrite Hc in Hin. destruct Hin as [<-|[]]. reflexivity.
Qed.

Lemma lookup_id_In i : forall regs p, lookup_id i regs = Some p -> In (i, p) regs.
Proof.
  induction regs as [|[v q] r IH]; intros p H; cbn in H; [discriminate|].
  destruct (str_eqb v i) eqn:E.
  - apply str_eqb_eq in E. injection H as <-. subst. now left.
  - right. auto.
Qed.

Lemma lookup_In pol i regs p : lookup pol i regs = Some p -> In (i, p) regs.
Proof.
  destruct pol; cbn; intros H; try (now apply lookup_id_In).
  apply lookup_id_In in H. now apply in_rev.
Qed.

(* whatever the duplicate-ID policy: a resolved ID names a registered element carrying it *)
Lemma lookup_registered pol nm doc v p :
  lookup pol v (registered nm doc) = Some p ->
  exists Y, subtree_at p doc = Some Y /\ t_id Y = Some v /\ t_name Y = nm.
Proof. intros H. apply lookup_In in H. now apply registered_spec. Qed.

Lemma no_sigs l m y : count_sigs l = 0%nat -> nth_error l m = Some y -> is_sig y = false.
Proof.
  unfold count_sigs. intros H Hm. destruct (is_sig y) eqn:Ey; [|reflexivity].
  assert (In y (filter is_sig l)) as Hin by (apply filter_In; eauto using nth_error_In).
  destruct (filter is_sig l); [destruct Hin|discriminate].
Qed.

Lemma count_sigs_one_unique : forall kids k s,
  count_sigs kids = 1%nat -> nth_error kids k = Some s -> is_sig s = true ->
  forall j c, nth_error kids j = Some c -> is_sig c = true -> j = k.
Proof.
  induction kids as [|x kids IH]; intros k s Hc Hk Hs j c Hj Hcs; [destruct k; discriminate|].
  unfold count_sigs in Hc. cbn [filter] in Hc. fold (count_sigs kids) in Hc.
  destruct k as [|k], j as [|j]; cbn in Hk, Hj; [reflexivity| | |].
  - injection Hk as ->. rewrite Hs in Hc. injection Hc as Hc. rewrite (no_sigs _ _ _ Hc Hj) in Hcs. discriminate.
  - injection Hj as ->. rewrite Hcs in Hc. injection Hc as Hc. rewrite (no_sigs _ _ _ Hc Hk) in Hs. discriminate.
  - f_equal. destruct (is_sig x); [injection Hc as Hc; rewrite (no_sigs _ _ _ Hc Hk) in Hs; discriminate|eauto].
Qed.

(* one reference of the processed signature is honoured: it resolves to a registered element whose present
   content, minus the processed signature when that lies inside, IS the digested content *)
Definition ref_covered (pol : dup_policy) (doc : tree) (nm : N) (ps : path) (ud : str * tree) : Prop :=
  exists pt T, resolve pol (fst ud) (registered nm doc) = Some pt /\ subtree_at pt doc = Some T /\
    snd ud = (if is_prefix pt ps then remove_at (skipn (List.length pt) ps) T else T).

Lemma ref_ok_covered pol doc nm ps ud :
  ref_ok pol doc (registered nm doc) ps ud = true -> ref_covered pol doc nm ps ud.
Proof.
  unfold ref_ok, ref_covered. destruct (resolve pol (fst ud) (registered nm doc)) as [pt|]; [|discriminate].
  destruct (subtree_at pt doc) as [T|] eqn:HT; [|discriminate]. intros H. apply tree_eqb_sound in H.
  exists pt, T. split; [reflexivity|]. split; [exact HT|exact H].
Qed.

Theorem verify_ok_covered pol doc nm i cert :
  tool_verify pol doc nm i cert = true ->
  exists px X p refs sid spl skids,
    (* the start node: the root, or the registered element carrying the requested ID *)
    (match i with
     | Some v => lookup pol v (registered nm doc) = Some px /\ t_id X = Some v /\ t_name X = nm
     | None => px = []
     end) /\
    subtree_at px doc = Some X /\
    (* the signature that is processed: the first one in document order at or below the start node *)
    first_sig_incl X = Some p /\
    subtree_at (px ++ p) doc = Some (Sg refs cert true sid spl skids) /\
    refs <> [] /\
    Forall (ref_covered pol doc nm (px ++ p)) refs.
Proof.
  unfold tool_verify. destruct (dup_refused pol (registered nm doc)); [discriminate|].
  destruct (match i with Some v => lookup pol v (registered nm doc) | None => Some [] end) as [px|] eqn:Hl; [|discriminate].
  destruct (subtree_at px doc) as [X|] eqn:HX; [|discriminate].
  destruct (first_sig_incl X) as [p|] eqn:Hp; [|discriminate].
  destruct (subtree_at (px ++ p) doc) as [[|refs key sv sid spl skids]|] eqn:Hs; try discriminate.
  intros H. repeat (apply andb_true_iff in H as [H ?]). subst sv. apply N.eqb_eq in H2. subst key.
  exists px, X, p, refs, sid, spl, skids. repeat split; auto.
  - destruct i as [v|].
    + destruct (lookup_registered _ _ _ _ _ Hl) as (Y & HY & Hi & Hn). rewrite HX in HY. injection HY as <-. auto.
    + now injection Hl as <-.
  - destruct refs; [discriminate|congruence].
  - apply Forall_forall. intros ud Hin. rewrite forallb_forall in H0. apply ref_ok_covered. auto.
Qed.

(* what _check_signature's acceptance means for the element pysaml2 relies on *)
Record covered (doc : tree) (nm : N) (v : str) (certs : list N) (px : path) (X : tree) (k : nat) (D : tree) : Prop := {
  cv_id_nonempty : v <> [];
  cv_at : subtree_at px doc = Some X;
  cv_elem : exists pl kids, X = El nm (Some v) pl kids;
  (* no other node of the document carries that ID: whatever was parsed from an element with this ID was parsed from X *)
  cv_unique : forall q Y, subtree_at q doc = Some Y -> t_id Y = Some v -> q = px;
  (* X directly carries exactly one signature: child k, with a single reference naming X's own ID,
     an intact value made with a key of the candidate certificate list *)
  cv_sig : exists key sid spl skids, nth_error (t_kids X) k = Some (Sg [(HASH :: v, D)] key true sid spl skids) /\ In key certs;
  cv_only : forall j c, nth_error (t_kids X) j = Some c -> is_sig c = true -> j = k;
  (* it is the first signature in document order inside X (the one the tool processes) *)
  cv_first : first_sig X = Some [k];
  (* the digest covers exactly X's present content minus that signature child *)
  cv_digest : D = with_kids X (remove_nth k (t_kids X))
}.

(* what the pre-check establishes: the ID is non-empty and has one carrier, an element of the asked name whose first
   signature is a child, its only signature child, with the single reference "#" + ID *)
Lemma precheck_ok doc nm i :
  precheck doc nm i = true ->
  exists v px pl kids k D key sv sid spl skids,
    i = Some v /\ v <> [] /\ carriers v doc = [px] /\ subtree_at px doc = Some (El nm (Some v) pl kids) /\
    first_sig (El nm (Some v) pl kids) = Some [k] /\ count_sigs kids = 1%nat /\
    nth_error kids k = Some (Sg [(HASH :: v, D)] key sv sid spl skids).
Proof.
  destruct i as [[|c0 v0]|]; try discriminate. unfold precheck. remember (c0 :: v0) as v eqn:Ev. intros H.
  destruct (carriers v doc) as [|px [|? ?]] eqn:Hc; try discriminate.
  destruct (subtree_at px doc) as [[n xi pl kids|]|] eqn:HX; try discriminate.
  apply andb_true_iff in H as [Hn H]. apply N.eqb_eq in Hn. subst n.
  destruct (first_sig (El nm xi pl kids)) as [[|k [|? ?]]|] eqn:Hf; try discriminate.
  apply andb_true_iff in H as [Hcnt H]. apply Nat.eqb_eq in Hcnt.
  destruct (nth_error kids k) as [[|[|[u D] [|? ?]] key sv sid spl skids]|] eqn:Hk; try discriminate.
  apply str_eqb_eq in H. subst u.
  (* the element's own ID is v: it is a carrier *)
  assert (xi = Some v) as ->.
  { assert (In px (carriers v doc)) as Hin by (rewrite Hc; now left).
    apply carriers_spec in Hin as (Y & HY & Hi). rewrite HX in HY. injection HY as <-. exact Hi. }
  exists v, px, pl, kids, k, D, key, sv, sid, spl, skids. repeat split; try assumption. rewrite Ev. discriminate.
Qed.

(* acceptance in full: the element the pre-check singles out, and the certificate under which the tool verified
   its signature child, which digests that element without the child *)
Theorem check_signature_x_ok pol doc nm i certs :
  check_signature_x pol doc nm i certs = true ->
  exists v px pl kids k cert sid spl skids,
    i = Some v /\ v <> [] /\ carriers v doc = [px] /\ subtree_at px doc = Some (El nm (Some v) pl kids) /\
    first_sig (El nm (Some v) pl kids) = Some [k] /\ count_sigs kids = 1%nat /\ In cert certs /\
    nth_error kids k = Some (Sg [(HASH :: v, El nm (Some v) pl (remove_nth k kids))] cert true sid spl skids).
Proof.
  unfold check_signature_x. intros H. apply andb_true_iff in H as [Hpre Hex].
  apply precheck_ok in Hpre as (v & px & pl & kids & k & D & key & sv & sid & spl & skids & -> & Hne & Hc & HX & Hf & Hcnt & Hk).
  replace (node_id_arg (Some v)) with (Some v) in Hex by (destruct v; [congruence|reflexivity]).
  (* some certificate verifies; the tool started at the unique carrier and processed its signature child *)
  apply existsb_exists in Hex as (cert & Hcert & Hv).
  apply verify_ok_covered in Hv as (px' & X' & p & refs & sid' & spl' & skids' & (Hl & Hi' & Hn') & HX' & Hp & Hs & _ & Hrefs).
  assert (px' = px) as -> by (eapply carriers_unique; eauto).
  rewrite HX in HX'. injection HX' as <-.
  unfold first_sig_incl in Hp. cbn [is_sig] in Hp. rewrite Hf in Hp. injection Hp as <-.
  rewrite subtree_at_app, HX in Hs. cbn [subtree_at t_kids] in Hs. rewrite Hk in Hs.
  injection Hs as E1 E2 E3 _ _ _. subst refs key sv.
  (* the single reference resolves to the carrier itself *)
  apply Forall_inv in Hrefs. destruct Hrefs as (pt & T & Hres & HT & Hd). cbn [fst snd] in *.
  unfold resolve in Hres. rewrite N.eqb_refl in Hres. rewrite Hl in Hres. injection Hres as <-.
  rewrite HX in HT. injection HT as <-.
  rewrite is_prefix_app, skipn_length_app in Hd. cbn [remove_at t_kids with_kids] in Hd. subst D.
  exists v, px, pl, kids, k, cert, sid, spl, skids. repeat split; assumption.
Qed.

Theorem relied_is_covered pol doc nm i certs :
  check_signature_x pol doc nm i certs = true ->
  exists v px X k D, i = Some v /\ covered doc nm v certs px X k D.
Proof.
  intros H. apply check_signature_x_ok in H as (v & px & pl & kids & k & cert & sid & spl & skids & -> & Hne & Hc & HX & Hf & Hcnt & Hin & Hk).
  exists v, px, (El nm (Some v) pl kids), k, (El nm (Some v) pl (remove_nth k kids)). split; [reflexivity|].
  constructor; cbn [t_kids with_kids]; eauto.
  - exact (carriers_unique _ _ _ Hc).
  - exists cert, sid, spl, skids. auto.
  - intros j c Hj Hc'. eapply count_sigs_one_unique; [exact Hcnt|exact Hk|reflexivity|exact Hj|exact Hc'].
Qed.

Corollary relied_is_covered_some pol doc nm v certs :
  check_signature_x pol doc nm (Some v) certs = true -> exists px X k D, covered doc nm v certs px X k D.
Proof. intros H. apply relied_is_covered in H as (v' & px & X & k & D & [= <-] & Hc). eauto. Qed.

Section Attacker.
  Variable protected : list N.                     (* keys whose private half the attacker does not hold *)
  Variable signed : list (str * tree) -> Prop.      (* the SignedInfo contents those keys ever signed *)

  (* documents in which every signature value that is valid under a protected key stands over a SignedInfo
     that the key's owner produced (unforgeability, Dolev-Yao) — everything else is arbitrary *)
  Inductive derivable : tree -> Prop :=
  | D_El n i pl kids : Forall derivable kids -> derivable (El n i pl kids)
  | D_Sg refs key sv i pl kids :
      (sv = true -> In key protected -> signed refs) -> Forall derivable kids -> derivable (Sg refs key sv i pl kids).

  Lemma derivable_kids t : derivable t -> Forall derivable (t_kids t).
  Proof. intros H. inversion H; subst; assumption. Qed.

  Lemma derivable_subtree : forall p t Y, derivable t -> subtree_at p t = Some Y -> derivable Y.
  Proof. exact (subtree_closed derivable derivable_kids). Qed.

  (* the signature of a covered element of a derivable document stands over what a protected key's owner signed *)
  Lemma covered_signed doc nm v certs px X k D :
    derivable doc -> (forall c, In c certs -> In c protected) -> covered doc nm v certs px X k D ->
    signed [(HASH :: v, D)].
  Proof.
    intros Hd Hp Hc. destruct (cv_sig _ _ _ _ _ _ _ _ Hc) as (key & sid & spl & skids & Hk & Hin).
    assert (derivable (Sg [(HASH :: v, D)] key true sid spl skids)) as Hs.
    { apply (derivable_subtree [k] X); [eapply derivable_subtree; [exact Hd|apply (cv_at _ _ _ _ _ _ _ _ Hc)]|].
      cbn. now rewrite Hk. }
    inversion Hs as [|refs' key' sv' i' pl' kids' Hsig Hkids]; subst. apply Hsig; [reflexivity|apply Hp; exact Hin].
  Qed.

  (* acceptance of a derivable document: the relied element minus its signature is a content the owner of a
     protected key signed under that very ID *)
  Theorem accepted_content_was_signed pol doc nm i certs :
    derivable doc -> (forall c, In c certs -> In c protected) ->
    check_signature_x pol doc nm i certs = true ->
    exists v px X k D, i = Some v /\ covered doc nm v certs px X k D /\ signed [(HASH :: v, D)].
  Proof.
    intros Hd Hp H. apply relied_is_covered in H as (v & px & X & k & D & -> & Hc).
    exists v, px, X, k, D. split; [reflexivity|]. split; [exact Hc|exact (covered_signed _ _ _ _ _ _ _ _ Hd Hp Hc)].
  Qed.
End Attacker.

Section Assembled.
  Variable protected : list N.

  (* the mutation operators of the quantifier, as a closure: a document assembled from parts of d0 *)
  Inductive assembled (d0 : tree) : tree -> Prop :=
  (* copy / move / relocate: any part of the original, anywhere *)
  | A_part p t : subtree_at p d0 = Some t -> assembled d0 t
  (* edit / wrap / nest / duplicate / new IDs: any element, with any name, ID, attributes and text, around assembled parts *)
  | A_el n i pl kids : Forall (assembled d0) kids -> assembled d0 (El n i pl kids)
  (* any signature that is not valid under a protected key (stripped value, own key, garbage) *)
  | A_forged_sig refs key sv i pl kids :
      (sv = true -> ~ In key protected) -> Forall (assembled d0) kids -> assembled d0 (Sg refs key sv i pl kids)
  (* an original signature kept verbatim (SignedInfo and value) but re-dressed: other ID, attributes,
     KeyInfo, ds:Object children holding anything *)
  | A_redressed_sig p refs key sv i pl kids i' pl' kids' :
      subtree_at p d0 = Some (Sg refs key sv i pl kids) -> Forall (assembled d0) kids' ->
      assembled d0 (Sg refs key sv i' pl' kids').

  Section AssembledInd.
    Variables (d0 : tree) (P : tree -> Prop).
    Hypothesis Hpart : forall p t, subtree_at p d0 = Some t -> P t.
    Hypothesis Hel : forall n i pl kids, Forall P kids -> P (El n i pl kids).
    Hypothesis Hforged : forall refs key sv i pl kids,
        (sv = true -> ~ In key protected) -> Forall P kids -> P (Sg refs key sv i pl kids).
    Hypothesis Hredressed : forall p refs key sv i pl kids i' pl' kids',
        subtree_at p d0 = Some (Sg refs key sv i pl kids) -> Forall P kids' -> P (Sg refs key sv i' pl' kids').
    Fixpoint assembled_ind2 t (H : assembled d0 t) : P t :=
      let go := fix go l (Hl : Forall (assembled d0) l) : Forall P l :=
                  match Hl with
                  | Forall_nil _ => Forall_nil _
                  | Forall_cons x Hx Hr => Forall_cons x (assembled_ind2 x Hx) (go _ Hr)
                  end in
      match H with
      | A_part _ p t Hp => Hpart p t Hp
      | A_el _ n i pl kids Hk => Hel n i pl kids (go kids Hk)
      | A_forged_sig _ refs key sv i pl kids Hn Hk => Hforged refs key sv i pl kids Hn (go kids Hk)
      | A_redressed_sig _ p refs key sv i pl kids i' pl' kids' Hp Hk =>
          Hredressed p refs key sv i pl kids i' pl' kids' Hp (go kids' Hk)
      end.
  End AssembledInd.

  Lemma assembled_kids d0 t : assembled d0 t -> Forall (assembled d0) (t_kids t).
  Proof.
    intros H. destruct H as [p t Hp|n i pl kids Hk|refs key sv i pl kids Hn Hk|p refs key sv i pl kids i' pl' kids' Hp Hk]; cbn [t_kids]; auto.
    apply Forall_forall. intros c Hc. destruct (subtree_at_kid _ _ _ _ Hp Hc) as [j Hj]. exact (A_part _ _ _ Hj).
  Qed.

  Lemma assembled_subtree d0 : forall p t Y, assembled d0 t -> subtree_at p t = Some Y -> assembled d0 Y.
  Proof. exact (subtree_closed _ (assembled_kids d0)). Qed.

  (* sequences of mutations stay inside the closure *)
  Lemma assembled_trans d0 d : assembled d0 d -> forall t, assembled d t -> assembled d0 t.
  Proof.
    intros Hd t Ht. induction Ht as [p t Hp|n i pl kids Hk|refs key sv i pl kids Hn Hk|p refs key sv i pl kids i' pl' kids' Hp Hk]
      using assembled_ind2.
    - eapply assembled_subtree; eauto.
    - apply A_el. exact Hk.
    - apply A_forged_sig; assumption.
    - pose proof (assembled_subtree _ _ _ _ Hd Hp) as Hs.
      inversion Hs as [q t' Hq|?|refs0 key0 sv0 i0 pl0 kids0 Hn0 Hk0|q refs0 key0 sv0 i0 pl0 kids0 i0' pl0' kids0' Hq Hk0]; subst.
      + eapply A_redressed_sig; eauto.
      + apply A_forged_sig; assumption.
      + eapply A_redressed_sig; eauto.
  Qed.
End Assembled.

Lemma assembled_refl protected d0 : assembled protected d0 d0.
Proof. apply (A_part _ _ []). reflexivity. Qed.

Lemma assembled_derivable protected signed d0 :
  derivable protected signed d0 -> forall t, assembled protected d0 t -> derivable protected signed t.
Proof.
  intros H0 t Ht. induction Ht as [p t Hp|n i pl kids Hk|refs key sv i pl kids Hn Hk|p refs key sv i pl kids i' pl' kids' Hp Hk]
    using assembled_ind2.
  - eapply derivable_subtree; eauto.
  - constructor. exact Hk.
  - constructor; [intros -> Hin; destruct (Hn eq_refl Hin)|exact Hk].
  - pose proof (derivable_subtree _ _ _ _ _ H0 Hp) as Hs. inversion Hs; subst. constructor; assumption.
Qed.

(* the SignedInfos validly signed under a protected key that occur in a document *)
Definition signed_in (protected : list N) (d0 : tree) (refs : list (str * tree)) : Prop :=
  exists p key i pl kids, subtree_at p d0 = Some (Sg refs key true i pl kids) /\ In key protected.

Lemma derivable_self protected d0 : derivable protected (signed_in protected d0) d0.
Proof.
  assert (forall t q, subtree_at q d0 = Some t -> derivable protected (signed_in protected d0) t) as G.
  { induction t as [t IH] using tree_kids_ind; intros q Hq.
    assert (Forall (derivable protected (signed_in protected d0)) (t_kids t)) as K.
    { rewrite Forall_forall in *. intros c Hc. destruct (subtree_at_kid _ _ _ _ Hq Hc) as [j Hj]. exact (IH c Hc _ Hj). }
    destruct t as [n i pl kids|refs key sv i pl kids]; constructor; try exact K.
    intros -> Hin. exists q, key, i, pl, kids. auto. }
  apply (G d0 []). reflexivity.
Qed.

(* C01 in the quantifier's terms: whatever is assembled from a document d0, if it is accepted then the element
   relied upon, minus its signature child, is a content that a protected key signed IN d0 under that same ID *)
Theorem mutation_rejected protected d0 d pol nm i certs :
  (forall c, In c certs -> In c protected) ->
  assembled protected d0 d ->
  check_signature_x pol d nm i certs = true ->
  exists v px X k D, i = Some v /\ covered d nm v certs px X k D /\ signed_in protected d0 [(HASH :: v, D)].
Proof.
  intros Hp Ha H. eapply accepted_content_was_signed; eauto.
  eapply assembled_derivable; [apply derivable_self|exact Ha].
Qed.
