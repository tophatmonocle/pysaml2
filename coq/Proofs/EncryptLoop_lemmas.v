(* Proofs/EncryptLoop_lemmas.v — C17: the decrypt loops of the code WITHOUT proposed_fix/C17-2, for a tool that
   fails on an EncryptedData it cannot open (xmlsec1) and never fails otherwise (no fault): thanks to the order in
   which str(self.response) writes the children of <Response> (assertions, encrypted assertions, extension
   elements last) neither loop ever opens an EncryptedData that is a direct child of <Response>, and the second
   loop never opens one that is a direct child of a response-level EncryptedAssertion; so the assertions used
   after the second loop are the ones the verifying call saw (two_loops_nothing_new), and the stage
   satisfies stage_checked without the comparison (parse_t_checked_nofault). *)
From PV Require Import Lib.Base Model.Status Model.Response Model.Encrypt Proofs.Response_lemmas Proofs.EncryptSP_lemmas
  Proofs.EncryptTree_lemmas.
Open Scope Z_scope.

(* induction on dtree with the hypothesis for every child: the generated principle has none for the nested lists *)
Section dtree_induction.
  Variable P : dtree -> Prop.
  Hypothesis HA : forall a d adv ext, Forall P adv -> Forall P ext -> P (DAsrt a d adv ext).
  Hypothesis HE : forall k, Forall P k -> P (DEA k).
  Hypothesis HO : forall k, Forall P k -> P (DOther k).
  Hypothesis HN : forall key p, P p -> P (DEnc key p).
  Fixpoint dtree_ind2 (t : dtree) : P t :=
    let go := fix go (l : list dtree) : Forall P l :=
      match l with [] => Forall_nil P | x :: r => Forall_cons x (dtree_ind2 x) (go r) end in
    match t with
    | DAsrt a d adv ext => HA a d adv ext (go adv) (go ext)
    | DEA k => HE k (go k)
    | DOther k => HO k (go k)
    | DEnc key p => HN key p (dtree_ind2 p)
    end.
End dtree_induction.

(* an EncryptedData node somewhere in the (not yet decrypted) tree *)
Fixpoint has_enc (t : dtree) : bool :=
  match t with
  | DEnc _ _ => true
  | DAsrt _ _ adv ext => existsb has_enc adv || existsb has_enc ext
  | DEA k => existsb has_enc k
  | DOther k => existsb has_enc k
  end.

Lemma open_list_noenc_step keys pol l : Forall (fun t => has_enc t = false -> open_first keys pol t = NoEnc) l ->
  existsb has_enc l = false -> open_list keys pol l = NoEnc.
Proof.
  induction l as [|x r IH]; intros F H; [reflexivity|]. inversion F as [|y z Fx Fr]; subst.
  cbn [existsb] in H. apply orb_false_iff in H as [Hx Hr]. rewrite open_list_cons, (Fx Hx), (IH Fr Hr). reflexivity.
Qed.

Lemma open_first_noenc keys pol : forall t, has_enc t = false -> open_first keys pol t = NoEnc.
Proof.
  induction t as [a d adv ext IHa IHe|k IH|k IH|key p IH] using dtree_ind2; cbn [has_enc]; intros H.
  - apply orb_false_iff in H as [H1 H2]. rewrite open_first_asrt, (open_list_noenc_step _ _ _ IHa H1), (open_list_noenc_step _ _ _ IHe H2). reflexivity.
  - rewrite open_first_ea, (open_list_noenc_step _ _ _ IH H). reflexivity.
  - rewrite open_first_other, (open_list_noenc_step _ _ _ IH H). reflexivity.
  - discriminate.
Qed.

Lemma open_list_noenc keys pol l : existsb has_enc l = false -> open_list keys pol l = NoEnc.
Proof.
  intros H. apply open_list_noenc_step; [|exact H]. apply Forall_forall. intros t _. apply open_first_noenc.
Qed.

(* with the failing tool a tree that has an EncryptedData never answers "nothing to do" *)
Lemma open_list_pfail_step keys l : Forall (fun t => has_enc t = true -> open_first keys PFail t <> NoEnc) l ->
  existsb has_enc l = true -> open_list keys PFail l <> NoEnc.
Proof.
  induction l as [|x r IH]; intros F H; [discriminate|]. inversion F as [|y z Fx Fr]; subst.
  rewrite open_list_cons. destruct (has_enc x) eqn:Hx.
  - specialize (Fx eq_refl). destruct (open_first keys PFail x); [discriminate|discriminate|congruence].
  - cbn [existsb] in H. rewrite Hx in H. cbn in H. rewrite (open_first_noenc _ _ _ Hx).
    specialize (IH Fr H). destruct (open_list keys PFail r); [discriminate|discriminate|congruence].
Qed.

Lemma open_first_pfail keys : forall t, has_enc t = true -> open_first keys PFail t <> NoEnc.
Proof.
  induction t as [a d adv ext IHa IHe|k IH|k IH|key p IH] using dtree_ind2; cbn [has_enc]; intros H.
  - rewrite open_first_asrt. destruct (existsb has_enc adv) eqn:Ha.
    + pose proof (open_list_pfail_step _ _ IHa Ha) as N. destruct (open_list keys PFail adv); [discriminate|discriminate|congruence].
    + cbn in H. rewrite (open_list_noenc _ _ _ Ha).
      pose proof (open_list_pfail_step _ _ IHe H) as N. destruct (open_list keys PFail ext); [discriminate|discriminate|congruence].
  - rewrite open_first_ea. pose proof (open_list_pfail_step _ _ IH H) as N. destruct (open_list keys PFail k); [discriminate|discriminate|congruence].
  - rewrite open_first_other. pose proof (open_list_pfail_step _ _ IH H) as N. destruct (open_list keys PFail k); [discriminate|discriminate|congruence].
  - rewrite open_first_enc. destruct (mem_N key keys); discriminate.
Qed.

Definition is_part (t : dtree) : bool := is_asrt t || is_ea t.      (* an Assertion or EncryptedAssertion child *)

(* after the first EncryptedData child no Assertion / EncryptedAssertion child follows *)
Fixpoint ordered (l : list dtree) : bool :=
  match l with
  | [] => true
  | x :: r => if is_enc x then forallb (fun y => negb (is_part y)) r else ordered r
  end.

Lemma ordered_no_parts l : forallb (fun y => negb (is_part y)) l = true -> ordered l = true.
Proof.
  induction l as [|x r IH]; [reflexivity|]. cbn [forallb ordered]. intros H. apply andb_true_iff in H as [_ Hr].
  destruct (is_enc x); [exact Hr|now apply IH].
Qed.

Lemma ordered_app_parts l1 l2 : forallb (fun y => negb (is_enc y)) l1 = true -> ordered l2 = true -> ordered (l1 ++ l2) = true.
Proof.
  induction l1 as [|x r IH]; [intros _ H; exact H|]. cbn [forallb app ordered]. intros H H2. apply andb_true_iff in H as [Hx Hr].
  apply negb_true_iff in Hx. rewrite Hx. now apply IH.
Qed.

Lemma ordered_reserialize root : ordered (reserialize root) = true.
Proof.
  unfold reserialize. apply ordered_app_parts; [apply filter_forallb; intros x Hx; destruct x; try discriminate; reflexivity|].
  apply ordered_app_parts; [apply filter_forallb; intros x Hx; destruct x; try discriminate; reflexivity|].
  apply ordered_no_parts. apply filter_forallb. intros x Hx. unfold is_part. now rewrite Hx.
Qed.

(* an Assertion or EncryptedAssertion child that still contains an EncryptedData *)
Definition live (t : dtree) : bool := is_part t && has_enc t.

Lemma is_enc_has_enc t : is_enc t = true -> has_enc t = true.
Proof. destruct t; try discriminate. reflexivity. Qed.

Lemma In_eas k l : In k (eas l) -> In (DEA k) l.
Proof.
  unfold eas. intros H. apply in_flat_map in H as (t & Ht & Hk). destruct t; cbn in Hk; try contradiction.
  destruct Hk as [<-|[]]. exact Ht.
Qed.

Lemma In_asrts v l : In v (asrts l) -> In (DAsrt (v_a v) (v_dirty v) (v_advice v) (v_ext v)) l.
Proof.
  unfold asrts. intros H. apply in_flat_map in H as (t & Ht & Hv). destruct t; cbn in Hv; try contradiction.
  destruct Hv as [<-|[]]. exact Ht.
Qed.

Lemma live_has_enc t : live t = true -> has_enc t = true.
Proof. unfold live. intros H. now apply andb_true_iff in H. Qed.

Lemma some_ea_has_enc_live l : some_ea_has_enc l = true -> existsb live l = true.
Proof.
  unfold some_ea_has_enc. intros H. apply existsb_exists in H as (k & Hk & He). apply In_eas in Hk.
  apply existsb_exists. exists (DEA k). split; [exact Hk|]. unfold live. cbn [is_part is_asrt is_ea has_enc orb andb].
  eapply existsb_impl; [|exact He]. exact is_enc_has_enc.
Qed.

Lemma some_ea_has_enc_deep l : some_ea_has_enc l = true -> existsb has_enc l = true.
Proof. intros H. exact (existsb_impl _ _ _ live_has_enc (some_ea_has_enc_live l H)). Qed.

Lemma cond2_live root : cond2 root = true -> existsb live root = true.
Proof.
  unfold cond2, find_encrypt_data. intros H. apply orb_true_iff in H as [H|H]; [apply orb_true_iff in H as [H|H]|].
  - now apply some_ea_has_enc_live.
  - unfold advice_has_enc in H. apply existsb_exists in H as (v & Hv & He). apply In_asrts in Hv.
    apply existsb_exists. eexists. split; [exact Hv|]. unfold live. cbn [is_part is_asrt is_ea has_enc orb andb].
    now rewrite (some_ea_has_enc_deep _ He).
  - unfold advice_has_enc, ea_asrts in H. apply existsb_exists in H as (v & Hv & He). apply in_flat_map in Hv as (k & Hk & Hv).
    apply In_eas in Hk. apply In_asrts in Hv. apply existsb_exists. exists (DEA k). split; [exact Hk|].
    unfold live. cbn [is_part is_asrt is_ea has_enc orb andb]. apply existsb_exists. eexists. split; [exact Hv|].
    cbn [has_enc]. now rewrite (some_ea_has_enc_deep _ He).
Qed.

Lemma cond1_cond2 root : find_encrypt_data root = true -> cond2 root = true.
Proof. unfold cond2. intros ->. reflexivity. Qed.

(* [inner_step root root']: root' is root with ONE child x (not itself an EncryptedData) replaced by what
   open_first makes of it *)
Definition inner_step keys (root root' : list dtree) : Prop :=
  exists pre x x' post, root = pre ++ x :: post /\ root' = pre ++ x' :: post /\ is_enc x = false /\ open_first keys PFail x = Opened x'.

Lemma open_list_inner_step keys : forall root root', ordered root = true -> existsb live root = true ->
  open_list keys PFail root = Opened root' -> inner_step keys root root'.
Proof.
  induction root as [|x r IH]; intros root' Ho Hl H; [discriminate|]. rewrite open_list_cons in H.
  destruct (has_enc x) eqn:Hx.
  - destruct (is_enc x) eqn:Ex.
    + (* an EncryptedData child first: nothing live may follow, and it is not live itself *)
      exfalso. cbn [ordered] in Ho. rewrite Ex in Ho. cbn [existsb] in Hl. apply orb_true_iff in Hl as [Hl|Hl].
      * unfold live, is_part in Hl. destruct x; discriminate.
      * apply existsb_exists in Hl as (y & Hy & Hly). rewrite forallb_forall in Ho. specialize (Ho y Hy).
        unfold live in Hly. apply andb_true_iff in Hly as [Hp _]. rewrite Hp in Ho. discriminate.
    + pose proof (open_first_pfail keys x Hx) as N. destruct (open_first keys PFail x) as [x'| |] eqn:Eo; [|discriminate|congruence].
      injection H as <-. exists [], x, x', r. repeat split; auto.
  - rewrite (open_first_noenc _ _ _ Hx) in H. destruct (open_list keys PFail r) as [r'| |] eqn:Er; try discriminate. injection H as <-.
    assert (is_enc x = false) as Ex by (destruct x; try reflexivity; discriminate).
    cbn [ordered] in Ho. rewrite Ex in Ho. cbn [existsb] in Hl. unfold live at 1 in Hl. rewrite Hx, andb_false_r in Hl. cbn in Hl.
    destruct (IH r' Ho Hl eq_refl) as (pre & y & y' & post & -> & -> & Hy & Hoy).
    exists (x :: pre), y, y', post. repeat split; auto.
Qed.

Lemma open_first_keeps keys pol x x' : is_enc x = false -> open_first keys pol x = Opened x' ->
  is_enc x' = false /\ is_part x' = is_part x /\ as_of [x'] = as_of [x].
Proof.
  intros Ex Ho. pose proof (open_first_shape _ _ _ _ Ho) as S.
  destruct x as [a d adv ext|k|k|key p]; [destruct S as (adv' & ext' & ->)|destruct S as (k' & -> & _)|destruct S as (k' & ->)|discriminate];
    repeat split.
Qed.

(* no direct EncryptedData child: the step happened inside one of the children *)
Lemma open_list_keeps keys pol l l' : existsb is_enc l = false -> open_list keys pol l = Opened l' ->
  existsb is_enc l' = false /\ as_of l' = as_of l.
Proof.
  intros Hn H. apply open_list_split in H as (pre & y & y' & post & -> & -> & Hy & _).
  rewrite existsb_app in *. cbn [existsb] in *. apply orb_false_iff in Hn as [Hp Hn]. apply orb_false_iff in Hn as [Ey Hpost].
  destruct (open_first_keeps _ _ _ _ Ey Hy) as (Ey' & _ & Ay). rewrite Hp, Ey', Hpost, !as_of_app, (as_of_cons y), (as_of_cons y'), Ay.
  split; reflexivity.
Qed.

Lemma some_ea_has_enc_app l1 l2 : some_ea_has_enc (l1 ++ l2) = some_ea_has_enc l1 || some_ea_has_enc l2.
Proof. unfold some_ea_has_enc, eas. now rewrite flat_map_app, existsb_app. Qed.

Lemma inner_step_keeps keys root root' : inner_step keys root root' ->
  ordered root = true -> ordered root' = true /\ as_of root' = as_of root /\
  (some_ea_has_enc root = false -> some_ea_has_enc root' = false /\ ea_as_of root' = ea_as_of root).
Proof.
  intros (pre & x & x' & post & -> & -> & Ex & Ho) Hord.
  destruct (open_first_keeps _ _ _ _ Ex Ho) as (Ex' & Px & Ax).
  split; [|split].
  - clear - Hord Ex Ex' Px. induction pre as [|y pre IH]; cbn [app ordered] in *.
    + rewrite Ex in Hord. rewrite Ex'. exact Hord.
    + destruct (is_enc y); [|now apply IH]. rewrite forallb_app in *. apply andb_true_iff in Hord as [H1 H2]. rewrite H1. cbn [forallb andb] in *.
      now rewrite Px.
  - rewrite !as_of_app, (as_of_cons x' post), (as_of_cons x post), Ax. reflexivity.
  - change (x :: post) with ([x] ++ post). change (x' :: post) with ([x'] ++ post). rewrite !some_ea_has_enc_app, !ea_as_of_app.
    intros Hn. apply orb_false_iff in Hn as [Hp Hn]. apply orb_false_iff in Hn as [Hx Hpost]. rewrite Hp, Hpost.
    assert (some_ea_has_enc [x'] = false /\ ea_as_of [x'] = ea_as_of [x]) as [A B]; [|rewrite A, B; split; reflexivity].
    pose proof (open_first_shape _ _ _ _ Ho) as S. destruct x as [a d adv ext|k|k|key p]; try discriminate.
    + destruct S as (adv' & ext' & ->). split; reflexivity.
    + destruct S as (k' & -> & Hk). unfold some_ea_has_enc, ea_as_of, ea_asrts in *. cbn [eas flat_map app existsb] in *.
      rewrite !app_nil_r, orb_false_r in *. exact (open_list_keeps _ _ _ _ Hx Hk).
    + destruct S as (k' & ->). split; reflexivity.
Qed.

Lemma dec_loop_pfail_nofault cond keys : (forall root, cond root = true -> cond2 root = true) ->
  forall fuel root root' fs',
  dec_loop fuel cond keys PFail [] root = Some (root', fs') -> ordered root = true ->
  fs' = [] /\ ordered root' = true /\ as_of root' = as_of root /\
  (some_ea_has_enc root = false -> some_ea_has_enc root' = false /\ ea_as_of root' = ea_as_of root) /\
  (cond root' = false \/ forall r2, open_list keys PFail root' <> Opened r2).
Proof.
  intros Hc. induction fuel as [|f IH]; intros root root' fs' H Ho; [discriminate|]. cbn [dec_loop pop] in H.
  destruct (cond root) eqn:C; cbn [negb] in H.
  - destruct (open_list keys PFail root) as [r1| |] eqn:Eo.
    + pose proof (open_list_inner_step keys root r1 Ho (cond2_live _ (Hc _ C)) Eo) as St.
      destruct (inner_step_keeps _ _ _ St Ho) as (O1 & A1 & E1).
      destruct (IH _ _ _ H O1) as (F & O2 & A2 & E2 & T). split; [exact F|]. split; [exact O2|]. split; [congruence|]. split; [|exact T].
      intros Hn. destruct (E1 Hn) as [N1 X1]. destruct (E2 N1) as [N2 X2]. split; [exact N2|congruence].
    + injection H as <- <-. repeat split; auto. right. intros r2. congruence.
    + injection H as <- <-. repeat split; auto. right. intros r2. congruence.
  - injection H as <- <-. repeat split; auto.
Qed.

Lemma dec_loop_stuck cond keys pol : forall fuel fs root root' fs',
  (forall r2, open_list keys pol root <> Opened r2) -> dec_loop fuel cond keys pol fs root = Some (root', fs') ->
  root' = root /\ (fs' = fs \/ fs' = snd (pop fs)).
Proof.
  intros [|f] fs root root' fs' Hs H; [discriminate|]. cbn [dec_loop] in H.
  destruct (negb (cond root)); [injection H as <- <-; auto|]. destruct (pop fs) as [fault fs1]. cbn [snd].
  destruct (if fault then NoEnc else open_list keys pol root) as [r1| |] eqn:Eo;
    [exfalso; destruct fault; [discriminate|exact (Hs r1 Eo)]| |]; injection H as <- <-; auto.
Qed.

(* the two loops of parse_assertion one after the other *)
Lemma two_loops_nothing_new keys f1 f2 root t1 fs1 t2 fs2 :
  dec_loop f1 find_encrypt_data keys PFail [] (reserialize root) = Some (t1, fs1) ->
  dec_loop f2 cond2 keys PFail fs1 t1 = Some (t2, fs2) ->
  fs1 = [] /\ fs2 = [] /\ as_of t2 = as_of root /\ ea_as_of t2 = ea_as_of t1.
Proof.
  intros L1 L2.
  destruct (dec_loop_pfail_nofault find_encrypt_data keys cond1_cond2 _ _ _ _ L1 (ordered_reserialize root)) as (F1 & O1 & A1 & _ & T1).
  subst fs1. rewrite as_of_reserialize in A1. split; [reflexivity|].
  destruct T1 as [C1|S1].
  - destruct (dec_loop_pfail_nofault cond2 keys (fun _ H => H) _ _ _ _ L2 O1) as (F2 & _ & A2 & E2 & _).
    unfold find_encrypt_data in C1. apply orb_false_iff in C1 as [C1 _]. destruct (E2 C1) as [_ X]. repeat split; congruence.
  - destruct (dec_loop_stuck _ _ _ _ _ _ _ _ S1 L2) as [-> [-> | ->]]; repeat split; auto.
Qed.

Lemma parse_t_checked_nofault tc c irt req s root again :
  t_pol tc = PFail ->
  so_faults (parse_t tc c irt req s root again []) = [] /\
  (forall s', so_res (parse_t tc c irt req s root again []) = Ok s' ->
     exists l, acc s' = acc s ++ ids_of l /\ Forall (checked_view c irt req) l) /\
  (exists l, acc (so_residue (parse_t tc c irt req s root again [])) = acc s ++ ids_of l /\ Forall (checked_view c irt req) l).
Proof.
  intros Hpol. apply (parse_t_stage_checked (fun fs => fs = [])); [reflexivity|]. rewrite Hpol. intros t1 fs1 L1.
  destruct (dec_loop_pfail_nofault find_encrypt_data (t_keys tc) cond1_cond2 _ _ _ _ L1 (ordered_reserialize root)) as (F1 & _).
  split; [exact F1|]. intros t2 fs2 L2. destruct (two_loops_nothing_new _ _ _ _ _ _ _ _ L1 L2) as (_ & F2 & AP & SAME).
  split; [exact F2|]. intros _. split; [exact SAME|]. unfold as_of in AP. now rewrite !ids_of_map, AP.
Qed.
