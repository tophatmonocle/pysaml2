(* Proofs/ValidateDeep_lemmas.v - the depth statements of C13: a chain built from a depth number
   (Model/ValidateDeep.v) keeps its innermost instance reachable, for EVERY number of levels
   (induction over the depth), so the rejection theorem applies to it; whatever the steps preserve
   holds of the chain (deep_from_closed; with good_step this gives Props/C13.v its acceptance at any
   depth); repeated siblings; a toy schema as witness. *)
From PV Require Import Lib.Base Model.Schema Model.Validate Model.ValidateDeep
  Proofs.Schema_lemmas Proofs.Validate_lemmas.
Open Scope N_scope.

(* f wraps what it is given as a declared child: f x is an instance of a class of the schema
   whose child list holds x under a member the class row declares *)
Definition child_step (S : schema) (f : inst -> inst) : Prop :=
  forall x, exists c a t K xa xe r m,
    f x = I c a t K xa xe /\ find_row S c = Some r /\ In m (child_members r) /\ In (m, x) K.

Lemma step_of_child_step S c a t before m after xa xe r :
  find_row S c = Some r -> In m (child_members r) ->
  child_step S (step_of c a t before m after xa xe).
Proof.
  intros Hrow Hm x. exists c, a, t, (before ++ (m, x) :: after), xa, xe, r, m.
  split; [reflexivity|]. split; [exact Hrow|]. split; [exact Hm|].
  apply in_or_app. right. left. reflexivity.
Qed.

Lemma child_step_reach S f x j : child_step S f -> reach S x j -> reach S (f x) j.
Proof.
  intros Hf Hr. destruct (Hf x) as (c & a & t & K & xa & xe & r & m & Heq & Hrow & Hm & Hin).
  rewrite Heq. eapply reach_kid; [exact Hrow|exact Hm|exact Hin|exact Hr].
Qed.

Lemma reach_trans S a b c : reach S a b -> reach S b c -> reach S a c.
Proof.
  intros H1. induction H1 as [i|c0 a0 t K xa xe r m k j0 Hrow Hm Hin Hkj IH]; intros H2; [exact H2|].
  eapply reach_kid; [exact Hrow|exact Hm|exact Hin|apply IH; exact H2].
Qed.

(* whatever every step preserves holds of the chain, for every number of levels *)
Lemma deep_from_closed (Q : inst -> Prop) all : Forall (fun f => forall x, Q x -> Q (f x)) all ->
  forall n fs leaf, Forall (fun f => forall x, Q x -> Q (f x)) fs -> Q leaf -> Q (deep_from fs all n leaf).
Proof.
  intros Hall n. induction n as [|n IH]; intros fs leaf Hfs Hl; cbn [deep_from]; [exact Hl|].
  destruct Hfs as [|f r Hf Hr].
  - destruct Hall as [|f r Hf Hr]; [exact Hl|]. apply Hf, IH; assumption.
  - apply Hf, IH; assumption.
Qed.

Theorem deep_reach S steps n leaf : Forall (child_step S) steps -> reach S (deep steps n leaf) leaf.
Proof.
  intros H. assert (H' : Forall (fun f => forall x, reach S x leaf -> reach S (f x) leaf) steps).
  { apply (Forall_impl _ (fun f Hf x => child_step_reach S f x leaf Hf) H). }
  exact (deep_from_closed (fun x => reach S x leaf) steps H' n steps leaf H' (reach_refl S leaf)).
Qed.

(* acceptance: steps that keep a good tree good *)
Section Accept.
  Variables (prim : str -> str -> bool) (keys : list str) (S : schema).
  Variables (NIL M1 M2 M3 M4 M5 M6 M7 M8 M9 M10 M11 : N).
  Let goodi := good prim keys S NIL M1 M2 M3 M4 M5 M6 M7 M8 M9 M10 M11.
  Definition good_step (f : inst -> inst) : Prop := forall x, goodi x -> goodi (f x).
End Accept.

(* repeated siblings: whatever stands before and after it in a list, and however often an equal
   valid member is repeated, the member that carries the violation is reachable *)
Lemma wide_reach S c a t before m sib w x after xa xe r j :
  find_row S c = Some r -> In m (child_members r) -> reach S x j ->
  reach S (I c a t (before ++ wide m sib w x ++ after) xa xe) j.
Proof.
  intros Hrow Hm Hr. eapply reach_kid; [exact Hrow|exact Hm| |exact Hr].
  apply in_or_app. right. apply in_or_app. left. unfold wide.
  apply in_map_iff. exists x. split; [reflexivity|]. apply in_or_app. right. left. reflexivity.
Qed.

(* ---- non-vacuity: a one-class schema in which class 0 holds itself under member 1 and requires
   attribute member 2; the chain of ANY number of levels around an innermost instance without the
   attribute is refused, around one that carries it accepted *)
Definition TOY : schema :=
  [KR 0 100 [CR 10 1 (Some 0) false] [AR 20 2 TNone true] [] [] None [] [] [] [] true].
Definition toy_step : inst -> inst := step_of 0 [(2, s2l "v")] None [] 1 [] [] [].
Definition toy_bad : inst := I 0 [] None [] [] [].
Definition toy_good : inst := I 0 [(2, s2l "v")] None [] [] [].
Definition toy_prim (k v : str) : bool := true.

Lemma toy_plain_av : plain_av TOY.
Proof.
  intros c r Hrow Hv. unfold TOY, find_row in Hrow. cbn [find k_id] in Hrow.
  destruct (0 =? c) eqn:E.
  - inversion Hrow; subst. cbn in Hv. discriminate Hv.
  - discriminate Hrow.
Qed.

Lemma toy_child_step : Forall (child_step TOY) [toy_step].
Proof.
  constructor; [|constructor]. eapply step_of_child_step; [reflexivity|]. left. reflexivity.
Qed.

Example deep_example_rejected : forall n,
  (exists e, valid_instance toy_prim [s2l "string"] TOY 0 0 0 0 0 0 0 0 0 0 0 0 (deep [toy_step] n toy_bad) = Err e) /\
  (exists e, verify toy_prim [s2l "string"] TOY 0 0 0 0 0 0 0 0 0 0 0 0 (deep [toy_step] n toy_bad) = Err e).
Proof.
  intros n. apply (rejects_both _ _ _ _ _ _ _ _ _ _ _ _ _ _ _ _ toy_bad toy_plain_av (deep_reach TOY _ n _ toy_child_step)).
  eexists. split; [reflexivity|]. apply node_violationb_sound. vm_compute. reflexivity.
Qed.

Example deep_example_values :
  map (fun n => show_unit (valid_instance toy_prim [s2l "string"] TOY 0 0 0 0 0 0 0 0 0 0 0 0 (deep [toy_step] n toy_bad))) [0; 1; 33; 200]%nat
    = [VE MUST_VALUE; VE MUST_VALUE; VE MUST_VALUE; VE MUST_VALUE] /\
  map (fun n => show_unit (verify toy_prim [s2l "string"] TOY 0 0 0 0 0 0 0 0 0 0 0 0 (deep [toy_step] n toy_good))) [0; 1; 33; 200]%nat
    = [VB true; VB true; VB true; VB true].
Proof. vm_compute. split; reflexivity. Qed.
