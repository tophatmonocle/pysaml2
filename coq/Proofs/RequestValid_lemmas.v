(* Proofs/RequestValid_lemmas.v - C10 over the C13 judgement (Model/RequestValid.v) *)
From PV Require Import Lib.Base Model.Sigver Model.CertSelect Model.Xmlsec Model.Schema Model.Validate Model.Request
  Gen.SchemaTables Proofs.Schema_lemmas Proofs.Validate_lemmas Proofs.Validate_table Proofs.Request_lemmas
  Model.RequestValid.
Open Scope N_scope.

Lemma carried_judged prim i k b w d :
  carries k b (wire_judged prim i w) d -> exists d0, d = judged prim i d0 /\ carries k b w d0.
Proof.
  unfold carries. intros H. destruct w as [|[|d0]|[| | | |d0]]; cbn [wire_judged] in H;
    destruct H as [[H Hb]|[H Hb]]; try discriminate H; injection H as <-; exists d0; split; try reflexivity.
  - left. auto.
  - right. auto.
Qed.

(* d_valid of a judged document is the C13 verdict on its instance tree, by definition *)
Lemma judged_valid prim i d0 : d_valid (judged prim i d0) = vi_ok prim i.
Proof. reflexivity. Qed.

Lemma vi_ok_true prim i : vi_ok prim i = true -> vi prim i = ok.
Proof. unfold vi_ok, ok. destruct (vi prim i) as [[]|e]; [reflexivity|discriminate]. Qed.

(* handed over => valid_instance (the C13 model, on the tables of the working tree) passed on the instance tree *)
Lemma handed_over_valid_instance pre prim c k b w i d :
  parse_request_v pre true prim c k b w i = Ok (Some d) ->
  vi prim i = ok /\ exists d0, d = judged prim i d0 /\ carries k b w d0.
Proof.
  unfold parse_request_v. intros H.
  destruct (handed_over_only_if_valid _ _ _ _ _ _ H) as (Hc & _ & Hv & _).
  destruct (carried_judged _ _ _ _ _ _ Hc) as [d0 [-> Hc0]].
  split; [apply vi_ok_true; exact Hv|exists d0; split; [reflexivity|exact Hc0]].
Qed.

(* a required attribute that is missing or empty is a violation in the sense of C13_rejects *)
Lemma empty_required_violates prim keys j :
  required_missing_or_empty j -> violated prim keys actual_schema j.
Proof.
  destruct j as [|c attrs t K xa xe]; [intros []|].
  intros (r & a & Hrow & Hin & Hreq & Hval). exists r. split; [exact Hrow|].
  left. exists a. split; [exact Hin|]. left. split; [exact Hreq|].
  destruct Hval as [-> | ->]; reflexivity.
Qed.

Lemma empty_required_not_valid prim i j :
  reach actual_schema i j -> required_missing_or_empty j -> vi_ok prim i = false.
Proof.
  intros Hr He. unfold vi_ok, vi.
  destruct (rejects_both prim validator_keys actual_schema x_xsi_nil m_subject m_attribute_statement m_statement
              m_authn_statement m_authz_decision_statement m_one_time_use m_proxy_restriction m_authn_context_decl
              m_authn_context_decl_ref m_address m_dns_name i j actual_plain_av Hr (empty_required_violates prim _ j He))
    as [[e ->] _].
  reflexivity.
Qed.

(* EMPTY IS JUDGED AS ABSENT: the attribute test of a node cannot tell X="" from no X - for every attribute row,
   required or not, typed or not *)
Lemma attr_check_empty_as_absent prim keys S (attrs1 attrs2 : list (N * str)) a :
  alookup (a_member a) attrs1 = Some [] -> alookup (a_member a) attrs2 = None ->
  attr_check prim keys S attrs1 a = attr_check prim keys S attrs2 a.
Proof. intros H1 H2. unfold attr_check; cbv zeta. rewrite H1, H2. reflexivity. Qed.

(* ... hence two nodes that differ only in that (same class, text, children; attribute lists that agree on every
   member but have "" where the other has nothing) get the same verdict *)
Definition same_but_empty (attrs1 attrs2 : list (N * str)) : Prop :=
  forall m, alookup m attrs1 = alookup m attrs2 \/ (alookup m attrs1 = Some [] /\ alookup m attrs2 = None).
Lemma vi_node_empty_as_absent prim keys S r attrs1 attrs2 text vkids :
  same_but_empty attrs1 attrs2 ->
  vi_node prim keys S r attrs1 text vkids = vi_node prim keys S r attrs2 text vkids.
Proof.
  intros Hs. unfold vi_node. f_equal. f_equal. f_equal. apply map_ext. intros a.
  destruct (Hs (a_member a)) as [He|[H1 H2]].
  - unfold attr_check; cbv zeta. rewrite He. reflexivity.
  - apply attr_check_empty_as_absent; assumption.
Qed.
Lemma root_empty_as_absent prim c attrs1 attrs2 t K xa xe :
  same_but_empty attrs1 attrs2 ->
  vi prim (I c attrs1 t K xa xe) = vi prim (I c attrs2 t K xa xe).
Proof.
  intros Hs. unfold vi, valid_instance. destruct (find_row actual_schema c) as [r|]; [|reflexivity].
  apply vi_node_empty_as_absent. exact Hs.
Qed.
