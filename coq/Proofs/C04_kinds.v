(* Time windows for every binding, every response kind and along histories (Model/C04Kinds.v) *)
From PV Require Import Lib.Base Model.Status Model.Response Model.C04Kinds Proofs.Status_lemmas Proofs.Response_lemmas Proofs.C04_lemmas.
Open Scope Z_scope.

Definition issue_window_ok (nowv slackv t : Z) : Prop := nowv - 86400 - slackv <= t < nowv + 86400 + slackv.

Definition conditions_window_ok (nowv slackv : Z) (a : assertion) : Prop :=
  forall k, a_conditions a = Some k -> k_empty k = false ->
    (forall n, k_nooa k = Some n -> nowv <= n + slackv) /\ (forall n, k_nb k = Some n -> n <= nowv + slackv) /\
    (forall n m, k_nb k = Some n -> k_nooa k = Some m -> n <= m).
Definition session_window_ok (nowv slackv : Z) (a : assertion) : Prop :=
  forall n, a_authn a = [Some n] -> nowv <= n + slackv.
(* C04_lemmas.bearer_window_ok (singular) is this for ONE confirmation, under a cfg; assertion_windows below joins them *)
Definition bearer_windows_ok (nowv slackv : Z) (a : assertion) : Prop :=
  forall sc d, In sc (a_confirmations a) -> c_method sc = Bearer -> c_data sc = Some d ->
    (forall n, d_nooa d = Some n -> nowv <= n + slackv) /\ (forall n, d_nb d = Some n -> n <= nowv + slackv).

Definition assertion_windows_ok (nowv slackv : Z) (a : assertion) : Prop :=
  conditions_window_ok nowv slackv a /\ session_window_ok nowv slackv a /\ bearer_windows_ok nowv slackv a.
Definition windows_ok (nowv slackv : Z) (r : response) : Prop :=
  issue_window_ok nowv slackv (r_issue_instant r) /\ Forall (assertion_windows_ok nowv slackv) (processed r).

Lemma issue_instant_ok_window c t : issue_instant_ok c t = true -> issue_window_ok (now c) (slack c) t.
Proof. unfold issue_instant_ok, issue_window_ok. intros H. apply andb_true_iff in H as [A B]. lia. Qed.

Lemma verify_core_issue c r : verify_core (verify_in_of c r) = Ok (Some tt) -> issue_instant_ok c (r_issue_instant r) = true.
Proof. intros H. destruct (verify_core_ok _ H) as (_ & _ & _ & Hi & _). now injection Hi. Qed.

Lemma assertion_windows c irt a : test_mode c = false ->
  assertion_facts c irt a -> Forall (bearer_window_ok c) (a_confirmations a) -> assertion_windows_ok (now c) (slack c) a.
Proof.
  intros Ht F W. split; [|split].
  - intros k Hk He. exact (af_conditions_time _ _ _ F k Hk He Ht).
  - exact (af_session _ _ _ F).
  - intros sc d Hin. rewrite Forall_forall in W. exact (W sc Hin d).
Qed.

(* verify itself, whatever state and signature requirement it starts from; the IssueInstant part also in test mode *)
Lemma verify_issue c req s r s' : verify c req s r = Ok (Some s') -> issue_window_ok (now c) (slack c) (r_issue_instant r).
Proof. intros H. exact (issue_instant_ok_window _ _ (verify_core_issue _ _ (proj1 (verify_some _ _ _ _ _ H)))). Qed.

Lemma verify_windows c req s r s' : verify c req s r = Ok (Some s') -> test_mode c = false -> windows_ok (now c) (slack c) r.
Proof.
  intros Hver Ht. split; [exact (verify_issue _ _ _ _ _ Hver)|].
  destruct (parse_assertion_ok _ _ _ _ _ (proj1 (proj2 (verify_some _ _ _ _ _ Hver)))) as (Hall & Hp & Hd & _).
  assert (Forall (fun a => Forall (bearer_window_ok c) (a_confirmations a)) (processed r)) as Hw.
  { apply Forall_app. split; (eapply Forall_impl; [|eassumption]); intros a (sa & sa' & Ha);
      exact (check_assertion_windows _ _ _ _ _ _ _ Ha). }
  eapply Forall_impl; [|exact (Forall_and Hall Hw)]. intros a [F W]. exact (assertion_windows c _ a Ht F W).
Qed.

Lemma reject_outside c r o : parse_response c r = Ok o -> test_mode c = false -> windows_ok (now c) (slack c) r.
Proof.
  intros H Ht. destruct (parse_response_accepted c r o H) as [_ _ (req & s & s' & Hver & _) _].
  exact (verify_windows _ _ _ _ _ Hver Ht).
Qed.

Lemma authn_via_inv b c r o : parse_authn_via b c r = Ok o ->
  unravel_known b = true /\ parse_response (with_asynch c (asynchop_of b)) r = Ok o.
Proof. unfold parse_authn_via. destruct (unravel_known b); [intros H; split; [reflexivity|exact H]|discriminate]. Qed.

Lemma authn_via_windows b c r o : parse_authn_via b c r = Ok o -> test_mode c = false -> windows_ok (now c) (slack c) r.
Proof.
  intros H Ht. destruct (authn_via_inv _ _ _ _ H) as [_ Hp].
  exact (reject_outside (with_asynch c (asynchop_of b)) r o Hp Ht).
Qed.

Lemma processed_view k r : processed (query_view k r) = map (view_assertion k) (processed r).
Proof.
  unfold processed. cbn [query_view r_encrypted r_assertions]. rewrite decrypted_prefix_map, map_app. reflexivity.
Qed.

(* what an accepted query response guarantees: IssueInstant, every bearer confirmation, and — attribute
   queries — the Conditions; SessionNotOnOrAfter is not looked at for these kinds *)
Definition query_windows_ok (k : qkind) (nowv slackv : Z) (r : response) : Prop :=
  issue_window_ok nowv slackv (r_issue_instant r) /\
  Forall (fun a => bearer_windows_ok nowv slackv a /\ (k = QAttr -> conditions_window_ok nowv slackv a)) (processed r).

Lemma view_windows k nowv slackv r : windows_ok nowv slackv (query_view k r) -> query_windows_ok k nowv slackv r.
Proof.
  intros [Hi Hall]. split; [exact Hi|]. rewrite processed_view, Forall_map in Hall.
  eapply Forall_impl; [|exact Hall]. intros a (Hk & _ & Hb). split; [exact Hb|]. intros ->. exact Hk.
Qed.

Lemma query_windows k b c r o : parse_query k b c r = Ok o -> query_windows_ok k (now c) (slack c) r.
Proof.
  unfold parse_query. destruct (unravel_known b); [|discriminate]. intros H.
  exact (view_windows k _ _ r (reject_outside _ _ _ H eq_refl)).
Qed.

Lemma status_windows k b c r u : parse_status k b c r = Ok u -> issue_window_ok (now c) (slack c) (r_issue_instant r).
Proof.
  unfold parse_status. destruct (negb (unravel_known b)); [discriminate|].
  destruct (match r_sig r with None => Ok tt | Some res => res end); [|discriminate].
  destruct (negb (r_valid_instance r)); [discriminate|].
  match goal with |- (if ?x then _ else _) = _ -> _ => destruct x; [discriminate|] end.
  set (c' := with_asynch c (skind_asynch k b)).
  unfold parse_tail. destruct (status_verify (verify_in_of c' r)) as [[[]|]|] eqn:Es; try discriminate. intros _.
  exact (issue_instant_ok_window c' _ (verify_core_issue _ _ (status_verify_core _ Es))).
Qed.

(* what acceptance of a call of kind [k] guarantees *)
Definition kind_windows_ok (k : kind) (test : bool) (nowv slackv : Z) (r : response) : Prop :=
  match k with
  | KAuthn => if test then issue_window_ok nowv slackv (r_issue_instant r) else windows_ok nowv slackv r
  | KQuery q => query_windows_ok q nowv slackv r
  | KStatus _ => issue_window_ok nowv slackv (r_issue_instant r)
  end.

Lemma every_kind_windows k b c r : accepted k b c r = true -> kind_windows_ok k (test_mode c) (now c) (slack c) r.
Proof.
  destruct k as [|q|s]; cbn [accepted kind_windows_ok].
  - destruct (parse_authn_via b c r) as [o|] eqn:E; [intros _|discriminate]. destruct (test_mode c) eqn:Ht.
    + destruct (parse_response_accepted _ _ _ (proj2 (authn_via_inv _ _ _ _ E))) as [_ _ (req & s & s' & Hver & _) _].
      exact (verify_issue _ _ _ _ _ Hver).
    + exact (authn_via_windows _ _ _ _ E Ht).
  - destruct (parse_query q b c r) as [o|] eqn:E; [intros _|discriminate]. exact (query_windows _ _ _ _ _ E).
  - destruct (parse_status s b c r) as [u|] eqn:E; [intros _|discriminate]. exact (status_windows _ _ _ _ _ E).
Qed.

Lemma kind_windows_issue k test nowv slackv r : kind_windows_ok k test nowv slackv r -> issue_window_ok nowv slackv (r_issue_instant r).
Proof. destruct k as [|q|s]; [destruct test| |]; intros H; [exact H|exact (proj1 H)|exact (proj1 H)|exact H]. Qed.

(* a long-lived SP: the state is handed on unchanged, each call is judged on its own *)
Lemma run_history_eq sp ks :
  run_history sp ks = (sp, map (fun k => accepted (k_kind k) (k_binding k) (cfg_at sp k) (k_msg k)) ks).
Proof. induction ks as [|k rest IH]; [reflexivity|]. cbn [run_history step map]. rewrite IH. reflexivity. Qed.
