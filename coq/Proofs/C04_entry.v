(* The other public ways into response verification (Model/C04Entry.v) and the process time zone. *)
From PV Require Import Lib.Base Model.Status Model.Response Model.C04Kinds Model.C04Entry
  Proofs.Response_lemmas Proofs.C04_lemmas Proofs.C04_kinds.
From PV Require Model.TimeUtil Proofs.TimeUtil_lemmas.
Open Scope Z_scope.

Lemma flags_passed_on e cf a : flags_of e cf a = asked e cf a.
Proof. destruct e; reflexivity. Qed.

Lemma test_only_when_named e cf a : f_test (asked e cf a) = true -> has_test e = true /\ a_test a = Some true.
Proof.
  unfold asked. cbn [f_test]. destruct (has_test e); [|discriminate].
  destruct (a_test a) as [[|]|]; cbn [dflt]; try discriminate. intros _. split; reflexivity.
Qed.

Lemma loads_verify_windows c r s : loads_verify c r = Ok (Some s) -> test_mode c = false -> windows_ok (now c) (slack c) r.
Proof.
  unfold loads_verify. destruct (loads c (wrs c) r) as [s0|]; [|discriminate].
  destruct (negb (r_valid_instance r)); [discriminate|]. apply verify_windows.
Qed.
Lemma factory_verify_windows c r s : factory_verify c r = Ok (Some s) -> test_mode c = false -> windows_ok (now c) (slack c) r.
Proof.
  unfold factory_verify. destruct (response_sig_stage false r) as [[]|]; [|discriminate].
  destruct (negb (r_valid_instance r)); [discriminate|].
  destruct (r_assertions r) as [|a l]; [destruct (r_encrypted r); [discriminate|]|]; apply verify_windows.
Qed.

Definition ctx_windows_ok (x : ectx) (nowv slackv : Z) (r : response) : Prop :=
  match x with
  | XAuthn => windows_ok nowv slackv r
  | XAuthnQuery => query_windows_ok QAuthnQuery nowv slackv r
  | XAttr | XAuthz | XArtifact => query_windows_ok QAttr nowv slackv r
  end.

Lemma object_verify_windows x fac c r s :
  object_verify x fac c r = Ok (Some s) -> test_mode c = false -> ctx_windows_ok x (now c) (slack c) r.
Proof.
  unfold object_verify. intros H Ht.
  assert (windows_ok (now c) (slack c) (ctx_view x r)) as W.
  { destruct fac; [exact (factory_verify_windows _ _ _ H Ht)|exact (loads_verify_windows _ _ _ H Ht)]. }
  destruct x; cbn [ctx_view ctx_windows_ok] in *; [exact W| | | |]; apply view_windows; exact W.
Qed.

(* every entry point, every way of writing the call: accepted => the windows hold at the allowance the caller gave,
   unless the caller named test=True on a constructor that has the parameter *)
Lemma entry_windows e cf nowv a r s :
  entry_verify e cf nowv a r = Ok (Some s) -> (has_test e = true -> a_test a <> Some true) ->
  ctx_windows_ok (ctx_of e) nowv (f_slack (asked e cf a)) r.
Proof.
  unfold entry_verify. rewrite flags_passed_on. intros H Hn.
  apply (object_verify_windows _ _ _ _ _ H). cbn [cfg_of test_mode].
  destruct (f_test (asked e cf a)) eqn:Et; [|reflexivity].
  destruct (test_only_when_named _ _ _ Et) as [A B]. destruct (Hn A B).
Qed.

(* The process time zone.
   A zone is its offset from UTC in seconds (fixed for the instant in question).  time.localtime / time.mktime of
   the C library: *)
Module TU := PV.Model.TimeUtil.
Module TL := PV.Proofs.TimeUtil_lemmas.
Definition localtime (zone t : Z) : TU.struct_time := TU.gmtime (t + zone).
Definition mktime (zone : Z) (c : TU.struct_time) : Z := TU.timegm c - zone.
(* utc_now() as the library has it, and the variant that goes through mktime *)
Definition utc_now (zone now : Z) : Z := TU.timegm (TU.gmtime now).
Definition utc_now_mktime (zone now : Z) : Z := mktime zone (TU.gmtime now).

(* localtime, mktime and utc_now_mktime are t_localtime, t_mktime and utc_time_sans_frac of Model/RequestWindow.v at
   the process clock {| pc_now := now; pc_ahead := zone |}; the lemma is utc_time_sans_frac_eq of RequestWindow_lemmas there *)
Lemma mixing_mktime_with_timegm zone now : utc_now_mktime zone now = now - zone.
Proof. unfold utc_now_mktime, mktime. rewrite TL.timegm_gmtime. reflexivity. Qed.
