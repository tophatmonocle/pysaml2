(* Proofs/Soap_lemmas.v — the string branch of make_soap_enveloped_saml_thingy: on a text without an occurrence of
   the XML declaration remove_all changes nothing, and after_qgt cuts at the first "?>". *)
From PV Require Import Lib.Base Model.Codec.
Open Scope N_scope.

(* p occurs nowhere in s *)
Fixpoint no_occ (p s : str) : bool :=
  match s with
  | [] => true
  | c :: r => match strip_prefix p s with Some _ => false | None => no_occ p r end
  end.

Lemma remove_all_fuel_id p s : forall fuel, no_occ p s = true -> remove_all_fuel fuel p s = s.
Proof.
  induction s as [|c r IH]; intros [|f] H; try reflexivity.
  cbn [remove_all_fuel]. cbn [no_occ] in H. destruct (strip_prefix p (c :: r)); [discriminate|].
  now rewrite IH.
Qed.

Lemma after_qgt_app d body : after_qgt d = None -> after_qgt (d ++ 63 :: 62 :: body) = Some body.
Proof.
  induction d as [|c d IH]; intros H; [reflexivity|].
  destruct d as [|e d'].
  - cbn [app after_qgt]. replace (63 =? 62) with false by reflexivity. rewrite andb_false_r. reflexivity.
  - cbn [app after_qgt] in *. destruct ((c =? 63) && (e =? 62)); [discriminate|]. apply IH. exact H.
Qed.

