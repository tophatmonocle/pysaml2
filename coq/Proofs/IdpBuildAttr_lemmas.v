(* Proofs/IdpBuildAttr_lemmas.v — C08, attribute level: str.strip only trims,
   the attribute statement survives serialisation and reading, and identity ->
   from_local -> to_local delivers every attribute under its documented local
   name with trimmed values; what the regenerated tables say about names (one-pass
   evaluator [rows]); the value-carrying parts of the assertion are well-formed XML
   (wf_payload); the shapes of what is asserted, with the statement's and the name-id's
   structure as functions of them (the payload's is assembled in Props/C08.v). *)
From PV Require Import Lib.Base Model.Codec Model.IdpBuild Gen.AttrMaps Proofs.IdpBuild_lemmas Proofs.IdpBuildTree_lemmas.
Open Scope N_scope.

Lemma lstrip_spec s : exists a, s = a ++ lstrip s /\ forallb is_space a = true /\
  (match lstrip s with c :: _ => is_space c = false | [] => True end).
Proof.
  induction s as [|c s (a & E & A & H)]; [exists []; repeat split|].
  cbn [lstrip]. destruct (is_space c) eqn:Ec.
  - exists (c :: a). cbn [app forallb]. rewrite Ec, A. split; [now f_equal|]. split; [reflexivity|exact H].
  - exists []. repeat split. exact Ec.
Qed.

(* ... and from the other end: what strip does after lstrip *)
Lemma rstrip_spec t : exists b, t = rev (lstrip (rev t)) ++ b /\ forallb is_space b = true /\
  (match lstrip (rev t) with c :: _ => is_space c = false | [] => True end).
Proof.
  destruct (lstrip_spec (rev t)) as (b & E & B & H). exists (rev b). split; [|split; [|exact H]].
  - rewrite <- rev_app_distr, <- E. now rewrite rev_involutive.
  - rewrite forallb_forall in B |- *. intros x Hx. apply B. now apply in_rev.
Qed.

Lemma strip_no_space s : forallb (fun c => negb (is_space c)) s = true -> strip s = s.
Proof.
  intros H. unfold strip.
  assert (forall t, (match t with c :: _ => is_space c = false | [] => True end) -> lstrip t = t) as L.
  { intros [|c t] Ht; [reflexivity|]. cbn [lstrip]. now rewrite Ht. }
  rewrite (L s).
  - rewrite L; [apply rev_involutive|].
    destruct (rev s) as [|c t] eqn:E; [exact I|]. rewrite forallb_forall in H.
    assert (In c s) as Hc by (apply in_rev; rewrite E; now left). specialize (H c Hc). now apply negb_true_iff in H.
  - destruct s as [|c t]; [exact I|]. cbn [forallb] in H. apply andb_true_iff in H as [H _]. now apply negb_true_iff in H.
Qed.

Definition legal (s : str) : bool := forallb xml_char s.
Definition legal_opt (o : option str) : bool := match o with Some s => legal s | None => true end.
Definition legal_value (v : aval) : bool := match v with AText s => legal s | ANameID f s => legal f && legal s | AOther s => legal s end.
Definition legal_attribute (a : attribute) : bool :=
  legal (at_name a) && legal_opt (at_format a) && legal_opt (at_friendly a) && forallb legal_value (at_values a).

Lemma wf_value v : legal_value v = true -> wf_xml (value_xml v) = true.
Proof.
  destruct v as [s|f s|s]; cbn [legal_value value_xml]; intros H.
  - cbn [wf_xml forallb fst snd nodup_keys has_key existsb]. unfold legal in H. rewrite H.
    reflexivity.
  - apply andb_true_iff in H as [Hf Hs]. unfold legal in *.
    cbn [wf_xml forallb fst snd nodup_keys has_key existsb]. rewrite Hf, Hs. reflexivity.
  - unfold legal in H. cbn [wf_xml forallb fst snd nodup_keys has_key existsb]. rewrite H. reflexivity.
Qed.

Lemma wf_attribute a : legal_attribute a = true -> wf_xml (attribute_xml a) = true.
Proof.
  unfold legal_attribute. intros H.
  apply andb_true_iff in H as [H Hv]. apply andb_true_iff in H as [H Hfr]. apply andb_true_iff in H as [Hn Hf].
  unfold attribute_xml. cbn [wf_xml].
  assert (forallb wf_xml (map value_xml (at_values a)) = true) as ->.
  { rewrite forallb_map. rewrite forallb_forall in Hv |- *. intros v Hin. apply wf_value, Hv, Hin. }
  rewrite andb_true_r. cbn [forallb andb].
  unfold legal in Hn. destruct (at_format a) as [f|], (at_friendly a) as [g|];
    cbn [opt_attr app forallb fst snd nodup_keys has_key existsb legal_opt] in *; unfold legal in *;
    rewrite ?Hn, ?Hf, ?Hfr; reflexivity.
Qed.

Definition legal_attributes (l : list attribute) : bool := forallb legal_attribute l.

Theorem wf_statement l : legal_attributes l = true -> wf_xml (attr_statement_xml l) = true.
Proof.
  intros H. unfold attr_statement_xml. cbn [wf_xml forallb nodup_keys andb].
  assert (name_ok (T "AttributeStatement") = true) as -> by (reflexivity). cbn [andb].
  rewrite forallb_map. unfold legal_attributes in H. rewrite forallb_forall in H |- *. intros a Ha. apply wf_attribute, H, Ha.
Qed.

(* harvesting what was rendered gives it back: the children rendered by [f] all pass the test [p] (carry the tag) and are read by [g] *)
Lemma harvest_rendered {X Y} (f : X -> Y) (g : Y -> X) (p : Y -> bool) l :
  (forall x, p (f x) = true) -> (forall x, g (f x) = x) -> map g (filter p (map f l)) = l.
Proof.
  intros Ht Hg. induction l as [|x l IH]; [reflexivity|]. cbn [map filter]. rewrite Ht. cbn [map]. now rewrite Hg, IH.
Qed.

Lemma attribute_of_attribute_xml a : attribute_of_xml (attribute_xml a) = a.
Proof.
  destruct a as [n f g vs]. unfold attribute_of_xml, attribute_xml. cbn [x_attrs x_kids at_name at_format at_friendly at_values].
  rewrite harvest_rendered by (intros []; reflexivity). destruct f as [f|], g as [g|]; reflexivity.
Qed.

Theorem attrs_of_statement l : attrs_of_statement_xml (attr_statement_xml l) = l.
Proof. apply harvest_rendered; [reflexivity|exact attribute_of_attribute_xml]. Qed.

(* what the XML end-of-line rule does to the values (nothing when they contain no CR) *)
Definition norm_value (v : aval) : aval :=
  match v with AText s => AText (norm_eol s) | ANameID f s => ANameID f (norm_eol s) | AOther s => AOther (norm_eol s) end.
Definition norm_attribute (a : attribute) : attribute :=
  {| at_name := at_name a; at_format := at_format a; at_friendly := at_friendly a; at_values := map norm_value (at_values a) |}.

Lemma norm_statement l : norm_xml (attr_statement_xml l) = attr_statement_xml (map norm_attribute l).
Proof.
  unfold attr_statement_xml. cbn [norm_xml norm_eol]. f_equal. rewrite !map_map. apply map_ext. intros a.
  unfold attribute_xml, norm_attribute. cbn [norm_xml norm_eol at_name at_format at_friendly at_values]. f_equal.
  rewrite !map_map. apply map_ext. intros [s|f s|s]; reflexivity.
Qed.

(* IdP attributes -> XML text -> reader -> attributes *)
Theorem attributes_through_text l : legal_attributes l = true ->
  option_map attrs_of_statement_xml (xml_parse (serialise (attr_statement_xml l))) = Some (map norm_attribute l).
Proof.
  intros H. rewrite (parse_serialise _ (wf_statement l H)). cbn [option_map]. now rewrite norm_statement, attrs_of_statement.
Qed.

Definition no_cr (s : str) : bool := forallb (fun c => negb (c =? 13)) s.
Definition no_cr_attribute (a : attribute) : bool :=
  forallb (fun v => match v with AText s => no_cr s | ANameID _ s => no_cr s | AOther s => no_cr s end) (at_values a).
Lemma norm_attribute_id a : no_cr_attribute a = true -> norm_attribute a = a.
Proof.
  destruct a as [n f g vs]. unfold no_cr_attribute, norm_attribute. cbn [at_name at_format at_friendly at_values]. intros H. f_equal.
  induction vs as [|v vs IH]; [reflexivity|]. cbn [forallb] in H. apply andb_true_iff in H as [Hv Hvs]. cbn [map]. rewrite (IH Hvs). f_equal.
  destruct v as [s|f' s|s]; cbn [norm_value]; unfold no_cr in Hv; now rewrite (norm_eol_id _ Hv).
Qed.
Theorem attributes_through_text_exact l : legal_attributes l = true -> forallb no_cr_attribute l = true ->
  option_map attrs_of_statement_xml (xml_parse (serialise (attr_statement_xml l))) = Some l.
Proof.
  intros H C. rewrite (attributes_through_text l H). f_equal.
  induction l as [|a l IH]; [reflexivity|]. cbn [forallb legal_attributes] in *.
  apply andb_true_iff in H as [_ H2]. apply andb_true_iff in C as [C1 C2]. cbn [map]. now rewrite (norm_attribute_id a C1), (IH H2 C2).
Qed.

(* the structure of the statement depends on the shape of the identity only *)
Definition opt_shape {X} (o : option X) : bool := match o with Some _ => true | None => false end.
Definition value_shape (v : aval) : nat := match v with AText _ => 0%nat | ANameID _ _ => 1%nat | AOther _ => 2%nat end.
Definition attribute_shape (a : attribute) : bool * bool * list nat :=
  (match at_format a with Some _ => true | None => false end, match at_friendly a with Some _ => true | None => false end,
   map value_shape (at_values a)).

Lemma attribute_shape_eq a : attribute_shape a = (opt_shape (at_format a), opt_shape (at_friendly a), map value_shape (at_values a)).
Proof. reflexivity. Qed.

(* an optional attribute contributes its name or nothing, whatever its value *)
Lemma opt_attr_names n (v1 v2 : option str) : opt_shape v1 = opt_shape v2 -> map fst (opt_attr n v1) = map fst (opt_attr n v2).
Proof. destruct v1, v2; (discriminate || reflexivity). Qed.

Theorem statement_skeleton l1 l2 : map attribute_shape l1 = map attribute_shape l2 ->
  skeleton (attr_statement_xml l1) = skeleton (attr_statement_xml l2).
Proof.
  intros H. unfold attr_statement_xml. cbn [skeleton map]. f_equal. rewrite !map_map.
  revert l2 H. induction l1 as [|a l1 IH]; intros [|b l2] H; try discriminate; [reflexivity|].
  cbn [map] in H |- *. rewrite !attribute_shape_eq in H. injection H as Hf Hg Hv Hl. f_equal; [|now apply IH].
  unfold attribute_xml. cbn [skeleton map].
  f_equal.
  - rewrite !map_app. now rewrite (opt_attr_names _ _ _ Hf), (opt_attr_names _ _ _ Hg).
  - rewrite !map_map. clear - Hv. revert Hv. generalize (at_values b). induction (at_values a) as [|v vs IHv]; intros [|w ws] Hv; try discriminate; [reflexivity|].
    cbn [map] in Hv |- *. injection Hv as H1 H2. f_equal; [|now apply IHv].
    destruct v, w; try discriminate; reflexivity.
Qed.

Lemma nameid_skeleton n1 n2 :
  opt_shape (n_nq n1) = opt_shape (n_nq n2) -> opt_shape (n_spq n1) = opt_shape (n_spq n2) ->
  opt_shape (n_format n1) = opt_shape (n_format n2) -> skeleton (nameid_xml n1) = skeleton (nameid_xml n2).
Proof.
  intros Hq Hs Hf. unfold nameid_xml. cbn [skeleton map]. f_equal. rewrite !map_app.
  now rewrite (opt_attr_names _ _ _ Hq), (opt_attr_names _ _ _ Hs), (opt_attr_names _ _ _ Hf).
Qed.

Fixpoint first_conv (acs : list conv) (nf : str) : option conv :=
  match acs with [] => None | c :: r => if str_eqb (c_nf c) nf then Some c else first_conv r nf end.

Lemma from_local_first acs ava nf :
  from_local acs ava nf = option_map (fun c => map (to_attr c) ava) (first_conv acs nf).
Proof. induction acs as [|c r IH]; [reflexivity|]. cbn [from_local first_conv]. destruct (str_eqb (c_nf c) nf); [reflexivity|exact IH]. Qed.

Lemma first_conv_nf acs nf c : first_conv acs nf = Some c -> c_nf c = nf.
Proof.
  induction acs as [|c0 r IH]; [discriminate|]. cbn [first_conv]. destruct (str_eqb_spec (c_nf c0) nf) as [E|_]; [|exact IH].
  intros H. injection H as <-. exact E.
Qed.

(* the first converter of a format is one of the converters, and the first of its own format *)
Lemma first_conv_in acs nf c : first_conv acs nf = Some c -> In c acs /\ first_conv acs (c_nf c) = Some c.
Proof.
  intros H. pose proof (first_conv_nf acs nf c H) as E. rewrite E. split; [|exact H].
  clear E. induction acs as [|c0 r IH]; [discriminate|]. cbn [first_conv] in H.
  destruct (str_eqb (c_nf c0) nf); [injection H as <-; now left|right; now apply IH].
Qed.

Definition plain_values (vals : list str) : list rval := map (fun v => RStr (strip v)) vals.

(* the name an identity key travels under, when the IdP's converter knows the key *)
Definition wire_name (c : conv) (key : str) : option str :=
  match dict_get (lower key) (c_to c) with Some (x :: n) => Some (x :: n) | _ => None end.
(* the local name the first of the converters cs that knows the (lower-cased, trimmed) wire name n gives it *)
Fixpoint first_local (cs : list conv) (n : str) : option str :=
  match cs with
  | [] => None
  | c :: r => match dict_get n (c_fro c) with Some l => Some l | None => first_local r n end
  end.
(* ... and the local name under which the SP reports it: the SP's converters for that format, in order *)
Definition sp_name (c : conv) (sp_acs : list conv) (key : str) : option str :=
  match wire_name c key with
  | Some name => first_local (convs_for (c_nf c) sp_acs) (lower (strip name))
  | None => None
  end.
(* eduPersonTargetedID travels as NameID elements, which the reader unwraps under exactly that local
   name: the SP's table must report the OID under the name eduPersonTargetedID (spelled so) *)
Definition eptid_ok (wire local : option str) : bool :=
  match wire, local with Some n, Some l => if str_eqb n EPTID_OID then str_eqb l EPTID else true | _, _ => true end.
Definition eptid_named (c : conv) (sp_acs : list conv) (key : str) : bool :=
  match wire_name c key, sp_name c sp_acs key with
  | Some name, Some local => if str_eqb name EPTID_OID then str_eqb local EPTID else true
  | _, _ => true
  end.

Lemma first_known_local cs a :
  first_known cs a =
  option_map (fun l => (l, map (read_value l) (at_values a))) (first_local cs (lower (strip (at_name a)))).
Proof.
  induction cs as [|c r IH]; [reflexivity|]. cbn [first_known first_local]. unfold ava_from.
  destruct (dict_get (lower (strip (at_name a))) (c_fro c)); [reflexivity|exact IH].
Qed.

Lemma first_local_nonempty cs n l : first_local cs n = Some l -> cs <> [].
Proof. destruct cs; [discriminate|discriminate]. Qed.

(* read_attr in terms of the converters for the format *)
Lemma read_attr_known sp_acs allow a l :
  first_local (convs_for (parsed_format a) sp_acs) (lower (strip (at_name a))) = Some l ->
  read_attr sp_acs allow a = Some (l, map (read_value l) (at_values a)).
Proof.
  intros H. unfold read_attr. pose proof (first_known_local (convs_for (parsed_format a) sp_acs) a) as K.
  rewrite H in K. cbn [option_map] in K.
  destruct (convs_for (parsed_format a) sp_acs) as [|c0 r]; [discriminate|]. now rewrite K.
Qed.

Lemma read_values_text l vals : map (read_value l) (map AText vals) = map (fun v => RStr (strip v)) vals.
Proof. now rewrite map_map. Qed.
Lemma read_values_nameid fmt vals : map (read_value EPTID) (map (ANameID fmt) vals) = map (fun v => RStr (strip v)) vals.
Proof.
  rewrite map_map. apply map_ext. intros v. cbn [read_value].
  now rewrite str_eqb_refl.
Qed.

(* a key the converter does not know travels under its own name, format uri, text values *)
Lemma to_attr_unmapped c key vals : wire_name c key = None ->
  to_attr c (key, vals) = {| at_name := key; at_format := Some NAME_FORMAT_URI; at_friendly := None; at_values := map AText vals |}.
Proof.
  unfold wire_name, to_attr. cbn [fst snd]. now destruct (dict_get (lower key) (c_to c)) as [[|x n]|].
Qed.

(* what the SP makes of an attribute with text values only *)
Lemma read_attr_text sp_acs allow name nf fr vals :
  read_attr sp_acs allow {| at_name := name; at_format := Some nf; at_friendly := fr; at_values := map AText vals |} =
  match convs_for nf sp_acs with
  | [] => if str_eqb nf NAME_FORMAT_UNSPECIFIED || allow then Some (strip name, plain_values vals) else None
  | cs => match first_local cs (lower (strip name)) with
          | Some local => Some (local, plain_values vals)
          | None => if allow then Some (strip name, plain_values vals) else None
          end
  end.
Proof.
  assert (lcd_ava_from {| at_name := name; at_format := Some nf; at_friendly := fr; at_values := map AText vals |} =
          (strip name, plain_values vals)) as L by (unfold lcd_ava_from, plain_values; cbn [at_name at_values]; now rewrite map_map).
  unfold read_attr, parsed_format. cbn [at_format]. rewrite L.
  destruct (convs_for nf sp_acs) as [|c0 r]; [reflexivity|].
  rewrite first_known_local. cbn [at_name at_values].
  destruct (first_local (c0 :: r) (lower (strip name))); cbn [option_map]; [|reflexivity]. now rewrite read_values_text.
Qed.

Lemma deliver_mapped c sp_acs allow key vals local :
  sp_name c sp_acs key = Some local -> eptid_named c sp_acs key = true ->
  read_attr sp_acs allow (to_attr c (key, vals)) = Some (local, plain_values vals).
Proof.
  unfold eptid_named, sp_name, wire_name, to_attr. cbn [fst snd].
  destruct (dict_get (lower key) (c_to c)) as [[|x n]|] eqn:Ew; try discriminate.
  intros Hl He. rewrite Hl in He.
  rewrite (read_attr_known sp_acs allow _ local); [|exact Hl].
  cbn [at_values]. f_equal. f_equal. unfold plain_values.
  destruct (str_eqb (x :: n) EPTID_OID).
  - apply str_eqb_eq in He. subst local. apply read_values_nameid.
  - apply read_values_text.
Qed.

(* a name not yet in the dictionary is appended *)
Lemma ava_add_fresh k vs d : (forall kv, In kv d -> fst kv <> k) -> ava_add k vs d = d ++ [(k, vs)].
Proof.
  induction d as [|[k' vs'] d IH]; intros H; [reflexivity|]. cbn [ava_add app].
  destruct (str_eqb_spec k k') as [E|_].
  - exfalso. apply (H (k', vs')); [now left|]. cbn. congruence.
  - f_equal. apply IH. intros kv Hin. apply H. now right.
Qed.

Lemma list_to_local_from_fresh c sp_acs allow : forall ident locals d,
  map (fun kv => sp_name c sp_acs (fst kv)) ident = map Some locals ->
  Forall (fun kv => eptid_named c sp_acs (fst kv) = true) ident ->
  NoDup locals -> (forall kv, In kv d -> ~ In (fst kv) locals) ->
  list_to_local_from sp_acs allow (map (to_attr c) ident) d = d ++ combine locals (map (fun kv => plain_values (snd kv)) ident).
Proof.
  induction ident as [|[key vals] ident IH]; intros [|l locals] d Hn He Hd Hfresh; try discriminate.
  - cbn. now rewrite app_nil_r.
  - cbn [map fst] in Hn. injection Hn as Hn1 Hn2. inversion He as [|? ? E1 E2]; subst. inversion Hd as [|? ? D1 D2]; subst.
    cbn [map list_to_local_from fst snd combine]. cbn [fst snd] in E1.
    rewrite (deliver_mapped c sp_acs allow key vals l Hn1 E1).
    rewrite ava_add_fresh.
    + rewrite (IH locals _ Hn2 E2 D2).
      * rewrite <- app_assoc. reflexivity.
      * intros kv Hin. apply in_app_or in Hin as [Hin|[<-|[]]].
        -- intros Hc. apply (Hfresh kv Hin). now right.
        -- exact D1.
    + intros kv Hin E. apply (Hfresh kv Hin). left. now symmetry.
Qed.

(* every key is known and reported under pairwise different names: the SP reads exactly
   the asserted attributes, under the documented names, values trimmed *)
Theorem attributes_exact c sp_acs allow ident locals :
  map (fun kv => sp_name c sp_acs (fst kv)) ident = map Some locals ->
  Forall (fun kv => eptid_named c sp_acs (fst kv) = true) ident ->
  NoDup locals ->
  list_to_local sp_acs allow (map (to_attr c) ident) = combine locals (map (fun kv => plain_values (snd kv)) ident).
Proof.
  intros Hn He Hd. unfold list_to_local. rewrite (list_to_local_from_fresh c sp_acs allow ident locals [] Hn He Hd); [reflexivity|intros kv []].
Qed.

Lemma lower_idem s : lower (lower s) = lower s.
Proof.
  unfold lower. rewrite map_map. apply map_ext. intros c. unfold lower_ascii.
  destruct ((65 <=? c) && (c <=? 90)) eqn:E; [|now rewrite E].
  apply andb_true_iff in E as [A B]. apply N.leb_le in A, B.
  assert ((65 <=? c + 32) && (c + 32 <=? 90) = false) as ->; [|reflexivity].
  apply andb_false_iff. right. apply N.leb_gt. lia.
Qed.
Lemma sp_name_lower c sp_acs key : sp_name c sp_acs (lower key) = sp_name c sp_acs key.
Proof. unfold sp_name, wire_name. now rewrite lower_idem. Qed.

Definition table_keys (c : conv) : list str := map fst (c_to c).
(* keys the SP does not report at all / reports under a local name that differs from the key by more than letter case *)
Definition lost_rows (c : conv) (sp_acs : list conv) : list str :=
  filter (fun k => match sp_name c sp_acs k with Some _ => false | None => true end) (table_keys c).
Definition alias_rows (c : conv) (sp_acs : list conv) : list (str * str) :=
  flat_map (fun k => match sp_name c sp_acs k with
                     | Some l => if str_eqb (lower l) k then [] else [(k, l)]
                     | None => [] end) (table_keys c).
(* an alias is another local name of the SAME wire name *)
Definition aliases_consistent (c : conv) (sp_acs : list conv) : bool :=
  forallb (fun kl => match wire_name c (fst kl), wire_name c (snd kl) with
                     | Some a, Some b => str_eqb a b | _, _ => false end) (alias_rows c sp_acs).
Definition eptid_rows_ok (c : conv) (sp_acs : list conv) : bool :=
  forallb (fun k => match wire_name c k, sp_name c sp_acs k with
                    | Some n, Some l => if str_eqb n EPTID_OID then str_eqb l EPTID else true
                    | _, _ => true end) (table_keys c).

(* the two checks in terms of the per-key predicates *)
Definition alias_ok (c : conv) (kl : str * str) : bool :=
  match wire_name c (fst kl), wire_name c (snd kl) with Some a, Some b => str_eqb a b | _, _ => false end.
Lemma aliases_consistent_eq c sp_acs : aliases_consistent c sp_acs = forallb (alias_ok c) (alias_rows c sp_acs).
Proof. reflexivity. Qed.
Lemma eptid_named_eq c sp_acs key : eptid_named c sp_acs key = eptid_ok (wire_name c key) (sp_name c sp_acs key).
Proof. reflexivity. Qed.
Lemma eptid_rows_ok_eq c sp_acs : eptid_rows_ok c sp_acs = forallb (eptid_named c sp_acs) (table_keys c).
Proof. reflexivity. Qed.

(* One pass over the table: each key with its wire name and the name the SP reports.  The four
   checks above are functions of these rows; evaluated one by one they ask sp_name (two dictionary
   searches) four times for every key. *)
Definition row : Type := str * option str * option str.
Definition rows (c : conv) (sp_acs : list conv) : list row :=
  let cs := convs_for (c_nf c) sp_acs in
  map (fun k => let w := wire_name c k in
                (k, w, match w with Some name => first_local cs (lower (strip name)) | None => None end)) (table_keys c).
Definition row_alias (r : row) : list (str * str) :=
  match snd r with Some l => if str_eqb (lower l) (fst (fst r)) then [] else [(fst (fst r), l)] | None => [] end.
Definition row_lost (r : row) : bool := match snd r with Some _ => false | None => true end.
Definition row_eptid (r : row) : bool := eptid_ok (snd (fst r)) (snd r).
Definition rows_report (c : conv) (aliases_ok : list (str * str) -> bool) (r : list row) : bool :=
  let al := flat_map row_alias r in
  aliases_ok al && is_nil (filter row_lost r) &&
  forallb (alias_ok c) al && forallb row_eptid r.

Lemma is_nil_filter_map {X Y} (p : Y -> bool) (g : X -> Y) l : is_nil (filter p (map g l)) = is_nil (filter (fun x => p (g x)) l).
Proof. induction l as [|x l IH]; [reflexivity|]. cbn. destruct (p (g x)); [reflexivity|exact IH]. Qed.

Lemma rows_report_spec c sp_acs aliases_ok :
  aliases_ok (alias_rows c sp_acs) && is_nil (lost_rows c sp_acs) && aliases_consistent c sp_acs && eptid_rows_ok c sp_acs =
  rows_report c aliases_ok (rows c sp_acs).
Proof.
  rewrite aliases_consistent_eq, eptid_rows_ok_eq. unfold rows_report, rows, lost_rows, alias_rows.
  now rewrite flat_map_map, is_nil_filter_map, forallb_map.
Qed.

Theorem table_key_reported c sp_acs key :
  In (lower key) (table_keys c) -> ~ In (lower key) (lost_rows c sp_acs) ->
  exists l, sp_name c sp_acs key = Some l /\ (lower l = lower key \/ In (lower key, l) (alias_rows c sp_acs)).
Proof.
  intros Hin Hnl. rewrite <- sp_name_lower.
  destruct (sp_name c sp_acs (lower key)) as [l|] eqn:E.
  - exists l. split; [reflexivity|].
    destruct (str_eqb_spec (lower l) (lower key)) as [Eq|Ne]; [now left|right].
    unfold alias_rows. apply in_flat_map. exists (lower key). split; [exact Hin|]. rewrite E.
    destruct (str_eqb_spec (lower l) (lower key)); [contradiction|now left].
  - exfalso. apply Hnl. unfold lost_rows. apply filter_In. split; [exact Hin|]. now rewrite E.
Qed.

Lemma dict_get_in k l v : dict_get k l = Some v -> In k (map fst l).
Proof.
  induction l as [|[k' v'] l IH]; [discriminate|]. cbn [dict_get map fst].
  destruct (dict_get k l) as [w|]; [intros E; right; exact (IH E)|].
  destruct (str_eqb_spec k k') as [->|_]; [now left|discriminate].
Qed.
Lemma wire_name_lower c key : wire_name c (lower key) = wire_name c key.
Proof. unfold wire_name. now rewrite lower_idem. Qed.
Lemma wire_name_in c key n : wire_name c key = Some n -> In (lower key) (table_keys c).
Proof.
  unfold wire_name, table_keys. destruct (dict_get (lower key) (c_to c)) as [v|] eqn:E; [|discriminate].
  intros _. exact (dict_get_in _ _ _ E).
Qed.
(* eptid_rows_ok decides eptid_named for every spelling of every key *)
Theorem eptid_rows_named c sp_acs : eptid_rows_ok c sp_acs = true -> forall key, eptid_named c sp_acs key = true.
Proof.
  intros H key. rewrite eptid_rows_ok_eq, forallb_forall in H.
  assert (eptid_named c sp_acs key = eptid_named c sp_acs (lower key)) as ->
    by (now rewrite !eptid_named_eq, wire_name_lower, sp_name_lower).
  destruct (wire_name c (lower key)) as [n|] eqn:Ew; [|now rewrite eptid_named_eq, Ew].
  apply H. rewrite <- lower_idem. exact (wire_name_in c (lower key) n Ew).
Qed.

(* a table without lost rows: an identity over its keys (any spelling) is reported name by name,
   each under its own name (up to letter case) or under the alias listed for it *)
Definition reported_as (c : conv) (sp_acs : list conv) (kv : str * list str) (l : str) : Prop :=
  lower l = lower (fst kv) \/ In (lower (fst kv), l) (alias_rows c sp_acs).
Theorem table_identity_reported c sp_acs : lost_rows c sp_acs = [] -> eptid_rows_ok c sp_acs = true ->
  forall ident : identity, Forall (fun kv => In (lower (fst kv)) (table_keys c)) ident ->
  exists locals, map (fun kv => sp_name c sp_acs (fst kv)) ident = map Some locals /\
                 Forall2 (reported_as c sp_acs) ident locals /\
                 Forall (fun kv => eptid_named c sp_acs (fst kv) = true) ident.
Proof.
  intros Hl He ident. induction ident as [|kv ident IH]; intros H.
  - exists []. repeat split; constructor.
  - inversion H as [|? ? H1 H2]; subst. destruct (IH H2) as (locals & E & R & N).
    destruct (table_key_reported c sp_acs (fst kv) H1) as (l & El & Rl); [rewrite Hl; intros []|].
    exists (l :: locals). cbn [map]. rewrite El, E. split; [reflexivity|]. split.
    + constructor; [exact Rl|exact R].
    + constructor; [apply eptid_rows_named, He|exact N].
Qed.

Definition legal_nameid (n : nameid) : bool :=
  legal (n_text n) && legal_opt (n_format n) && legal_opt (n_spq n) && legal_opt (n_nq n).
Definition legal_payload (p : payload) : bool :=
  legal (p_issuer p) && legal_nameid (p_name_id p) && legal_attributes (p_attributes p) &&
  match p_authn p with Some (Some (cls, auth), _) => legal cls && legal_opt auth | _ => true end.

Lemma wf_nameid n : legal_nameid n = true -> wf_xml (nameid_xml n) = true.
Proof.
  unfold legal_nameid, nameid_xml. intros H.
  apply andb_true_iff in H as [H Hq]. apply andb_true_iff in H as [H Hs]. apply andb_true_iff in H as [Ht Hf].
  cbn [wf_xml forallb]. unfold legal in Ht. rewrite Ht, andb_true_r.
  destruct (n_nq n), (n_spq n), (n_format n);
    cbn [opt_attr app forallb fst snd nodup_keys has_key existsb legal_opt] in *; unfold legal in *;
    rewrite ?Hq, ?Hs, ?Hf; reflexivity.
Qed.

Theorem wf_payload p : legal_payload p = true -> forallb wf_xml (payload_xml p) = true.
Proof.
  unfold legal_payload, payload_xml. intros H.
  apply andb_true_iff in H as [H Ha]. apply andb_true_iff in H as [H Hl]. apply andb_true_iff in H as [Hi Hn].
  cbn [forallb]. rewrite (wf_nameid _ Hn), forallb_app.
  assert (wf_xml (issuer_xml p) = true) as ->.
  { unfold issuer_xml. cbn [wf_xml forallb fst snd nodup_keys has_key existsb]. unfold legal in Hi. rewrite Hi. reflexivity. }
  cbn [andb]. apply andb_true_iff. split.
  - unfold authn_context_xml. destruct (p_authn p) as [[[[cls auth]|] t]|]; try reflexivity.
    apply andb_true_iff in Ha as [Hc Hau]. cbn [forallb wf_xml nodup_keys]. unfold legal in Hc.
    destruct auth as [x|]; cbn [forallb wf_xml nodup_keys legal_opt] in *; unfold legal in *; rewrite ?Hc, ?Hau; reflexivity.
  - unfold statement_xml_opt. destruct (p_attributes p) as [|a0 l0] eqn:E; [reflexivity|]. cbn [forallb]. rewrite andb_true_r.
    apply wf_statement. exact Hl.
Qed.

(* the SHAPE of what is asserted: which optional fields are present, how many attributes and values;
   the structure of the parts is a function of it, never of the strings *)
Definition payload_shape (p : payload) :=
  (opt_shape (n_nq (p_name_id p)), opt_shape (n_spq (p_name_id p)), opt_shape (n_format (p_name_id p)),
   match p_authn p with Some (Some (_, auth), _) => Some (opt_shape auth) | _ => None end,
   map attribute_shape (p_attributes p)).

