(* Proofs/Glue_certs.v — GLUE between the two models of MetaData.certs:

     Model/CertSelect.v  md_certs      (C03, C08, C10, C17: certificates are numbers, an entity is a
                                        list of key-descriptor groups, a store is ONE association list)
     Model/MdStore.v     store_certs   (C16: certificate TEXTS through repack_cert, role descriptors with
                                        a type, several sources, KeyError cases)

   The abstraction [abs_store num] turns a C16 store into a C03 store: per entity ONE CertSelect role per
   descriptor TYPE, in the order certs(.., any, ..) visits the types, holding the key descriptors of all
   role descriptors of that type in document order (this is what harness/enc_md.py coq_store does by
   hand); certificate texts are numbered by [num] after repack_cert.  [num] only has to be injective on
   the texts of the entity that is served.

   Results: find_entity = store_get through the abstraction; md_certs = store_certs (same list, same
   order, same de-duplication), and both say "unknown" together: ONE function (md_certs_eq).  On top: the
   certificate selection of _check_signature over the C16 store itself (KeyError swallowed into "no
   certificates", as sigver.py does) equals CertSelect.check_signature, and the C03 statement is carried
   down to the loaded metadata documents.

   Both models follow the library WITH proposed_fix/C03-1 (certs() skips a key descriptor without
   X509Data).  The code before that repair raised KeyError for a use-matching KeyDescriptor without
   X509Data (MdStore.store_certs_before_fix; CertSelect.md_certs_before_fix): that case is characterised exactly
   in Props/Glue.v (Glue_md_certs_before_fix_keyerror); ex_bad is a witness, with its consequences for _check_signature in
   Props/Glue.v (Glue_md_certs_before_fix_witness).  The file ends with the numbering by position in the list of all
   certificate texts (num_of), which meets every injectivity hypothesis, and an example federation. *)
From PV Require Import Lib.Base Model.Sigver Proofs.Sigver_lemmas.
From PV Require Model.CertSelect Model.MdStore Model.IssuerSel Proofs.CertSelect_lemmas Proofs.MdStore_lemmas Proofs.IssuerSel_lemmas.
Module CS := PV.Model.CertSelect.
Module MS := PV.Model.MdStore.
Module CSL := PV.Proofs.CertSelect_lemmas.
Module MSL := PV.Proofs.MdStore_lemmas.
Open Scope N_scope.

Definition abs_kd (num : str -> N) (k : MS.keydesc) : CS.keydesc :=
  CS.Build_keydesc (MS.kd_use k) (map num (map MS.repack_cert (MS.kd_certs k))).
(* all key descriptors of the role descriptors of type d, in document order *)
Definition abs_group (num : str -> N) (e : MS.entity) (d : str) : CS.role :=
  map (abs_kd num) (flat_map MS.r_keys (MS.roles_of e (MS.descr_key d))).
Definition abs_entity (num : str -> N) (e : MS.entity) : CS.entity := map (abs_group num e) MS.ANY_ROLES.
Definition abs_map (num : str -> N) (m : MS.mdmap) : CS.mdstore :=
  map (fun ke => (fst ke, abs_entity num (snd ke))) m.
(* sources in store order, entities in source order: the first hit of find_entity is the first source that has the id *)
Definition abs_store (num : str -> N) (st : MS.store) : CS.mdstore := flat_map (fun km => abs_map num (snd km)) st.

Definition inj_on (P : str -> Prop) (num : str -> N) : Prop := forall a b, P a -> P b -> num a = num b -> a = b.

(* c is the (repacked) text of a certificate of some key descriptor of e *)
Definition entity_text (e : MS.entity) (c : str) : Prop :=
  exists r k c0, In r (MS.e_roles e) /\ In k (MS.r_keys r) /\ In c0 (MS.kd_certs k) /\ c = MS.repack_cert c0.
Definition served_text (st : MS.store) (i : str) (c : str) : Prop :=
  exists e, MS.store_get st i = Some e /\ entity_text e c.

(* a role descriptor of one of the types certs(.., any, ..) visits *)
Definition any_role (r : MS.role) : Prop := exists d, In d MS.ANY_ROLES /\ MS.r_type r = MS.descr_key d.

(* every key descriptor certs(i, any, use) would read has X509Data (only the code BEFORE proposed_fix/C03-1 cares) *)
Definition x509_complete (use : str) (st : MS.store) (i : str) : Prop :=
  forall e r k, MS.store_get st i = Some e -> In r (MS.e_roles e) -> any_role r -> In k (MS.r_keys r) ->
                MS.use_ok use k = true -> MS.kd_certs k <> [].

Lemma find_entity_app a b i :
  CS.find_entity (a ++ b) i = match CS.find_entity a i with Some e => Some e | None => CS.find_entity b i end.
Proof.
  induction a as [|[k e] a IH]; cbn [app CS.find_entity]; [reflexivity|].
  destruct (str_eqb i k); [reflexivity|exact IH].
Qed.

Lemma find_entity_abs_map num m i : CS.find_entity (abs_map num m) i = option_map (abs_entity num) (MS.aget i m).
Proof.
  induction m as [|[k e] m IH]; cbn [abs_map map CS.find_entity MS.aget fst snd]; [reflexivity|].
  destruct (str_eqb i k); [reflexivity|exact IH].
Qed.

(* MetadataStore.__getitem__ is the same function in both models *)
Lemma find_entity_abs_store num st i :
  CS.find_entity (abs_store num st) i = option_map (abs_entity num) (MS.store_get st i).
Proof.
  induction st as [|[k m] st IH]; cbn [abs_store flat_map MS.store_get snd]; [reflexivity|].
  rewrite find_entity_app, find_entity_abs_map. destruct (MS.aget i m) as [e|]; [reflexivity|]. exact IH.
Qed.

Lemma memN_map_num P num c res :
  inj_on P num -> P c -> (forall x, In x res -> P x) -> CS.memN (num c) (map num res) = mem_str c res.
Proof.
  intros Hinj Hc Hres. destruct (mem_str c res) eqn:E.
  - apply mem_str_In in E. apply CSL.memN_In. now apply in_map.
  - destruct (CS.memN (num c) (map num res)) eqn:E2; [|reflexivity].
    apply CSL.memN_In in E2. apply in_map_iff in E2 as (y & Hy & Hin).
    apply (Hinj y c (Hres y Hin) Hc) in Hy. subst y. apply mem_str_In in Hin. congruence.
Qed.

(* the invariant on res (everything in it satisfies P) is there so that num need only be injective on texts that
   can reach res *)
Lemma add_new_abs P num : inj_on P num -> forall cs res,
  (forall x, In x cs -> P x) -> (forall x, In x res -> P x) ->
  CS.add_new (map num res) (map num cs) = map num (fold_left MS.add_new cs res).
Proof.
  intros Hinj. induction cs as [|c cs IH]; intros res Hcs Hres; cbn [map CS.add_new fold_left]; [reflexivity|].
  rewrite (memN_map_num P num c res Hinj (Hcs c (or_introl eq_refl)) Hres).
  unfold MS.add_new at 2. destruct (mem_str c res) eqn:E.
  - apply IH; [intros x Hx; apply Hcs; now right|exact Hres].
  - replace (map num res ++ [num c]) with (map num (res ++ [c])) by (now rewrite map_app).
    apply IH; [intros x Hx; apply Hcs; now right|].
    intros x Hx. apply in_app_or in Hx as [Hx|[<-|[]]]; [now apply Hres|apply Hcs; now left].
Qed.

Lemma use_matches_abs num use k : CS.use_matches use (abs_kd num k) = MS.use_ok use k.
Proof. reflexivity. Qed.

Lemma extract_loop_abs P num use : inj_on P num -> forall ks res,
  (forall k c0, In k ks -> In c0 (MS.kd_certs k) -> P (MS.repack_cert c0)) -> (forall x, In x res -> P x) ->
  CS.extract_certs use (map (abs_kd num) ks) (map num res) = map num (MS.extract_loop use ks res).
Proof.
  intros Hinj. induction ks as [|k ks IH]; intros res Hks Hres; cbn [MS.extract_loop map CS.extract_certs] in *.
  - reflexivity.
  - rewrite use_matches_abs. destruct (MS.use_ok use k) eqn:Eu.
    + assert (forall x, In x (map MS.repack_cert (MS.kd_certs k)) -> P x) as Hk.
      { intros x Hx. apply in_map_iff in Hx as (c0 & <- & Hc0). apply (Hks k c0); [now left|exact Hc0]. }
      cbn [abs_kd CS.kd_certs]. rewrite (add_new_abs P num Hinj _ _ Hk Hres).
      apply IH; [intros k' c0 Hk' Hc0; apply (Hks k' c0); [now right|exact Hc0]|].
      intros x Hx. apply MSL.add_new_fold_In in Hx as [Hx|Hx]; [now apply Hres|now apply Hk].
    + apply IH; [intros k' c0 Hk' Hc0; apply (Hks k' c0); [now right|exact Hc0]|exact Hres].
Qed.

Lemma group_keys_text e d k c0 :
  In k (flat_map MS.r_keys (MS.roles_of e (MS.descr_key d))) -> In c0 (MS.kd_certs k) ->
  entity_text e (MS.repack_cert c0).
Proof.
  intros Hk Hc. apply in_flat_map in Hk as (r & Hr & Hk). apply MSL.roles_of_In in Hr as [Hr _].
  now exists r, k, c0.
Qed.

Lemma certs_any_abs P num use e : inj_on P num -> (forall c, entity_text e c -> P c) -> forall ds,
  flat_map (fun r => CS.extract_certs use r []) (map (abs_group num e) ds) = map num (MS.certs_any use e ds).
Proof.
  intros Hinj HP ds. rewrite MSL.certs_any_flat. induction ds as [|d ds IH]; cbn [map flat_map]; [reflexivity|].
  rewrite map_app, IH. f_equal. unfold abs_group, MS.extract_certs.
  apply (extract_loop_abs P num use Hinj _ []); [|intros x []].
  intros k c0 Hk Hc. apply HP. exact (group_keys_text _ _ _ _ Hk Hc).
Qed.

Definition ANY : str := s2l "any".

Lemma store_certs_any st i use :
  MS.store_certs st i ANY use =
  match MS.store_get st i with None => Err MS.KeyError | Some e => Ok (MS.certs_any use e MS.ANY_ROLES) end.
Proof. unfold MS.store_certs. destruct (MS.store_get st i); reflexivity. Qed.

Lemma store_certs_before_fix_any st i use :
  MS.store_certs_before_fix st i ANY use =
  match MS.store_get st i with None => Err MS.KeyError | Some e => MS.certs_any_before_fix use e MS.ANY_ROLES end.
Proof. unfold MS.store_certs_before_fix. destruct (MS.store_get st i); reflexivity. Qed.

Lemma md_certs_abs num st i use :
  CS.md_certs (abs_store num st) (Some i) use =
  option_map (fun e => flat_map (fun r => CS.extract_certs use r []) (abs_entity num e)) (MS.store_get st i).
Proof. unfold CS.md_certs. rewrite find_entity_abs_store. destruct (MS.store_get st i); reflexivity. Qed.

(* the two models of MetaData.certs are ONE function: same certificates, in the same order, with the same duplicates
   dropped; KeyError there = None here.  No condition on the metadata (num injective on the served entity's texts). *)
Theorem md_certs_eq num st i use :
  inj_on (served_text st i) num ->
  CS.md_certs (abs_store num st) (Some i) use =
  match MS.store_certs st i ANY use with Ok l => Some (map num l) | Err _ => None end.
Proof.
  intros Hinj. rewrite store_certs_any, md_certs_abs.
  destruct (MS.store_get st i) as [e|] eqn:Eg; [|reflexivity]. cbn [option_map]. f_equal. unfold abs_entity.
  apply (certs_any_abs (served_text st i) num use e Hinj).
  intros c Hc. exists e. split; [exact Eg|exact Hc].
Qed.

Theorem md_certs_agree num st i use l :
  inj_on (served_text st i) num ->
  MS.store_certs st i ANY use = Ok l ->
  CS.md_certs (abs_store num st) (Some i) use = Some (map num l).
Proof. intros Hinj H. rewrite (md_certs_eq num st i use Hinj), H. reflexivity. Qed.

(* a certificate number in a key descriptor of the abstracted store, in the C16 vocabulary; [U] is any condition on
   the key descriptor's use, which the abstraction keeps *)
Lemma abs_store_In num st i (U : option str -> Prop) x :
  (exists ae g kd, CS.find_entity (abs_store num st) i = Some ae /\ In g ae /\ In kd g /\ U (CS.kd_use kd) /\
                   In x (CS.kd_certs kd)) <->
  (exists e r k c0, MS.store_get st i = Some e /\ In r (MS.e_roles e) /\ any_role r /\ In k (MS.r_keys r) /\
                    U (MS.kd_use k) /\ In c0 (MS.kd_certs k) /\ x = num (MS.repack_cert c0)).
Proof.
  split.
  - intros (ae & g & kd & F & Hg & Hkd & Hu & Hx). rewrite find_entity_abs_store in F.
    destruct (MS.store_get st i) as [e|]; [|discriminate]. injection F as <-.
    apply in_map_iff in Hg as (d & <- & Hd). apply in_map_iff in Hkd as (k & <- & Hk).
    apply in_flat_map in Hk as (r & Hr & Hk). apply MSL.roles_of_In in Hr as [Hr Ht].
    cbn [abs_kd CS.kd_certs] in Hx. rewrite map_map in Hx. apply in_map_iff in Hx as (c0 & <- & Hc0).
    exists e, r, k, c0. repeat split; auto. now exists d.
  - intros (e & r & k & c0 & He & Hr & (d & Hd & Ht) & Hk & Hu & Hc0 & ->).
    exists (abs_entity num e), (abs_group num e d), (abs_kd num k).
    split; [rewrite find_entity_abs_store, He; reflexivity|]. split; [now apply in_map|].
    split; [|split; [exact Hu|]].
    + apply in_map. apply in_flat_map. exists r. split; [|exact Hk]. now apply MSL.roles_of_In.
    + cbn [abs_kd CS.kd_certs]. rewrite map_map. now apply (in_map (fun c => num (MS.repack_cert c))).
Qed.

(* self.metadata.certs(_issuer, any, use) as _check_signature sees it: a KeyError (unknown entity, no issuer) is
   caught and means no certificates *)
Definition store_md_certs (num : str -> N) (st : MS.store) (issuer : option str) (use : str) : option (list N) :=
  match issuer with
  | None => None
  | Some i => match MS.store_certs st i ANY use with Ok l => Some (map num l) | Err _ => None end
  end.

(* ... and before proposed_fix/C03-1: the KeyError for a key descriptor without X509Data was swallowed the same way *)
Definition store_md_certs_before_fix (num : str -> N) (st : MS.store) (issuer : option str) (use : str) : option (list N) :=
  match issuer with
  | None => None
  | Some i => match MS.store_certs_before_fix st i ANY use with Ok l => Some (map num l) | Err _ => None end
  end.

(* CertSelect.candidate_certs / check_signature with the metadata answer as a parameter: the result-valued form of
   CertSelect_lemmas.chosen_of / verdict_of_keys (check_of_verdict) *)
Definition candidates_of (mp : bool) (from : option (list N)) (only_md : bool) (embedded : list N) : result (list N) :=
  let from_md := if mp then match from with Some l => l | None => [] end else [] in
  let certs := if CS.nilb from_md && negb only_md then embedded else from_md in
  match certs with [] => Err (s2l "MissingKey") | _ => Ok certs end.
Definition check_of (mp : bool) (from : option (list N)) (only_md : bool) (embedded : list N) (signer : N) : result unit :=
  match candidates_of mp from only_md embedded with
  | Err e => Err e
  | Ok certs => check_signature_runs false (map (CS.tool_for signer) certs) false true
  end.

Lemma candidate_certs_of mp m issuer only_md embedded :
  CS.candidate_certs mp m issuer only_md embedded = candidates_of mp (CS.md_certs m issuer CS.SIGNING) only_md embedded.
Proof. reflexivity. Qed.
Lemma check_signature_of mp m issuer only_md embedded signer :
  CS.check_signature mp m issuer only_md embedded signer = check_of mp (CS.md_certs m issuer CS.SIGNING) only_md embedded signer.
Proof. reflexivity. Qed.

(* the same code over the C16 store *)
Definition store_candidate_certs num mp st issuer only_md embedded : result (list N) :=
  candidates_of mp (store_md_certs num st issuer CS.SIGNING) only_md embedded.
Definition store_check_signature num mp st issuer only_md embedded signer : result unit :=
  check_of mp (store_md_certs num st issuer CS.SIGNING) only_md embedded signer.

Definition store_check_signature_before_fix num mp st issuer only_md embedded signer : result unit :=
  check_of mp (store_md_certs_before_fix num st issuer CS.SIGNING) only_md embedded signer.

Lemma check_of_verdict mp from only_md embedded signer :
  check_of mp from only_md embedded signer = CSL.verdict_of_keys (CSL.chosen_of mp from only_md embedded) signer.
Proof. exact (CSL.verdict_runs _ signer). Qed.

Theorem store_check_agrees num mp st issuer only_md embedded signer :
  (forall i, issuer = Some i -> inj_on (served_text st i) num) ->
  store_candidate_certs num mp st issuer only_md embedded = CS.candidate_certs mp (abs_store num st) issuer only_md embedded /\
  store_check_signature num mp st issuer only_md embedded signer = CS.check_signature mp (abs_store num st) issuer only_md embedded signer.
Proof.
  intros H. rewrite candidate_certs_of, check_signature_of. unfold store_candidate_certs, store_check_signature.
  assert (store_md_certs num st issuer CS.SIGNING = CS.md_certs (abs_store num st) issuer CS.SIGNING) as ->; [|now split].
  destruct issuer as [i|]; [|reflexivity]. cbn [store_md_certs].
  symmetry. apply md_certs_eq. now apply H.
Qed.

Definition declared_signing_key (num : str -> N) (st : MS.store) (i : str) (signer : N) : Prop :=
  exists e r k c0, MS.store_get st i = Some e /\ In r (MS.e_roles e) /\ any_role r /\ In k (MS.r_keys r) /\
                   (MS.kd_use k = None \/ MS.kd_use k = Some MS.U_SIGNING) /\
                   In c0 (MS.kd_certs k) /\ signer = num (MS.repack_cert c0).

(* the check of Model/CertSelect.v (the one C03, C08, C10 are proved about) on the abstraction of a C16 store *)
Theorem accepted_key_declared num mp st issuer embedded signer :
  CS.check_signature mp (abs_store num st) issuer true embedded signer = Ok tt ->
  mp = true /\ exists i, issuer = Some i /\ declared_signing_key num st i signer.
Proof.
  intros H. apply CSL.check_signature_default in H as (-> & l & Hm & Hk). split; [reflexivity|].
  destruct issuer as [i|]; [|discriminate]. exists i. split; [reflexivity|].
  apply (abs_store_In num st i (fun u => u = None \/ u = Some MS.U_SIGNING)).
  destruct (proj1 (CSL.md_certs_In _ _ _ _) (ex_intro _ l (conj Hm Hk))) as (e & r & kd & F & Hr & Hkd & Hu & Hc).
  exists e, r, kd. repeat split; auto. tauto.
Qed.

(* the faithful selection over the C16 store (KeyError swallowed): no side condition at all *)
Theorem store_accepted_key_declared num mp st issuer embedded signer :
  store_check_signature num mp st issuer true embedded signer = Ok tt ->
  mp = true /\ exists i, issuer = Some i /\ declared_signing_key num st i signer.
Proof.
  unfold store_check_signature. rewrite check_of_verdict. intros H.
  apply CSL.verdict_default in H as (-> & l' & Hm & Hk). split; [reflexivity|].
  destruct issuer as [i|]; [|discriminate]. cbn [store_md_certs] in Hm. rewrite store_certs_any in Hm.
  destruct (MS.store_get st i) as [e|] eqn:He; [|discriminate].
  assert (l' = map num (MS.certs_any CS.SIGNING e MS.ANY_ROLES)) as -> by congruence.
  apply in_map_iff in Hk as (c & <- & Hc).
  apply MSL.certs_any_ok in Hc as (d & Hd & (r & k & c1 & Hr & Hk & Hu & Hc1 & ->)).
  apply MSL.roles_of_In in Hr as [Hr Ht]. apply MSL.use_ok_cases in Hu.
  exists i. split; [reflexivity|]. exists e, r, k, c1. repeat split; auto. now exists d.
Qed.

(* certificate number [signer] stands in a signing / use-less key descriptor of an unexpired EntityDescriptor
   with id i in the document of a configured source that load() registered (admissible: if a verification
   certificate is configured and the root is signed, the source is remote and its signature verified) *)
Definition declared_in_documents (num : str -> N) (now : Z) (srcs : list MS.source) (use : str) (i : str) (x : N) : Prop :=
  exists s e0 r k c0,
    In s srcs /\ MSL.admissible s /\ MS.e_id e0 = i /\
    (MSL.eff_check s = true -> MS.valid now (MS.e_valid_until e0) = true) /\
    match MS.d_body (MS.s_doc s) with
    | MS.Many vu iv es => iv = MS.IvOk /\ In e0 es /\ (MSL.eff_check s = true -> MS.valid now vu = true)
    | MS.Single e1 => e0 = e1
    | MS.NotMetadata => False
    end /\
    In r (MS.e_roles e0) /\ any_role r /\ In k (MS.r_keys r) /\
    (MS.kd_use k = None \/ MS.kd_use k = Some use) /\ In c0 (MS.kd_certs k) /\ x = num (MS.repack_cert c0).

Lemma served_in_documents num now srcs use i x :
  (exists e r k c0, MS.store_get (MS.load_all now [] srcs) i = Some e /\ In r (MS.e_roles e) /\ any_role r /\ In k (MS.r_keys r) /\
                    (MS.kd_use k = None \/ MS.kd_use k = Some use) /\ In c0 (MS.kd_certs k) /\ x = num (MS.repack_cert c0)) ->
  declared_in_documents num now srcs use i x.
Proof.
  intros (e & r & k & c0 & He & Hr & Ha & Hk & Hu & Hc & ->).
  apply MSL.store_get_In in He as (key & m & Hin & Hget).
  destruct (MSL.served_entity_declared _ _ _ _ _ _ Hin Hget) as (s & e0 & Hs & _ & Hadm & -> & Hid & Hv & Hb).
  exists s, e0, r, k, c0. split; [exact Hs|]. split; [exact Hadm|]. split; [exact Hid|]. split; [exact Hv|].
  split; [exact Hb|]. split; [now apply MSL.stored_roles_sub|]. split; [exact Ha|]. split; [exact Hk|].
  split; [exact Hu|]. split; [exact Hc|reflexivity].
Qed.

Theorem accepted_key_in_loaded_documents num now srcs mp issuer embedded signer :
  CS.check_signature mp (abs_store num (MS.load_all now [] srcs)) issuer true embedded signer = Ok tt ->
  mp = true /\ exists i, issuer = Some i /\ declared_in_documents num now srcs MS.U_SIGNING i signer.
Proof.
  intros H. apply accepted_key_declared in H as (-> & i & -> & D). split; [reflexivity|]. exists i. split; [reflexivity|].
  now apply served_in_documents.
Qed.

Theorem store_accepted_key_in_loaded_documents num now srcs mp issuer embedded signer :
  store_check_signature num mp (MS.load_all now [] srcs) issuer true embedded signer = Ok tt ->
  mp = true /\ exists i, issuer = Some i /\ declared_in_documents num now srcs MS.U_SIGNING i signer.
Proof.
  intros H. apply store_accepted_key_declared in H as (-> & i & -> & D). split; [reflexivity|]. exists i. split; [reflexivity|].
  now apply served_in_documents.
Qed.

(* [trusted_for] (Proofs/IssuerSel_lemmas.v: the conclusion of C03_document, C03_accepted_under_own_issuer, the
   history theorems) over an abstracted store, and below over a loaded one *)
Theorem trusted_for_declared num st i x :
  IssuerSel_lemmas.trusted_for (abs_store num st) i x <-> declared_signing_key num st i x.
Proof.
  unfold IssuerSel_lemmas.trusted_for, declared_signing_key.
  rewrite <- (abs_store_In num st i (fun u => u = None \/ u = Some MS.U_SIGNING)).
  split; intros (e & r & kd & F & Hr & Hkd & Hu & Hc); exists e, r, kd; repeat split; auto; tauto.
Qed.

Theorem trusted_for_in_loaded_documents num now srcs i x :
  IssuerSel_lemmas.trusted_for (abs_store num (MS.load_all now [] srcs)) i x ->
  declared_in_documents num now srcs MS.U_SIGNING i x.
Proof. intros H. apply trusted_for_declared in H. now apply served_in_documents. Qed.

Fixpoint idx_of (tbl : list str) (s : str) : N :=
  match tbl with
  | [] => 0
  | t :: r => if str_eqb s t then 0 else N.succ (idx_of r s)
  end.
Definition num_of (tbl : list str) (s : str) : N := N.succ (idx_of tbl s).     (* certificates are numbered from 1 *)

Lemma num_of_inj tbl : inj_on (fun c => In c tbl) (num_of tbl).
Proof.
  unfold inj_on, num_of. induction tbl as [|t r IH]; intros a b Ha Hb H; [destruct Ha|].
  apply N.succ_inj in H. cbn [idx_of] in H.
  destruct (str_eqb_spec a t) as [->|Na]; destruct (str_eqb_spec b t) as [->|Nb]; try reflexivity.
  - exfalso. exact (N.neq_succ_0 _ (eq_sym H)).
  - exfalso. exact (N.neq_succ_0 _ H).
  - destruct Ha as [Ha|Ha]; [congruence|]. destruct Hb as [Hb|Hb]; [congruence|].
    apply IH; auto.
Qed.

Definition entity_texts (e : MS.entity) : list str :=
  flat_map (fun r => flat_map (fun k => map MS.repack_cert (MS.kd_certs k)) (MS.r_keys r)) (MS.e_roles e).
Definition store_texts (st : MS.store) : list str :=
  flat_map (fun km => flat_map (fun ke => entity_texts (snd ke)) (snd km)) st.

Lemma served_text_in_store st i c : served_text st i c -> In c (store_texts st).
Proof.
  intros (e & He & r & k & c0 & Hr & Hk & Hc & ->). apply MSL.store_get_In in He as (key & m & Hin & Hget).
  apply MSL.aget_In in Hget. unfold store_texts. apply in_flat_map. exists (key, m). split; [exact Hin|].
  apply in_flat_map. exists (i, e). split; [exact Hget|]. unfold entity_texts. cbn [snd].
  apply in_flat_map. exists r. split; [exact Hr|]. apply in_flat_map. exists k. split; [exact Hk|]. now apply in_map.
Qed.

Lemma num_of_store_inj st i : inj_on (served_text st i) (num_of (store_texts st)).
Proof.
  intros a b Ha Hb. apply num_of_inj; now apply (served_text_in_store st i).
Qed.

(* with that numbering: no hypothesis on the numbering is left *)
Corollary md_certs_eq_canonical st i use :
  CS.md_certs (abs_store (num_of (store_texts st)) st) (Some i) use =
  match MS.store_certs st i ANY use with Ok l => Some (map (num_of (store_texts st)) l) | Err _ => None end.
Proof. apply md_certs_eq. apply num_of_store_inj. Qed.

Definition declared_enc_key (num : str -> N) (st : MS.store) (i : str) (x : N) : Prop :=
  exists e r k c0, MS.store_get st i = Some e /\ In r (MS.e_roles e) /\ any_role r /\ In k (MS.r_keys r) /\
                   (MS.kd_use k = None \/ MS.kd_use k = Some MS.U_ENCRYPTION) /\
                   In c0 (MS.kd_certs k) /\ x = num (MS.repack_cert c0).

Lemma use_ok_iff use k : MS.use_ok use k = true <-> MS.kd_use k = None \/ MS.kd_use k = Some use.
Proof. apply MSL.use_ok_cases. Qed.

(* base64 texts without line breaks, 8 characters: repack_cert leaves them as they are *)
Definition cert_a : str := s2l "QUFBQQ==".
Definition cert_b : str := s2l "QkJCQg==".
Definition cert_c : str := s2l "Q0NDQw==".
Definition ex_role (t : str) (keys : list MS.keydesc) : MS.role :=
  MS.Build_role t (Some MS.SAML2P) keys [] [].
Definition ex_entity (id : str) (roles : list MS.role) : MS.entity := MS.Build_entity id None roles false [].
Definition ex_source (k : str) (es : list MS.entity) : MS.source :=
  MS.Build_source k MS.Inline false true true (Ok true) (MS.Build_document false (MS.Many None MS.IvOk es)).

(* two sources; A has an AA descriptor BEFORE its two IdP descriptors (certs() visits idpsso first), the two IdP
   descriptors share cert_a (dropped once: de-duplication is per descriptor TYPE), a use-less key, an encryption key;
   the second source declares another A (never served) *)
Definition ex_A : MS.entity :=
  ex_entity (s2l "A")
    [ex_role MS.T_AA [MS.Build_keydesc (Some MS.U_SIGNING) [cert_c; cert_a]];
     ex_role MS.T_IDP [MS.Build_keydesc (Some MS.U_ENCRYPTION) [cert_b]; MS.Build_keydesc (Some MS.U_SIGNING) [cert_a]];
     ex_role MS.T_IDP [MS.Build_keydesc None [cert_b]; MS.Build_keydesc (Some MS.U_SIGNING) [cert_a]]].
Definition ex_srcs : list MS.source :=
  [ex_source (s2l "1") [ex_A; ex_entity (s2l "B") [ex_role MS.T_IDP [MS.Build_keydesc (Some MS.U_SIGNING) [cert_b]]]];
   ex_source (s2l "2") [ex_entity (s2l "A") [ex_role MS.T_IDP [MS.Build_keydesc (Some MS.U_SIGNING) [cert_c]]]]].
Definition ex_store : MS.store := MS.load_all 0 [] ex_srcs.
Definition ex_num : str -> N := num_of [cert_a; cert_b; cert_c].

Example certs_example :
  MS.store_certs ex_store (s2l "A") ANY MS.U_SIGNING = Ok [cert_a; cert_b; cert_c; cert_a] /\
  CS.md_certs (abs_store ex_num ex_store) (Some (s2l "A")) CS.SIGNING = Some [1; 2; 3; 1] /\
  MS.store_certs ex_store (s2l "A") ANY MS.U_ENCRYPTION = Ok [cert_b] /\
  CS.md_certs (abs_store ex_num ex_store) (Some (s2l "A")) (s2l "encryption") = Some [2] /\
  MS.store_certs ex_store (s2l "Z") ANY MS.U_SIGNING = Err MS.KeyError /\
  CS.md_certs (abs_store ex_num ex_store) (Some (s2l "Z")) CS.SIGNING = None /\
  CS.check_signature true (abs_store ex_num ex_store) (Some (s2l "A")) true [] 2 = Ok tt /\
  CS.check_signature true (abs_store ex_num ex_store) (Some (s2l "B")) true [1] 1 = Err (s2l "SignatureError") /\
  store_check_signature ex_num true ex_store (Some (s2l "A")) true [] 3 = Ok tt.
Proof. vm_compute. repeat split; reflexivity. Qed.

(* ONE CertSelect role per role DESCRIPTOR (the literal reading of the comment in Model/CertSelect.v) would not do:
   the two IdP descriptors of A share cert_a, which certs() returns once for the type *)
Definition abs_entity_per_descriptor (num : str -> N) (e : MS.entity) : CS.entity :=
  flat_map (fun d => map (fun r => map (abs_kd num) (MS.r_keys r)) (MS.roles_of e (MS.descr_key d))) MS.ANY_ROLES.
Example per_descriptor_grouping_differs :
  flat_map (fun r => CS.extract_certs CS.SIGNING r []) (abs_entity_per_descriptor ex_num ex_A) = [1; 2; 1; 3; 1] /\
  flat_map (fun r => CS.extract_certs CS.SIGNING r []) (abs_entity ex_num ex_A) = [1; 2; 3; 1] /\
  MS.certs_any MS.U_SIGNING ex_A MS.ANY_ROLES = [cert_a; cert_b; cert_c; cert_a].
Proof. vm_compute. repeat split; reflexivity. Qed.

(* the witness for proposed_fix/C03-1: a signing key descriptor with a certificate, then a signing key descriptor whose
   KeyInfo has no X509Data (a KeyName only).  The code before the repair raises KeyError in MetaData.certs
   (store_certs_before_fix; /repo without the diff does: harness/glue_probe.py) and _check_signature swallows it into
   "no certificates from metadata"; the repaired code skips the descriptor and certificate 1 stays - in both models.
   Consequences (Glue_md_certs_before_fix_witness), before the repair / with it:
     only_use_keys_in_metadata on : a response signed with the DECLARED key 1 is refused with MissingKey / accepted;
     only_use_keys_in_metadata off: a response signed with ANY key whose certificate is embedded is accepted /
                                    refused with SignatureError, because metadata has a key for the issuer. *)
Definition ex_bad : MS.store :=
  [(s2l "1", [(s2l "A", ex_entity (s2l "A")
     [ex_role MS.T_IDP [MS.Build_keydesc (Some MS.U_SIGNING) [cert_a]; MS.Build_keydesc (Some MS.U_SIGNING) []]])])].
(* the example meets inj_on (the hypothesis of md_certs_agree / store_check_agrees) and x509_complete (the hypothesis of
   Glue_store_certs_before_fix_complete), which ex_bad does not *)
Example certs_example_hypotheses :
  inj_on (served_text ex_store (s2l "A")) ex_num /\ x509_complete CS.SIGNING ex_store (s2l "A") /\
  ~ x509_complete CS.SIGNING ex_bad (s2l "A").
Proof.
  assert (E : forallb (fun c => mem_str c [cert_a; cert_b; cert_c]) (store_texts ex_store) = true)
    by (vm_compute; reflexivity).
  split; [|split].
  - intros a b Ha Hb.
    apply (num_of_inj [cert_a; cert_b; cert_c]);
      apply mem_str_In, (proj1 (forallb_forall _ _) E), (served_text_in_store _ (s2l "A")); assumption.
  - intros e r k He Hr _ Hk _. vm_compute in He. injection He as <-.
    cbn in Hr. destruct Hr as [<-|[<-|[<-|[]]]]; cbn in Hk;
      repeat (destruct Hk as [<-|Hk]; [discriminate|]); destruct Hk.
  - intros H. apply (H (ex_entity (s2l "A")
     [ex_role MS.T_IDP [MS.Build_keydesc (Some MS.U_SIGNING) [cert_a]; MS.Build_keydesc (Some MS.U_SIGNING) []]])
     (ex_role MS.T_IDP [MS.Build_keydesc (Some MS.U_SIGNING) [cert_a]; MS.Build_keydesc (Some MS.U_SIGNING) []])
     (MS.Build_keydesc (Some MS.U_SIGNING) [])); try reflexivity.
    + now left.
    + exists (s2l "idpsso"). split; [vm_compute; tauto|reflexivity].
    + right. now left.
Qed.
