(* The checks read the mutable response state only through came_from:
   two states with equal came_from give the same verdicts. *)
From PV Require Import Lib.Base Model.Status Model.Response Proofs.Response_lemmas.
Open Scope Z_scope.

(* verify handed a response object over *)
Definition okS (r : result (option st)) : bool := match r with Ok (Some _) => true | _ => false end.

Definition rs (s1 s2 : st) : Prop := came_from s1 = came_from s2.
Definition rr {A} (r1 r2 : result (A * st)) : Prop :=
  match r1, r2 with
  | Ok (a1, s1), Ok (a2, s2) => a1 = a2 /\ rs s1 s2
  | Err e1, Err e2 => e1 = e2
  | _, _ => False
  end.
Definition rr1 (r1 r2 : result st) : Prop :=
  match r1, r2 with
  | Ok s1, Ok s2 => rs s1 s2
  | Err e1, Err e2 => e1 = e2
  | _, _ => False
  end.

Lemma rr_case {A} (r1 r2 : result (A * st)) : rr r1 r2 ->
  (exists a s1 s2, r1 = Ok (a, s1) /\ r2 = Ok (a, s2) /\ rs s1 s2) \/ (exists e, r1 = Err e /\ r2 = Err e).
Proof.
  destruct r1 as [[a1 s1]|e1], r2 as [[a2 s2]|e2]; cbn [rr]; try contradiction.
  - intros [-> R]. left. now exists a2, s1, s2.
  - intros ->. right. now exists e2.
Qed.
Lemma rr1_case (r1 r2 : result st) : rr1 r1 r2 ->
  (exists s1 s2, r1 = Ok s1 /\ r2 = Ok s2 /\ rs s1 s2) \/ (exists e, r1 = Err e /\ r2 = Err e).
Proof.
  destruct r1 as [s1|e1], r2 as [s2|e2]; cbn [rr1]; try contradiction.
  - intros R. left. now exists s1, s2.
  - intros ->. right. now exists e2.
Qed.

Lemma rel_authn c s1 s2 a : rs s1 s2 -> rr1 (authn_statement_ok c s1 a) (authn_statement_ok c s2 a).
Proof.
  unfold rs, authn_statement_ok. intros H. destruct (a_authn a) as [|[n|] [|? ?]]; cbn [rr1]; try reflexivity; [|exact H].
  destruct (validate_on_or_after c (Some n)) as [[m|]|]; cbn [rr1]; [exact H|exact H|reflexivity].
Qed.

Lemma rel_condition c s1 s2 a : rs s1 s2 -> rr (condition_ok c s1 a) (condition_ok c s2 a).
Proof.
  intros H. rewrite !condition_ok_eq. destruct (a_conditions a) as [k|]; cbn [rr]; [|auto].
  destruct (k_empty k); cbn [rr]; [auto|].
  destruct (match k_nb k, k_nooa k with Some _, Some _ => _ | _, _ => false end); cbn [rr]; [auto|].
  destruct (cond_time c k) as [o|]; cbn [rr]; [|reflexivity]. destruct (_ && _); cbn [rr]; [reflexivity|].
  destruct (k_unknown_condition k); cbn [rr]; [reflexivity|]. split; [reflexivity|]. destruct o; exact H.
Qed.

Lemma rel_bearer c irt s1 s2 d : rs s1 s2 -> rr (bearer_confirmed c irt s1 d) (bearer_confirmed c irt s2 d).
Proof.
  unfold rs, bearer_confirmed. intros H. rewrite H.
  destruct d as [d|]; cbn [rr rs]; [|auto].
  destruct (match d_address d with Some _ => negb (d_address_valid d) | None => false end); cbn [rr]; [reflexivity|].
  destruct (validate_on_or_after c (d_nooa d)); cbn [rr]; [|reflexivity].
  destruct (validate_before c (d_nb d)); cbn [rr]; [|reflexivity].
  destruct (negb (later_than (d_nooa d) (d_nb d))); cbn [rr rs]; [auto|].
  destruct (names_other_request c irt d); cbn [rr]; [reflexivity|].
  destruct (asynch c && match came_from s2 with Some _ => false | None => true end); cbn [rr rs]; [|auto].
  destruct (d_irt d) as [i|]; cbn [rr rs]; [|auto].
  destruct (lookup_str i (outstanding c)); cbn [rr]; [split; reflexivity|].
  destruct (allow_unsolicited c); cbn [rr rs]; auto.
Qed.

Lemma rel_sc_step c irt s1 s2 sc : rs s1 s2 -> rr (sc_step c irt s1 sc) (sc_step c irt s2 sc).
Proof.
  intros H. unfold sc_step. destruct (c_method sc); cbn [rr]; [now apply rel_bearer|now split|now split|reflexivity].
Qed.

Lemma rel_subject_loop c irt : forall confs s1 s2, rs s1 s2 -> rr (subject_loop c irt s1 confs) (subject_loop c irt s2 confs).
Proof.
  induction confs as [|sc rest IH]; intros s1 s2 H; [cbn [subject_loop rr]; auto|]. rewrite !subject_loop_cons.
  destruct (rr_case _ _ (rel_sc_step c irt s1 s2 sc H)) as [(b & t1 & t2 & -> & -> & R)|(e & -> & ->)]; [|reflexivity].
  destruct b; [|exact (IH t1 t2 R)]. destruct (sc_recipient c sc); [|reflexivity].
  destruct (rr_case _ _ (IH t1 t2 R)) as [(k & u1 & u2 & -> & -> & R2)|(e & -> & ->)]; [now split|reflexivity].
Qed.

Lemma rel_get_subject c irt s1 s2 a : rs s1 s2 -> rr (get_subject c irt s1 a) (get_subject c irt s2 a).
Proof.
  intros H. unfold get_subject. destruct (negb (a_has_subject a)); cbn [rr]; [reflexivity|].
  destruct (negb (verify_attesting_entity c (a_confirmations a))); cbn [rr]; [reflexivity|].
  destruct (rr_case _ _ (rel_subject_loop c irt (a_confirmations a) s1 s2 H)) as [(k & u1 & u2 & -> & -> & R)|(e & -> & ->)];
    [|reflexivity].
  destruct k; cbn [rr]; auto.
Qed.

Lemma rel_check_assertion c irt req v s1 s2 a : rs s1 s2 ->
  rr1 (check_assertion c irt req v s1 a) (check_assertion c irt req v s2 a).
Proof.
  intros H. unfold check_assertion. fold (sig_stage req v a). destruct (sig_stage req v a); cbn [rr1]; [|reflexivity].
  destruct (rr1_case _ _ (rel_authn c s1 s2 a H)) as [(t1 & t2 & -> & -> & R1)|(e & -> & ->)]; [|reflexivity].
  destruct (rr_case _ _ (rel_condition c t1 t2 a R1)) as [(b & u1 & u2 & -> & -> & R2)|(e & -> & ->)]; [|reflexivity].
  destruct b; cbn [rr1]; [|reflexivity].
  destruct (rr_case _ _ (rel_get_subject c irt u1 u2 a R2)) as [(k & w1 & w2 & -> & -> & R3)|(e & -> & ->)]; [|reflexivity].
  unfold rs in R3. rewrite R3.
  destruct (asynch c && negb (allow_unsolicited c) && match came_from w2 with Some _ => false | None => true end); cbn [rr1]; [reflexivity|].
  destruct (a_name_id a); exact R3.
Qed.

Lemma rel_check_assertions c irt req v push : forall l s1 s2, rs s1 s2 ->
  rr1 (check_assertions c irt req v push s1 l) (check_assertions c irt req v push s2 l).
Proof.
  induction l as [|a l IH]; intros s1 s2 H; cbn [check_assertions rr1]; [exact H|].
  destruct (rr1_case _ _ (rel_check_assertion c irt req v s1 s2 a H)) as [(t1 & t2 & -> & -> & R)|(e & -> & ->)]; [|reflexivity].
  apply IH. destruct push; exact R.
Qed.

Lemma rel_parse_assertion c req s1 s2 r : rs s1 s2 -> rr1 (parse_assertion c req s1 r) (parse_assertion c req s2 r).
Proof.
  intros H. rewrite !parse_assertion_eq. destruct (negb _); cbn [rr1]; [reflexivity|].
  destruct (rr1_case _ _ (rel_check_assertions c (r_irt r) req false false (r_assertions r) s1 s2 H))
    as [(t1 & t2 & -> & -> & R)|(e & -> & ->)]; [|reflexivity].
  destruct (verify_decrypted (decrypted_prefix (r_encrypted r))); cbn [rr1]; [|reflexivity].
  destruct (rr1_case _ _ (rel_check_assertions c (r_irt r) req true true (decrypted_prefix (r_encrypted r)) t1 t2 R))
    as [(u1 & u2 & -> & -> & R2)|(e & -> & ->)]; [exact R2|reflexivity].
Qed.

Lemma rel_verify c req s1 s2 r : rs s1 s2 -> okS (verify c req s1 r) = okS (verify c req s2 r).
Proof.
  intros H. rewrite !verify_eq. destruct (verify_front c r); [reflexivity|].
  destruct (rr1_case _ _ (rel_parse_assertion c req s1 s2 r H)) as [(t1 & t2 & -> & -> & _)|(e & -> & ->)]; reflexivity.
Qed.

Lemma residue_rs c req s r : rs (parse_assertion_residue c req s r) s.
Proof. exact (proj1 (residue_fields c req s r)). Qed.
