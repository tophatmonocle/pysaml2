(* Proofs/Encrypt_lemmas.v — C17, identity-provider half (Model/Encrypt.v PART I).
   The certificate loop as an equation over first_usable; response_with restated with its
   intermediate values named (response_with_eq) and inverted (response_with_inv); then:
   what an observer of the emitted bytes can read does not depend on the identity inside
   the assertion that was to be encrypted, every ciphertext is made for a certificate
   supplied for that service provider, and encryption raises when no certificate is usable.
   The definitions at the end are the sample data of the witnesses in Props/C17.v. *)
From PV Require Import Lib.Base Model.Status Model.Response Model.Encrypt Model.EncryptMd.
Open Scope N_scope.

Lemma first_usable_In cs : forall k, first_usable cs = Some k -> In (k, true) cs.
Proof.
  induction cs as [|[k' u] cs IH]; intros k H; cbn in H; [discriminate|]. destruct u.
  - injection H as ->. now left.
  - right. now apply IH.
Qed.

Lemma first_usable_None cs : first_usable cs = None <-> forall k, ~ In (k, true) cs.
Proof.
  induction cs as [|[k' u] cs IH]; cbn [first_usable].
  - split; [intros _ k []|reflexivity].
  - destruct u.
    + split; [discriminate|]. intros H. destruct (H k' (or_introl eq_refl)).
    + rewrite IH. split; intros H k; [intros [Hk|Hk]; [discriminate|exact (H k Hk)]|intros Hk; exact (H k (or_intror Hk))].
Qed.

Lemma cert_loop_eq cs : forall f, cert_loop cs f =
  match first_usable cs with
  | Some k => Ok (Some k)
  | None => if f || negb (is_nil cs) then Err (E "EncryptError") else Ok None
  end.
Proof.
  induction cs as [|[k u] cs IH]; intros f; cbn [cert_loop first_usable is_nil negb].
  - now rewrite orb_false_r.
  - destruct u; [reflexivity|]. now rewrite IH, orb_true_r.
Qed.

(* the <EncryptedAssertion> element _encrypt_assertion wraps around [t] *)
Definition enc_assertion (t : xml) : xml := El (E "EncryptedAssertion") [] None [t].

Lemma encrypt_with_eq ca md t : encrypt_with ca md t =
  match first_usable (certs_for ca md) with
  | Some k => Ok (enc_assertion (EncN k t))
  | None => if is_nil (certs_for ca md) then Ok (enc_assertion t) else Err (E "EncryptError")
  end.
Proof.
  unfold encrypt_with. rewrite cert_loop_eq. destruct (first_usable (certs_for ca md)); [reflexivity|]. now destruct (certs_for ca md).
Qed.

(* both fail with the same error, or both succeed with R-related values *)
Definition same_res {A} (R : A -> A -> Prop) (r1 r2 : result A) : Prop :=
  match r1, r2 with
  | Err e1, Err e2 => e1 = e2
  | Ok x1, Ok x2 => R x1 x2
  | _, _ => False
  end.

Lemma same_res_bind {A B} (R : A -> A -> Prop) (S : B -> B -> Prop) r1 r2 f1 f2 :
  same_res R r1 r2 -> (forall a1 a2, R a1 a2 -> same_res S (f1 a1) (f2 a2)) -> same_res S (bind r1 f1) (bind r2 f2).
Proof. destruct r1, r2; cbn; try contradiction; auto. Qed.

(* two results that an observer cannot tell apart *)
Definition same_view : result xml -> result xml -> Prop := same_res (fun x1 x2 => visible x1 = visible x2).

Lemma vis_same r1 r2 : same_view r1 r2 -> vis r1 = vis r2.
Proof. destruct r1, r2; cbn; congruence || contradiction. Qed.

(* the lemmas below are stated for encrypt_main and serve encrypt_with through this equation *)
Lemma encrypt_main_text ca md t : encrypt_main true ca md t = encrypt_with ca md t.
Proof. reflexivity. Qed.

(* whether encryption succeeds does not depend on the text, and the text shows only when there is no certificate at all *)
Lemma encrypt_main_rel (R : xml -> xml -> Prop) b ca md t1 t2 :
  (forall k, R (enc_assertion (EncN k t1)) (enc_assertion (EncN k t2))) ->
  (certs_for ca md = [] -> R (enc_assertion t1) (enc_assertion t2)) ->
  same_res R (encrypt_main b ca md t1) (encrypt_main b ca md t2).
Proof.
  intros Hk H0. unfold encrypt_main. rewrite !encrypt_with_eq. destruct b.
  - destruct (first_usable (certs_for ca md)); [apply Hk|]. destruct (certs_for ca md); [now apply H0|reflexivity].
  - destruct (certs_for ca md); [now apply H0|reflexivity].
Qed.

Lemma encrypt_main_view b ca md t1 t2 : visible t1 = visible t2 \/ certs_for ca md <> [] ->
  same_view (encrypt_main b ca md t1) (encrypt_main b ca md t2).
Proof.
  intros H. apply encrypt_main_rel; [reflexivity|]. intros Hn. destruct H as [H|H]; [cbn; now rewrite H|contradiction].
Qed.

Lemma has_cert_certs ca g : has_cert_for ca g -> certs_for ca (g_md_certs g) <> [].
Proof.
  intros [H|(k & u & ->)]; [|discriminate]. destruct ca; cbn; try assumption. discriminate.
Qed.

Lemma certs_for_in k (b : bool) ca md : In (k, b) (certs_for ca md) -> ca = CGiven k b \/ In (k, b) md.
Proof. destruct ca as [| |k' u]; cbn; auto. intros [[= -> ->]|[]]. now left. Qed.

(* the let-bound values of Model.Encrypt.response_with, as functions of its arguments; [negb (negb (is_nil _))] is the
   model's [negb has_cert], written out so that response_with_eq holds by unfolding *)
Definition adv_of (g : idp_args) (i : ident) : list xml := if g_pefim g then [advice_assertion (g_pub g) (i_attrs i)] else [].
Definition main_of (g : idp_args) (i : ident) (advice : list xml) : xml :=
  main_assertion (g_pub g) (i_name_id i) advice (if g_pefim g then [] else i_attrs i).
Definition no_cert (ca : cert_arg) (g : idp_args) : bool := negb (negb (is_nil (g_md_certs g))) && is_cnone ca.
Definition enc_req (g : idp_args) : bool :=
  if g_encrypt_assertion g && negb (g_enc_advice g || g_pefim g) && is_cnone (g_cert_assertion g) && negb (negb (is_nil (g_md_certs g)))
  then false else g_encrypt_assertion g.
Definition to_sign (g : idp_args) : bool := negb (enc_req g) && g_sign_assertion g.
Definition enc_adv (g : idp_args) : bool := if no_cert (g_cert_advice g) g then false else g_enc_advice g || g_pefim g.
Definition enc_as (g : idp_args) : bool := if no_cert (g_cert_assertion g) g then false else enc_req g.
Definition early (fixed : bool) (g : idp_args) : bool :=
  negb (g_sign_response g) && to_sign g && negb (enc_req g) && (if fixed then negb (g_enc_advice g || g_pefim g) else true).
Definition advice_kids (g : idp_args) (i : ident) : result (list xml) :=
  if enc_adv g && g_pefim g
  then do ea <- encrypt_with (g_cert_advice g) (g_md_certs g) (advice_assertion (g_pub g) (i_attrs i)); Ok [ea]
  else Ok (adv_of g i).
Definition encrypted_main (g : idp_args) (i : ident) (kids : list xml) : result xml :=
  encrypt_main (g_self_contained g || g_pefim g || g_sign_assertion g) (g_cert_assertion g) (g_md_certs g)
               (sign_if (g_sign_assertion g) (g_idp_key g) (main_of g i kids)).
Definition response_of (g : idp_args) (b : bool) (body : xml) : xml := sign_if b (g_idp_key g) (response_el (g_pub g) [body]).

Lemma response_with_eq fixed g i : response_with fixed g i =
  if early fixed g then Ok (response_of g false (sign_el (g_idp_key g) (main_of g i (adv_of g i)))) else
  if enc_as g || (enc_adv g && g_pefim g) then
    do kids <- advice_kids g i;
    if enc_as g then do ea <- encrypted_main g i kids; Ok (response_of g (g_sign_response g) ea)
    else Ok (response_of g (g_sign_response g) (sign_if (to_sign g) (g_idp_key g) (main_of g i kids)))
  else if g_sign_response g then Ok (response_of g true (sign_if (to_sign g) (g_idp_key g) (main_of g i (adv_of g i))))
  else if fixed && to_sign g then Ok (response_of g false (sign_el (g_idp_key g) (main_of g i (adv_of g i))))
  else Ok (response_of g false (main_of g i (adv_of g i))).
Proof.
  unfold response_with, advice_kids, encrypted_main, response_of, main_of, adv_of, early, enc_as, enc_adv, to_sign, enc_req, no_cert.
  destruct (g_pefim g); cbn [List.length Nat.eqb is_nil negb]; rewrite ?andb_false_r, ?andb_true_r; reflexivity.
Qed.

Lemma no_cert_false ca g : has_cert_for ca g -> no_cert ca g = false.
Proof.
  unfold no_cert. intros [H|(k & u & ->)]; [|apply andb_false_r]. destruct (g_md_certs g); [congruence|reflexivity].
Qed.

(* the switch-off step of _authn_response (fix: 28208820) never fires when the SP has a certificate *)
Lemma enc_as_true g : g_encrypt_assertion g = true -> has_cert_for (g_cert_assertion g) g -> enc_req g = true /\ enc_as g = true.
Proof.
  intros He Hc. apply no_cert_false in Hc. unfold enc_as. rewrite Hc. unfold enc_req, no_cert in *.
  rewrite He, <- andb_assoc, (andb_comm (is_cnone _)), Hc, andb_false_r. split; reflexivity.
Qed.

Lemma response_with_encrypting fixed g i :
  g_encrypt_assertion g = true -> has_cert_for (g_cert_assertion g) g ->
  response_with fixed g i = do kids <- advice_kids g i; do ea <- encrypted_main g i kids; Ok (response_of g (g_sign_response g) ea).
Proof.
  intros He Hc. destruct (enc_as_true g He Hc) as [R A]. rewrite response_with_eq. unfold early, to_sign. rewrite R, A.
  cbn [negb andb orb]. now rewrite andb_false_r.
Qed.

(* every shape the emitted response can have *)
Lemma response_with_inv fixed g i t : response_with fixed g i = Ok t ->
  exists b1 b2 kids body, t = response_of g b1 body /\ (kids = adv_of g i \/ advice_kids g i = Ok kids) /\
    (body = sign_if b2 (g_idp_key g) (main_of g i kids) \/ enc_as g = true /\ encrypted_main g i kids = Ok body).
Proof.
  rewrite response_with_eq. intros H.
  destruct (early fixed g); [apply Ok_inj in H as <-; exists false, true, (adv_of g i); eauto 6|].
  destruct (enc_as g || (enc_adv g && g_pefim g)).
  - apply bind_Ok in H as (kids & Hk & H). destruct (enc_as g).
    + apply bind_Ok in H as (ea & Hm & H). apply Ok_inj in H as <-. exists (g_sign_response g), false, kids, ea. eauto 6.
    + apply Ok_inj in H as <-. exists (g_sign_response g), (to_sign g), kids. eauto 6.
  - destruct (g_sign_response g); [apply Ok_inj in H as <-; exists true, (to_sign g), (adv_of g i); eauto 6|].
    destruct (fixed && to_sign g); apply Ok_inj in H as <-; [exists false, true, (adv_of g i)|exists false, false, (adv_of g i)]; eauto 6.
Qed.

Lemma visible_signed b k n a tx k1 k2 : flat_map visible k1 = flat_map visible k2 ->
  visible (sign_if b k (El n a tx k1)) = visible (sign_if b k (El n a tx k2)).
Proof. intros H. destruct b; cbn [sign_if sign_el visible flat_map]; now rewrite H. Qed.

Lemma response_view p b k ea1 ea2 : visible ea1 = visible ea2 ->
  visible (sign_if b k (response_el p [ea1])) = visible (sign_if b k (response_el p [ea2])).
Proof. intros H. apply visible_signed. rewrite !flat_map_app. cbn [flat_map]. now rewrite H. Qed.

Lemma visible_advice_el nm adv : flat_map visible (match adv with [] => [] | _ => [El nm [] None adv] end) = flat_map visible adv.
Proof. destruct adv; [reflexivity|]. cbn [flat_map visible map app]. apply app_nil_r. Qed.

Lemma main_view p n attrs b k adv1 adv2 : flat_map visible adv1 = flat_map visible adv2 ->
  visible (sign_if b k (main_assertion p n adv1 attrs)) = visible (sign_if b k (main_assertion p n adv2 attrs)).
Proof. intros H. apply visible_signed. now rewrite !flat_map_app, !visible_advice_el, H. Qed.

(* the advice step succeeds or fails independently of the identity *)
Lemma advice_kids_status g i1 i2 : same_res (fun _ _ => True) (advice_kids g i1) (advice_kids g i2).
Proof.
  unfold advice_kids. destruct (enc_adv g && g_pefim g); [|exact I].
  apply (same_res_bind (fun _ _ => True)); [|intros; exact I]. rewrite <- !encrypt_main_text. apply encrypt_main_rel; intros; exact I.
Qed.

Lemma confidential_main g i1 i2 :
  g_encrypt_assertion g = true -> has_cert_for (g_cert_assertion g) g ->
  vis (idp_build g i1) = vis (idp_build g i2).
Proof.
  intros He Hc. apply vis_same. unfold idp_build, idp_build_with. destruct (gather g); [|reflexivity].
  rewrite !(response_with_encrypting _ _ _ He Hc).
  apply (same_res_bind (fun _ _ => True)); [apply advice_kids_status|]. intros k1 k2 _.
  apply (same_res_bind (fun x1 x2 => visible x1 = visible x2)).
  - apply encrypt_main_view. right. now apply has_cert_certs.
  - intros ea1 ea2. apply response_view.
Qed.

Lemma confidential_advice g n a1 a2 :
  g_pefim g = true -> has_cert_for (g_cert_advice g) g ->
  vis (idp_build g {| i_name_id := n; i_attrs := a1 |}) = vis (idp_build g {| i_name_id := n; i_attrs := a2 |}).
Proof.
  intros Hp Hc. apply vis_same. unfold idp_build, idp_build_with. destruct (gather g); [|reflexivity].
  rewrite !response_with_eq. unfold early, advice_kids, enc_adv, encrypted_main, main_of. cbn [i_name_id i_attrs].
  rewrite (no_cert_false _ _ Hc), Hp, !orb_true_r. cbn [negb andb]. rewrite andb_false_r.
  apply (same_res_bind (fun k1 k2 => flat_map visible k1 = flat_map visible k2)).
  - apply (same_res_bind (fun x1 x2 => visible x1 = visible x2)).
    + rewrite <- !encrypt_main_text. apply encrypt_main_view. right. now apply has_cert_certs.
    + intros ea1 ea2 H. cbn. now rewrite H.
  - intros k1 k2 H. destruct (enc_as g).
    + apply (same_res_bind (fun x1 x2 => visible x1 = visible x2)).
      * apply encrypt_main_view. left. now apply main_view.
      * intros ea1 ea2. apply response_view.
    + apply response_view. now apply main_view.
Qed.

(* strings: nothing that is not also readable in the response built for a reference identity *)
Lemma no_occurrence (r r0 : result xml) out s :
  vis r = vis r0 -> r = Ok out -> (forall out0, r0 = Ok out0 -> ~ In s (visible out0)) -> ~ In s (visible out).
Proof. intros NI -> H0. destruct r0 as [out0|]; [|discriminate]. injection NI as ->. now apply H0. Qed.

Lemma enc_keys_leaves n a vs : flat_map enc_keys (map (fun v : str => El n a (Some v) []) vs) = [].
Proof. induction vs as [|v vs IH]; [reflexivity|exact IH]. Qed.

Lemma enc_keys_attrs attrs : flat_map enc_keys (map attr_el attrs) = [].
Proof.
  induction attrs as [|a attrs IH]; [reflexivity|]. cbn [map flat_map]. rewrite IH, app_nil_r. apply enc_keys_leaves.
Qed.

Lemma enc_keys_attr_stmt attrs : flat_map enc_keys (attr_stmt attrs) = [].
Proof. destruct attrs as [|a attrs]; [reflexivity|]. unfold attr_stmt. cbn [flat_map enc_keys]. rewrite app_nil_r. apply enc_keys_attrs. Qed.

Lemma enc_keys_main p n adv attrs : enc_keys (main_assertion p n adv attrs) = flat_map enc_keys adv.
Proof.
  unfold main_assertion. cbn [enc_keys]. rewrite !flat_map_app, enc_keys_attr_stmt, app_nil_r.
  cbn [flat_map enc_keys txt conditions_el app]. rewrite !flat_map_app, enc_keys_leaves.
  destruct adv as [|a adv']; cbn [flat_map enc_keys app]; rewrite ?app_nil_r; reflexivity.
Qed.

Lemma enc_keys_advice p attrs : enc_keys (advice_assertion p attrs) = [].
Proof. unfold advice_assertion. cbn [enc_keys]. rewrite flat_map_app, enc_keys_attr_stmt. reflexivity. Qed.

Lemma enc_keys_sign b k t : enc_keys (sign_if b k t) = enc_keys t.
Proof. destruct b, t; reflexivity. Qed.

Lemma enc_keys_response g b body : enc_keys (response_of g b body) = enc_keys body.
Proof. unfold response_of. rewrite enc_keys_sign. cbn. apply app_nil_r. Qed.

Lemma encrypt_main_keys b ca md t ea : encrypt_main b ca md t = Ok ea ->
  forall k, In k (enc_keys ea) -> In (k, true) (certs_for ca md) \/ In k (enc_keys t).
Proof.
  unfold encrypt_main. rewrite encrypt_with_eq. intros H k.
  assert (In k (enc_keys (enc_assertion t)) -> In k (enc_keys t)) as Plain by (cbn; now rewrite app_nil_r).
  destruct b; [destruct (first_usable (certs_for ca md)) as [k0|] eqn:F|].
  - injection H as <-. cbn. rewrite app_nil_r. intros [<-|Hk]; [left; now apply first_usable_In|now right].
  - destruct (certs_for ca md); [|discriminate]. injection H as <-. auto.
  - destruct (certs_for ca md); [|discriminate]. injection H as <-. auto.
Qed.

Lemma advice_kids_keys g i kids : kids = adv_of g i \/ advice_kids g i = Ok kids ->
  forall k, In k (flat_map enc_keys kids) -> In (k, true) (certs_for (g_cert_advice g) (g_md_certs g)).
Proof.
  assert (flat_map enc_keys (adv_of g i) = []) as Hadv.
  { unfold adv_of. destruct (g_pefim g); [|reflexivity]. cbn [flat_map]. now rewrite enc_keys_advice. }
  unfold advice_kids. intros [->|H] k Hk; [rewrite Hadv in Hk; destruct Hk|].
  destruct (enc_adv g && g_pefim g); [|injection H as <-; rewrite Hadv in Hk; destruct Hk].
  apply bind_Ok in H as (ea & He & [= <-]). cbn [flat_map] in Hk. rewrite app_nil_r in Hk.
  rewrite <- encrypt_main_text in He. destruct (encrypt_main_keys _ _ _ _ _ He k Hk) as [Hc|Hb]; [exact Hc|]. rewrite enc_keys_advice in Hb. destruct Hb.
Qed.

Lemma enc_keys_for_sp fixed g i t : idp_build_with fixed g i = Ok t -> forall k, In k (enc_keys t) ->
  In (k, true) (certs_for (g_cert_assertion g) (g_md_certs g)) \/ In (k, true) (certs_for (g_cert_advice g) (g_md_certs g)).
Proof.
  unfold idp_build_with. destruct (gather g); [|discriminate]. intros H k Hk.
  apply response_with_inv in H as (b1 & b2 & kids & body & -> & Hkids & Hbody). rewrite enc_keys_response in Hk.
  pose proof (advice_kids_keys g i kids Hkids k) as Hak.
  assert (forall b, In k (enc_keys (sign_if b (g_idp_key g) (main_of g i kids))) -> In k (flat_map enc_keys kids)) as Hmain
    by (intros b; unfold main_of; now rewrite enc_keys_sign, enc_keys_main).
  destruct Hbody as [->|[_ Hm]]; [eauto|]. destruct (encrypt_main_keys _ _ _ _ _ Hm k Hk); eauto.
Qed.

Lemma encrypt_main_all_bad b ca md t : certs_for ca md <> [] -> (forall k u, In (k, u) (certs_for ca md) -> u = false) ->
  encrypt_main b ca md t = Err (E "EncryptError").
Proof.
  intros Hne Hall. unfold encrypt_main. rewrite encrypt_with_eq.
  replace (first_usable (certs_for ca md)) with (@None N) by (symmetry; apply first_usable_None; intros k Hk; now apply Hall in Hk).
  destruct (certs_for ca md); [congruence|]. now destruct b.
Qed.

Lemma cert_accepted_given k0 ca u : cert_accepted (Some k0) ca = Ok u -> ca = CGiven k0 true.
Proof.
  unfold cert_accepted. destruct ca as [| |k [|]]; try discriminate. destruct (N.eqb_spec k k0); [now subst k|discriminate].
Qed.

Lemma gather_ok g u : gather g = Ok u ->
  (g_enc_advice g || g_pefim g = true -> exists u', cert_accepted (g_verify_advice g) (g_cert_advice g) = Ok u') /\
  (g_encrypt_assertion g = true -> cert_accepted (g_verify_assertion g) (g_cert_assertion g) = Ok u).
Proof.
  unfold gather. intros H. split; intros E; rewrite E in H.
  - destruct (cert_accepted (g_verify_advice g) (g_cert_advice g)); [eauto|discriminate].
  - destruct (if g_enc_advice g || g_pefim g then cert_accepted (g_verify_advice g) (g_cert_advice g) else Ok tt); [exact H|discriminate].
Qed.

Definition pub0 : pubinfo := {| p_rid := E "id-r"; p_aid := E "id-a"; p_advid := E "id-b"; p_issuer := E "https://idp.example.org/idp";
  p_dest := E "https://sp.example.org/acs"; p_irt := E "req-1"; p_sp := E "https://sp.example.org/sp"; p_instant := E "2026-09-21T14:13:20Z";
  p_nooa := E "2026-09-21T14:28:20Z"; p_session := E "id-s"; p_classref := E "urn:oasis:names:tc:SAML:2.0:ac:classes:Password" |}.
(* the arguments on which the code before proposed_fix/C17-1 returned early: PEFIM, assertion signed,
   response not signed, encrypt_assertion off *)
Definition g_pefim_signed : idp_args := {| g_sign_response := false; g_sign_assertion := true; g_encrypt_assertion := false; g_enc_advice := false;
  g_pefim := true; g_self_contained := true; g_cert_assertion := CNone; g_cert_advice := CNone; g_md_certs := [(1, true)]; g_verify_assertion := None; g_verify_advice := None;
  g_idp_key := 3; g_pub := pub0 |}.
Definition ident0 : ident := {| i_name_id := Some (E "subject-7"); i_attrs := [(E "mail", [E "anna@example.org"])] |}.

