(* Proofs/Schema_lemmas.v — the generic SamlBase engine model (Model/Schema.v): list and
   association-list facts it needs; what wf_row / wf_inst say; serialise on a well-formed object
   (serialise_shape); the round trip serialise - parse = norm (roundtrip_parse), norm_serialise,
   show_inst_norm; and the whole-schema forms (wf_row_defects, wf_inst_obj_ok). *)
From PV Require Import Lib.Base Model.Schema.
Open Scope N_scope.

Lemma memN_In x l : memN x l = true <-> In x l.
Proof.
  unfold memN. rewrite existsb_exists. split.
  - intros [y [Hy He]]. apply N.eqb_eq in He. subst; exact Hy.
  - intros H. exists x. split; [exact H|apply N.eqb_refl].
Qed.

Lemma memN_false x l : memN x l = false <-> ~ In x l.
Proof.
  rewrite <- memN_In. destruct (memN x l); split; intros H; try congruence;
    try (exfalso; apply H; reflexivity).
Qed.

Lemma nodupN_NoDup l : nodupN l = true <-> NoDup l.
Proof.
  induction l as [|x l IH]; cbn [nodupN]; [split; [constructor|reflexivity]|].
  rewrite andb_true_iff, negb_true_iff, memN_false, IH. split.
  - intros [H1 H2]. constructor; assumption.
  - intros H. inversion H; subst. split; assumption.
Qed.

Lemma subsetN_In a b : subsetN a b = true -> forall x, In x a -> In x b.
Proof.
  unfold subsetN. rewrite forallb_forall. intros H x Hx. apply memN_In, H, Hx.
Qed.

Lemma alookup_None {A} k (l : list (N * A)) : ~ In k (map fst l) -> alookup k l = None.
Proof.
  induction l as [|[k' v] l IH]; cbn [alookup map fst]; intros H; [reflexivity|].
  destruct (N.eqb_spec k' k) as [->|Hn]; [exfalso; apply H; left; reflexivity|].
  apply IH. intros Hi; apply H; right; exact Hi.
Qed.

Lemma alookup_Some_In {A} k (v : A) l : alookup k l = Some v -> In (k, v) l.
Proof.
  induction l as [|[k' v'] l IH]; cbn [alookup]; intros H; [discriminate|].
  destruct (N.eqb_spec k' k) as [->|Hn]; [inversion H; subst; left; reflexivity|right; auto].
Qed.

Lemma alookup_app {A} k (a b : list (N * A)) :
  alookup k (a ++ b) = match alookup k a with Some v => Some v | None => alookup k b end.
Proof.
  induction a as [|[k' v] a IH]; cbn [alookup app]; [reflexivity|].
  destruct (k' =? k); [reflexivity|exact IH].
Qed.

Lemma aset_fresh {A} k (v : A) d : ~ In k (map fst d) -> aset k v d = d ++ [(k, v)].
Proof.
  induction d as [|[k' v'] d IH]; cbn [aset map fst app]; intros H; [reflexivity|].
  destruct (N.eqb_spec k' k) as [->|Hn]; [exfalso; apply H; left; reflexivity|].
  f_equal. apply IH. intros Hi; apply H; right; exact Hi.
Qed.

Lemma aset_same {A} k (v : A) d : alookup k d = Some v -> aset k v d = d.
Proof.
  induction d as [|[k' v'] d IH]; cbn [aset alookup]; intros H; [discriminate|].
  destruct (N.eqb_spec k' k) as [->|Hn]; [inversion H; reflexivity|f_equal; auto].
Qed.

Lemma fold_aset_nodup {A} (l acc : list (N * A)) :
  NoDup (map fst (acc ++ l)) ->
  fold_left (fun d kv => aset (fst kv) (snd kv) d) l acc = acc ++ l.
Proof.
  revert acc; induction l as [|[k v] l IH]; intros acc H; cbn [fold_left fst snd].
  - rewrite app_nil_r; reflexivity.
  - rewrite aset_fresh.
    + rewrite IH; rewrite <- app_assoc; [reflexivity|exact H].
    + rewrite map_app in H. apply NoDup_remove_2 in H. intros Hi; apply H.
      apply in_or_app; left; exact Hi.
Qed.

Lemma dict_of_nodup {A} (l : list (N * A)) : NoDup (map fst l) -> dict_of l = l.
Proof. intros H. unfold dict_of. rewrite fold_aset_nodup; [reflexivity|exact H]. Qed.

Lemma sequence_map_ok {A B} (f : A -> result B) (g : A -> B) l :
  (forall x, In x l -> f x = Ok (g x)) -> sequence (map f l) = Ok (map g l).
Proof.
  induction l as [|x l IH]; intros H; cbn [map sequence]; [reflexivity|].
  rewrite (H x (or_introl eq_refl)). rewrite IH; [reflexivity|].
  intros y Hy; apply H; right; exact Hy.
Qed.

Section Keyed.
  Context {A : Type} (key : A -> N).

  Lemma key_inj l a b : NoDup (map key l) -> In a l -> In b l -> key a = key b -> a = b.
  Proof.
    induction l as [|x l IH]; intros Hnd Ha Hb He; [destruct Ha|].
    cbn [map] in Hnd. apply NoDup_cons_iff in Hnd as [Hni Hnd].
    destruct Ha as [->|Ha], Hb as [->|Hb]; [reflexivity| | |apply IH; assumption]; exfalso; apply Hni.
    - rewrite He. apply in_map; exact Hb.
    - rewrite <- He. apply in_map; exact Ha.
  Qed.

  Lemma find_unique l a : NoDup (map key l) -> In a l -> find (fun x => key x =? key a) l = Some a.
  Proof.
    intros Hnd Hin. destruct (find (fun x => key x =? key a) l) as [b|] eqn:E.
    - apply find_some in E as [Hb He]. apply N.eqb_eq in He. f_equal. exact (key_inj l b a Hnd Hb Hin He).
    - pose proof (find_none _ _ E a Hin) as H. cbv beta in H. rewrite N.eqb_refl in H. discriminate.
  Qed.

  Lemma find_none_key l k : ~ In k (map key l) -> find (fun x => key x =? k) l = None.
  Proof.
    intros H. destruct (find (fun x => key x =? k) l) as [b|] eqn:E; [|reflexivity].
    apply find_some in E as [Hb He]. apply N.eqb_eq in He. exfalso. apply H. rewrite <- He. apply in_map; exact Hb.
  Qed.

  Lemma flat_map_pick {B} (f : A -> list B) l a :
    NoDup (map key l) -> In a l -> flat_map (fun x => if key x =? key a then f x else []) l = f a.
  Proof.
    induction l as [|x l IH]; intros Hnd Hin; [destruct Hin|].
    cbn [flat_map]. pose proof Hnd as Hnd0. cbn [map] in Hnd. apply NoDup_cons_iff in Hnd as [Hni Hnd].
    destruct Hin as [->|Hin].
    - rewrite N.eqb_refl, flat_map_nil, app_nil_r; [reflexivity|].
      intros y Hy. destruct (N.eqb_spec (key y) (key a)) as [He|_]; [|reflexivity].
      exfalso. apply Hni. rewrite <- He. apply in_map; exact Hy.
    - destruct (N.eqb_spec (key x) (key a)) as [He|_]; [|apply IH; assumption].
      exfalso. apply Hni. rewrite He. apply in_map; exact Hin.
  Qed.
End Keyed.

(* lookup in a table-ordered projection: kx = output key, g = the value a row contributes *)
Section Proj.
  Context {R V : Type} (kx : R -> N) (g : R -> option V).
  Local Notation proj L := (flat_map (fun a => match g a with Some v => [(kx a, v)] | None => [] end) L).

  Lemma proj_keys L k : In k (map fst (proj L)) -> In k (map kx L).
  Proof.
    intros Hi. apply in_map_iff in Hi as [[k' v] [Hk Hi]]. cbn in Hk; subst k'.
    apply in_flat_map in Hi as [b [Hb Hi]].
    destruct (g b); [|destruct Hi].
    destruct Hi as [Hi|[]]. injection Hi as He Hv. rewrite <- He. apply in_map; exact Hb.
  Qed.

  Lemma proj_lookup L a : NoDup (map kx L) -> In a L -> alookup (kx a) (proj L) = g a.
  Proof.
    induction L as [|a' L IH]; intros Hnd Hin; [destruct Hin|].
    cbn [map] in Hnd. apply NoDup_cons_iff in Hnd as [Hni Hnd]. cbn [flat_map].
    rewrite alookup_app. destruct Hin as [->|Hin].
    - destruct (g a) as [v|]; cbn [alookup]; [rewrite N.eqb_refl; reflexivity|].
      apply alookup_None. intros Hi. apply Hni, proj_keys, Hi.
    - assert (Hne : kx a' <> kx a) by (intros He; apply Hni; rewrite He; apply in_map; exact Hin).
      destruct (g a') as [v|]; cbn [alookup]; [destruct (N.eqb_spec (kx a') (kx a)); [congruence|]|]; apply IH; assumption.
  Qed.

  Lemma proj_nodup L : NoDup (map kx L) -> NoDup (map fst (proj L)).
  Proof.
    induction L as [|a L IH]; intros Hnd; [constructor|].
    cbn [map] in Hnd. apply NoDup_cons_iff in Hnd as [Hni Hnd]. cbn [flat_map].
    destruct (g a) as [v|]; cbn [app map fst]; [|apply IH; exact Hnd].
    constructor; [|apply IH; exact Hnd]. intros Hi. apply Hni, proj_keys, Hi.
  Qed.
End Proj.

Lemma kids_of_map {A B} (f : A -> B) m (l : list (N * A)) :
  kids_of m (map (fun p => let '(m', k) := p in (m', f k)) l) = map f (kids_of m l).
Proof.
  unfold kids_of. induction l as [|[m' k] l IH]; cbn [map filter fst]; [reflexivity|].
  destruct (m' =? m); cbn [map snd]; [f_equal|]; exact IH.
Qed.

Lemma kids_of_In {A} m (k : A) l : In k (kids_of m l) <-> In (m, k) l.
Proof.
  unfold kids_of. rewrite in_map_iff. split.
  - intros [[m' k'] [He Hf]]. cbn in He; subst k'.
    apply filter_In in Hf as [Hi Hm]. cbn in Hm. apply N.eqb_eq in Hm; subst; exact Hi.
  - intros H. exists (m, k). split; [reflexivity|]. apply filter_In. split; [exact H|apply N.eqb_refl].
Qed.

Lemma kids_of_app {A} m (a b : list (N * A)) : kids_of m (a ++ b) = kids_of m a ++ kids_of m b.
Proof. unfold kids_of. rewrite filter_app, map_app. reflexivity. Qed.

Lemma kids_of_pair {A} m m' (l : list A) :
  kids_of m (map (fun x => (m', x)) l) = if m' =? m then l else [].
Proof.
  unfold kids_of. induction l as [|x l IH]; cbn [map filter fst]; [destruct (m' =? m); reflexivity|].
  destruct (m' =? m) eqn:E; cbn [map snd]; [f_equal|]; exact IH.
Qed.

Lemma kids_of_flat_map {A B} m (h : B -> list (N * A)) L :
  kids_of m (flat_map h L) = flat_map (fun x => kids_of m (h x)) L.
Proof. induction L as [|x L IH]; cbn [flat_map]; [reflexivity|]. rewrite kids_of_app, IH. reflexivity. Qed.

Lemma kids_of_grouped {A R} (key : R -> N) (f : N -> list A) m (L : list R) :
  NoDup (map key L) -> In m (map key L) ->
  kids_of m (flat_map (fun ch => map (fun x => (key ch, x)) (f (key ch))) L) = f m.
Proof.
  intros Hnd Hin. apply in_map_iff in Hin as [a [<- Ha]].
  rewrite kids_of_flat_map, <- (flat_map_pick key (fun ch => f (key ch)) L a Hnd Ha).
  apply flat_map_ext_in. intros ch _. apply kids_of_pair.
Qed.

Section InstInd.
  Variable P : inst -> Prop.
  Hypothesis HN : P INone.
  Hypothesis HI : forall c a t k xa xe, Forall (fun p => P (snd p)) k -> P (I c a t k xa xe).
  Fixpoint inst_ind' (i : inst) : P i :=
    match i with
    | INone => HN
    | I c a t k xa xe =>
        HI c a t k xa xe
          ((fix go (l : list (N * inst)) : Forall (fun p => P (snd p)) l :=
              match l with
              | [] => Forall_nil _
              | (m, x) :: l' => Forall_cons (m, x) (inst_ind' x) (go l')
              end) k)
    end.
End InstInd.

Section XtreeInd.
  Variable P : xtree -> Prop.
  Hypothesis HX : forall t a tx k, Forall P k -> P (X t a tx k).
  Fixpoint xtree_ind' (x : xtree) : P x :=
    match x with
    | X t a tx k =>
        HX t a tx k
          ((fix go (l : list xtree) : Forall P l :=
              match l with
              | [] => Forall_nil _
              | y :: l' => Forall_cons y (xtree_ind' y) (go l')
              end) k)
    end.
End XtreeInd.

Lemma wf_row_facts S r : wf_row S r = true ->
  (forall ch, In ch (k_children r) -> child_ok S ch = true) /\
  NoDup (map c_tagkey (k_children r)) /\
  NoDup (declared_members r) /\
  NoDup (order_of r) /\
  (forall m, In m (order_of r) -> In m (child_members r)) /\
  (forall m, In m (child_members r) -> In m (order_of r)) /\
  NoDup (map a_xml (k_attrs r)) /\
  k_missing r = [] /\ k_init_ok r = true /\ over_kind r <> OUnknown /\
  (over_kind r = OAttrValue -> k_children r = [] /\ k_attrs r = []).
Proof.
  unfold wf_row. intros H.
  repeat (apply andb_true_iff in H as [H ?]).
  repeat split.
  - apply forallb_forall; assumption.
  - apply nodupN_NoDup; assumption.
  - apply nodupN_NoDup; assumption.
  - apply nodupN_NoDup; assumption.
  - apply subsetN_In; assumption.
  - apply subsetN_In; assumption.
  - apply nodupN_NoDup; assumption.
  - destruct (k_missing r); [reflexivity|discriminate].
  - assumption.
  - destruct (over_kind r); congruence.
  - destruct (over_kind r); try discriminate. destruct (k_children r); [reflexivity|discriminate].
  - destruct (over_kind r); try discriminate. destruct (k_children r); [|discriminate].
    destruct (k_attrs r); [reflexivity|discriminate].
Qed.

Lemma child_members_nodup r : NoDup (declared_members r) -> NoDup (map c_member (k_children r)).
Proof. intros H. apply NoDup_app_iff in H. apply H. Qed.

Lemma attr_members_nodup r : NoDup (declared_members r) -> NoDup (map a_member (k_attrs r)).
Proof. intros H. apply NoDup_app_iff in H. apply H. Qed.

Lemma find_child_by_member_In r ch :
  NoDup (declared_members r) -> In ch (k_children r) -> find_child_by_member r (c_member ch) = Some ch.
Proof. intros Hnd Hin. exact (find_unique c_member _ ch (child_members_nodup r Hnd) Hin). Qed.

(* the tree k serialises to; the dummy tree stands where serialise fails, which no lemma about
   ser_tot ever meets (each comes with serialise S k = Ok (ser_tot S k)) *)
Definition ser_tot (S : schema) (k : inst) : xtree :=
  match serialise S k with Ok x => x | Err _ => X 0 [] None [] end.

Lemma ser_tot_ok S k x : serialise S k = Ok x -> ser_tot S k = x.
Proof. intros H. unfold ser_tot. rewrite H. reflexivity. Qed.

Lemma ser_node_wf S r attrs text (K : list (N * inst)) xattrs xelems :
  wf_row S r = true ->
  (forall m, In m (map fst attrs) -> In m (attr_members r)) ->
  (forall m k, In (m, k) K -> serialise S k = Ok (ser_tot S k)) ->
  NoDup (map fst xattrs) ->
  (forall n, In n (map fst xattrs) -> ~ In n (map a_xml (k_attrs r))) ->
  ser_node r attrs text (map (fun p => let '(m, k) := p in (m, serialise S k)) K) xattrs xelems
  = Ok (X (k_qtag r) (known_attrs r attrs ++ xattrs) text
          (flat_map (fun m => map (ser_tot S) (kids_of m K)) (order_of r) ++ xelems)).
Proof.
  intros Hwr Hattrs Hser Hxa Hdisj.
  destruct (wf_row_facts S r Hwr) as (_ & _ & Hnd & _ & Hord & _ & Hxml & Hmiss & _).
  unfold ser_node. rewrite (proj2 (nodupN_NoDup _) Hnd). cbn [negb].
  set (sk := map (fun p => let '(m, k) := p in (m, serialise S k)) K).
  assert (Hhm : forall m, has_member r attrs sk m = true).
  { intros m. unfold has_member. rewrite Hmiss. reflexivity. }
  rewrite (sequence_map_ok _ (fun m => map (ser_tot S) (kids_of m K))).
  - assert (He : forall l, existsb (fun a => negb (has_member r attrs sk (a_member a))) l = false).
    { intros l. apply existsb_false. intros a _. now rewrite Hhm. }
    rewrite He, dict_of_nodup, <- flat_map_concat_map; [reflexivity|].
    rewrite map_app. apply NoDup_app_iff. split; [|split; [exact Hxa|]].
    + apply (proj_nodup a_xml (fun a => alookup (a_member a) attrs)); exact Hxml.
    + intros n Hn Hx. apply (Hdisj n Hx). exact (proj_keys a_xml (fun a => alookup (a_member a) attrs) _ n Hn).
  - intros m Hm. unfold ser_member. rewrite Hhm. cbn [negb].
    rewrite alookup_None.
    + unfold sk. rewrite kids_of_map. apply sequence_map_ok.
      intros k Hk. apply (Hser m), kids_of_In, Hk.
    + intros Hi. apply NoDup_app_iff in Hnd as (_ & _ & Hd). exact (Hd m (Hord m Hm) (Hattrs m Hi)).
Qed.

Section WfInst.
  Variables (NIL TYPE XMLNS_XS : N).
  Notation wf_inst := (wf_inst NIL TYPE XMLNS_XS).

  Lemma wf_inst_I S c a t K xa xe :
    wf_inst S (I c a t K xa xe) = true ->
    exists r, find_row S c = Some r /\ wf_row S r = true /\ NoDup (map fst a) /\
      (forall m, In m (map fst a) -> In m (attr_members r)) /\
      (forall d, In d (k_defaults r) -> alookup (fst d) a <> None) /\
      (forall m k, In (m, k) K -> exists ch, find_child_by_member r m = Some ch /\
                                    optN_eqb (c_cls ch) (cls_of k) = true /\ wf_inst S k = true) /\
      (forall ch, In ch (k_children r) -> c_islist ch = false -> (List.length (kids_of (c_member ch) K) <= 1)%nat) /\
      NoDup (map fst xa) /\
      (forall n, In n (map fst xa) -> ~ In n (map a_xml (k_attrs r))) /\
      (forall e, In e xe -> ~ In (xtag e) (map c_tagkey (k_children r))) /\
      (over_kind r = OAttrValue -> av_ok NIL TYPE XMLNS_XS t xa = true).
  Proof.
    cbn [Schema.wf_inst]. destruct (find_row S c) as [r|]; [|discriminate].
    intros H. exists r.
    apply andb_true_iff in H as [H Hav]. apply andb_true_iff in H as [H Hxe]. apply andb_true_iff in H as [H Hdisj].
    apply andb_true_iff in H as [H Hxa]. apply andb_true_iff in H as [H Hsingle]. apply andb_true_iff in H as [H Hkids].
    apply andb_true_iff in H as [H Hdef]. apply andb_true_iff in H as [H Hsub]. apply andb_true_iff in H as [Hwr Hna].
    rewrite forallb_forall in Hdef, Hkids, Hsingle, Hdisj, Hxe.
    split; [reflexivity|]. split; [exact Hwr|]. split; [apply nodupN_NoDup, Hna|]. split; [exact (subsetN_In _ _ Hsub)|].
    split. { intros d Hd. specialize (Hdef d Hd). destruct (alookup (fst d) a); [congruence|discriminate]. }
    split. { intros m k Hk. specialize (Hkids _ Hk). cbn in Hkids. destruct (find_child_by_member r m) as [ch|]; [|discriminate].
             apply andb_true_iff in Hkids as [H1 H2]. exists ch. repeat split; assumption. }
    split. { intros ch Hch El. specialize (Hsingle ch Hch). rewrite El in Hsingle. apply Nat.leb_le, Hsingle. }
    split; [apply nodupN_NoDup, Hxa|].
    split. { intros n Hn. apply in_map_iff in Hn as [p [<- Hn]]. apply memN_false, negb_true_iff, (Hdisj p Hn). }
    split. { intros e He. apply memN_false, negb_true_iff, (Hxe e He). }
    intros Ho. rewrite Ho in Hav. exact Hav.
  Qed.

  Lemma wf_inst_kid S c a t K xa xe m k : wf_inst S (I c a t K xa xe) = true -> In (m, k) K -> wf_inst S k = true.
  Proof.
    intros H Hin. destruct (wf_inst_I _ _ _ _ _ _ _ H) as (r & _ & _ & _ & _ & _ & Hk & _).
    destruct (Hk m k Hin) as (ch & _ & _ & Hw). exact Hw.
  Qed.

  Lemma serialise_I S c a t K xa xe r :
    wf_inst S (I c a t K xa xe) = true -> find_row S c = Some r ->
    (forall m k, In (m, k) K -> serialise S k = Ok (ser_tot S k)) ->
    serialise S (I c a t K xa xe)
    = Ok (X (k_qtag r) (known_attrs r a ++ xa) t
            (flat_map (fun m => map (ser_tot S) (kids_of m K)) (order_of r) ++ xe)).
  Proof.
    intros Hwf Hrow HK.
    destruct (wf_inst_I _ _ _ _ _ _ _ Hwf) as (r' & Hrow' & Hwr & _ & Hsub & _ & _ & _ & Hxa & Hdisj & _).
    rewrite Hrow in Hrow'. injection Hrow' as <-.
    cbn [serialise]. rewrite Hrow. apply ser_node_wf; assumption.
  Qed.

  Lemma serialise_ok S : forall k, wf_inst S k = true -> serialise S k = Ok (ser_tot S k).
  Proof.
    apply (inst_ind' (fun k => wf_inst S k = true -> serialise S k = Ok (ser_tot S k))); [intros H; discriminate|].
    intros c a t K xa xe IH Hwf. rewrite Forall_forall in IH.
    destruct (wf_inst_I _ _ _ _ _ _ _ Hwf) as (r & Hrow & _).
    assert (HK : forall m k, In (m, k) K -> serialise S k = Ok (ser_tot S k)).
    { intros m k Hin. exact (IH (m, k) Hin (wf_inst_kid _ _ _ _ _ _ _ m k Hwf Hin)). }
    pose proof (serialise_I S c a t K xa xe r Hwf Hrow HK) as Hs. rewrite (ser_tot_ok _ _ _ Hs). exact Hs.
  Qed.

  (* what a well-formed object serialises to: known attributes in c_attributes order then the
     extension attributes; children grouped by member in c_child_order order, each member's list
     in list order, then the extension elements *)
  Theorem serialise_shape S c a t K xa xe r :
    wf_inst S (I c a t K xa xe) = true -> find_row S c = Some r ->
    serialise S (I c a t K xa xe)
    = Ok (X (k_qtag r) (known_attrs r a ++ xa) t
            (flat_map (fun m => map (ser_tot S) (kids_of m K)) (order_of r) ++ xe))
    /\ (forall m k, In (m, k) K -> serialise S k = Ok (ser_tot S k)).
  Proof.
    intros Hwf Hrow.
    assert (HK : forall m k, In (m, k) K -> serialise S k = Ok (ser_tot S k)).
    { intros m k Hin. exact (serialise_ok S k (wf_inst_kid _ _ _ _ _ _ _ m k Hwf Hin)). }
    split; [exact (serialise_I S c a t K xa xe r Hwf Hrow HK)|exact HK].
  Qed.
End WfInst.

(* the attribute half of the round trip: parse_attrs reads back what known_attrs wrote (an unset
   attribute has no preset value), foreign_attrs finds the extension attributes again *)
Lemma parse_attrs_known r attrs xattrs :
  NoDup (map a_xml (k_attrs r)) ->
  (forall n, In n (map fst xattrs) -> ~ In n (map a_xml (k_attrs r))) ->
  (forall d, In d (k_defaults r) -> alookup (fst d) attrs <> None) ->
  parse_attrs r (known_attrs r attrs ++ xattrs) = norm_attrs r attrs.
Proof.
  intros Hxml Hdisj Hdef. unfold parse_attrs, norm_attrs. apply flat_map_ext_in. intros a Ha.
  rewrite alookup_app. unfold known_attrs.
  rewrite (proj_lookup a_xml (fun a => alookup (a_member a) attrs) (k_attrs r) a Hxml Ha).
  destruct (alookup (a_member a) attrs) as [v|] eqn:El; [reflexivity|].
  rewrite (alookup_None (a_xml a) xattrs) by (intros Hi; exact (Hdisj _ Hi (in_map a_xml _ a Ha))).
  destruct (alookup (a_member a) (k_defaults r)) as [d|] eqn:Ed; [|reflexivity].
  destruct (Hdef _ (alookup_Some_In _ _ _ Ed) El).
Qed.

Lemma foreign_attrs_known r attrs xattrs :
  (forall n, In n (map fst xattrs) -> ~ In n (map a_xml (k_attrs r))) ->
  foreign_attrs r (known_attrs r attrs ++ xattrs) = xattrs.
Proof.
  intros Hdisj. unfold foreign_attrs. rewrite filter_app, filter_none, filter_all; [reflexivity| |].
  - intros p Hp. apply negb_true_iff, memN_false, Hdisj, in_map, Hp.
  - intros p Hp. apply negb_false_iff, memN_In.
    exact (proj_keys a_xml (fun a => alookup (a_member a) attrs) _ _ (in_map fst _ p Hp)).
Qed.

Section ParseNode.
  Variables (NIL TYPE XMLNS_XS : N).
  Notation parse := (parse NIL TYPE XMLNS_XS).
  Notation parse_node := (parse_node NIL TYPE XMLNS_XS).

  Definition mk (S : schema) (k : xtree) : pkid := (xtag k, fun c' => parse S c' k, k).

  Lemma parse_unfold S c tag attrs text kids :
    parse S c (X tag attrs text kids) = parse_node S c tag attrs text (map (mk S) kids).
  Proof. reflexivity. Qed.

  (* past the tests every well-formed row passes *)
  Lemma parse_node_at S c r attrs text pk :
    find_row S c = Some r -> k_init_ok r = true -> NoDup (declared_members r) ->
    parse_node S c (k_qtag r) attrs text pk =
    match sequence (map (classify r) pk) with
    | Err e => Err e
    | Ok cl =>
        match over_kind r with
        | OGeneric => Ok (I c (parse_attrs r attrs) text (flat_map (fun ch => select ch cl) (k_children r))
                            (foreign_attrs r attrs) (foreign_kids r pk))
        | OAttrValue =>
            av_text NIL TYPE XMLNS_XS c (parse_attrs r attrs) (flat_map (fun ch => select ch cl) (k_children r))
              (fold_left (fun d kv => aset (fst kv) (snd kv) d) (foreign_attrs r attrs) [(NIL, s2l "true")])
              (foreign_kids r pk) text
        | OUnknown => Err MODEL_DOMAIN
        end
    end.
  Proof.
    intros Hrow Hinit Hnd. unfold Schema.parse_node.
    rewrite Hrow, N.eqb_refl, Hinit, (proj2 (nodupN_NoDup _) Hnd). reflexivity.
  Qed.

  Lemma parse_generic_inv S c tag attrs text kids c2 a t K xa xe r :
    parse S c (X tag attrs text kids) = Ok (I c2 a t K xa xe) ->
    find_row S c = Some r -> over_kind r = OGeneric ->
    NoDup (declared_members r) /\ a = parse_attrs r attrs /\ t = text /\
    xa = foreign_attrs r attrs /\ xe = foreign_kids r (map (mk S) kids).
  Proof.
    intros Hp Hrow Hgen. rewrite parse_unfold in Hp. unfold Schema.parse_node in Hp. rewrite Hrow in Hp.
    destruct (negb (tag =? k_qtag r)); [discriminate|].
    destruct (negb (k_init_ok r)); [discriminate|].
    destruct (nodupN (declared_members r)) eqn:End; cbn [negb] in Hp; [|discriminate].
    destruct (sequence _) as [cl|]; [|discriminate]. rewrite Hgen in Hp. injection Hp as _ <- <- _ <- <-.
    split; [apply nodupN_NoDup, End|]. repeat split.
  Qed.

  Lemma foreign_kids_mk S r kids :
    foreign_kids r (map (mk S) kids) = filter (fun k => negb (memN (xtag k) (map c_tagkey (k_children r)))) kids.
  Proof. unfold foreign_kids. rewrite filter_map, map_map. exact (map_id _). Qed.

  (* whatever the document holds beyond the class's tables is kept, in order, as extension content *)
  Theorem foreign_kept S c tag attrs text kids c2 a t K xa xe r :
    parse S c (X tag attrs text kids) = Ok (I c2 a t K xa xe) ->
    find_row S c = Some r -> over_kind r = OGeneric ->
    xe = filter (fun k => negb (memN (xtag k) (map c_tagkey (k_children r)))) kids /\
    xa = filter (fun p => negb (memN (fst p) (map a_xml (k_attrs r)))) attrs /\ t = text.
  Proof.
    intros Hp Hrow Hgen. destruct (parse_generic_inv _ _ _ _ _ _ _ _ _ _ _ _ _ Hp Hrow Hgen) as (_ & _ & Ht & Hxa & Hxe).
    rewrite foreign_kids_mk in Hxe. repeat split; assumption.
  Qed.

  Lemma classify_ext S r e :
    ~ In (xtag e) (map c_tagkey (k_children r)) -> classify r (mk S e) = Ok None.
  Proof.
    intros H. unfold classify, find_child, pk_tag, mk. cbn [fst snd].
    rewrite find_none_key; [reflexivity|exact H].
  Qed.

  Lemma classify_kid S r ch c' x j :
    In ch (k_children r) -> NoDup (map c_tagkey (k_children r)) -> k_missing r = [] ->
    c_cls ch = Some c' -> xtag x = c_tagkey ch -> parse S c' x = Ok j ->
    classify r (mk S x) = Ok (Some (c_tagkey ch, j)).
  Proof.
    intros Hin Hnd Hmiss Hc Ht Hp. unfold classify, find_child, pk_tag, pk_parse, mk. cbn [fst snd].
    rewrite Ht. rewrite (find_unique c_tagkey _ ch Hnd Hin).
    rewrite Hmiss. cbn [memN existsb]. rewrite andb_false_r. rewrite Hc, Hp. reflexivity.
  Qed.

  Definition sel (ch0 : child_row) (o : option (N * inst)) : list inst :=
    match o with Some (t, x) => if t =? c_tagkey ch0 then [x] else [] | None => [] end.

  Lemma sel_map ch0 t (f : inst -> inst) l :
    flat_map (sel ch0) (map (fun k => Some (t, f k)) l) = if t =? c_tagkey ch0 then map f l else [].
  Proof.
    induction l as [|k l IH]; cbn [map flat_map sel]; [destruct (t =? c_tagkey ch0); reflexivity|].
    rewrite IH. destruct (t =? c_tagkey ch0); reflexivity.
  Qed.

  (* the round trip holds of the child k under member m: what RT below concludes, per child *)
  Definition KidOK (S : schema) (r : class_row) (m : N) (k : inst) : Prop :=
    exists ch c', In ch (k_children r) /\ c_member ch = m /\ c_cls ch = Some c' /\
      xtag (ser_tot S k) = c_tagkey ch /\ parse S c' (ser_tot S k) = Ok (norm S k) /\ norm S k <> INone.

  (* the tag key of the child row of member m (0 for a member that is none: never met) *)
  Definition tk (r : class_row) (m : N) : N :=
    match find_child_by_member r m with Some ch => c_tagkey ch | None => 0 end.

  (* of the classified children of all members, in c_child_order order, select picks for ch those
     under ch's member: a member belongs to one child row, and two rows share neither member nor tag key *)
  Lemma sel_grouped r (f : inst -> inst) (K : list (N * inst)) ch :
    NoDup (declared_members r) -> NoDup (map c_tagkey (k_children r)) -> NoDup (order_of r) ->
    (forall m, In m (order_of r) -> In m (child_members r)) -> In (c_member ch) (order_of r) -> In ch (k_children r) ->
    flat_map (sel ch) (flat_map (fun m => map (fun k => Some (tk r m, f k)) (kids_of m K)) (order_of r))
    = map f (kids_of (c_member ch) K).
  Proof.
    intros Hnd Htk Hord Hsub1 Hin Hch. rewrite flat_map_flat_map.
    rewrite <- (flat_map_pick (fun m : N => m) (fun m => map f (kids_of m K)) (order_of r) (c_member ch));
      [|rewrite map_id; exact Hord|exact Hin].
    apply flat_map_ext_in. intros m Hm. rewrite sel_map.
    apply Hsub1, in_map_iff in Hm as [chm [<- Hchm]].
    unfold tk. rewrite (find_child_by_member_In r chm Hnd Hchm).
    destruct (N.eqb_spec (c_member chm) (c_member ch)) as [He|Hne].
    - rewrite (key_inj c_member _ chm ch (child_members_nodup r Hnd) Hchm Hch He), N.eqb_refl. reflexivity.
    - destruct (N.eqb_spec (c_tagkey chm) (c_tagkey ch)) as [He|_]; [|reflexivity].
      rewrite (key_inj c_tagkey _ chm ch Htk Hchm Hch He) in Hne. congruence.
  Qed.

  Lemma parse_node_wf S r c attrs text (K : list (N * inst)) xattrs xelems :
    find_row S c = Some r -> wf_row S r = true -> over_kind r = OGeneric ->
    (forall m k, In (m, k) K -> KidOK S r m k) ->
    (forall ch, In ch (k_children r) -> c_islist ch = false -> (List.length (kids_of (c_member ch) K) <= 1)%nat) ->
    (forall d, In d (k_defaults r) -> alookup (fst d) attrs <> None) ->
    NoDup (map fst xattrs) ->
    (forall n, In n (map fst xattrs) -> ~ In n (map a_xml (k_attrs r))) ->
    (forall e, In e xelems -> ~ In (xtag e) (map c_tagkey (k_children r))) ->
    parse_node S c (k_qtag r) (known_attrs r attrs ++ xattrs) text
      (map (mk S) (flat_map (fun m => map (ser_tot S) (kids_of m K)) (order_of r) ++ xelems))
    = Ok (I c (norm_attrs r attrs) text
            (flat_map (fun ch => map (fun x => (c_member ch, x)) (map (norm S) (kids_of (c_member ch) K))) (k_children r))
            xattrs xelems).
  Proof.
    intros Hrow Hwf Hgen Hkids Hsingle Hdef Hxa Hdisj Hxe.
    destruct (wf_row_facts S r Hwf) as (Hchild & Htk & Hnd & Hord & Hsub1 & Hsub2 & Hxml & Hmiss & Hinit & _ & _).
    rewrite (parse_node_at S c r _ _ _ Hrow Hinit Hnd), foreign_kids_mk.
    (* classification of every document child *)
    set (g := fun x => match classify r (mk S x) with Ok o => o | Err _ => None end).
    assert (Hcl_kid : forall m k, In (m, k) K -> classify r (mk S (ser_tot S k)) = Ok (Some (tk r m, norm S k))).
    { intros m k Hin. destruct (Hkids m k Hin) as (ch & c' & Hch & Hm & Hc & Ht & Hp & _).
      unfold tk. rewrite <- Hm. rewrite (find_child_by_member_In r ch Hnd Hch).
      apply (classify_kid S r ch c'); assumption. }
    assert (Hcl_x : forall e, In e xelems -> classify r (mk S e) = Ok None).
    { intros e He. exact (classify_ext S r e (Hxe e He)). }
    rewrite map_map.
    rewrite (sequence_map_ok _ g).
    2:{ intros x Hx. unfold g. apply in_app_or in Hx as [Hx|Hx]; [|rewrite (Hcl_x x Hx); reflexivity].
        apply in_flat_map in Hx as [m [Hm Hx]]. apply in_map_iff in Hx as [k [<- Hx]].
        rewrite (Hcl_kid m k (proj1 (kids_of_In _ _ _) Hx)). reflexivity. }
    rewrite Hgen, (parse_attrs_known r attrs xattrs Hxml Hdisj Hdef), (foreign_attrs_known r attrs xattrs Hdisj).
    f_equal. f_equal.
    - (* children: what select picks for ch is what sits under ch's member *)
      apply flat_map_ext_in. intros ch Hch.
      unfold select. fold (sel ch). cbv zeta.
      assert (Hl : flat_map (sel ch) (map g (flat_map (fun m => map (ser_tot S) (kids_of m K)) (order_of r) ++ xelems))
                   = map (norm S) (kids_of (c_member ch) K)).
      { rewrite map_app, flat_map_app, (flat_map_nil (sel ch) (map g xelems)), app_nil_r.
        2:{ intros o Ho. apply in_map_iff in Ho as [e [<- Hi]]. unfold g. rewrite (Hcl_x e Hi). reflexivity. }
        rewrite map_flat_map, (flat_map_ext_in _ (fun m => map (fun k => Some (tk r m, norm S k)) (kids_of m K))).
        2:{ intros m _. rewrite map_map. apply map_ext_in. intros k Hk. unfold g.
            rewrite (Hcl_kid m k (proj1 (kids_of_In _ _ _) Hk)). reflexivity. }
        exact (sel_grouped r (norm S) K ch Hnd Htk Hord Hsub1 (Hsub2 _ (in_map c_member _ ch Hch)) Hch). }
      rewrite Hl. destruct (c_islist ch) eqn:El; [reflexivity|].
      specialize (Hsingle ch Hch El).
      destruct (kids_of (c_member ch) K) as [|k [|k2 rest]] eqn:Ek; cbn [map last_opt]; [reflexivity| |cbn in Hsingle; lia].
      assert (Hin : In (c_member ch, k) K) by (apply kids_of_In; rewrite Ek; left; reflexivity).
      destruct (Hkids _ _ Hin) as (_ & _ & _ & _ & _ & _ & _ & Hnn).
      destruct (norm S k); [congruence|reflexivity].
    - rewrite filter_app, filter_none, filter_all; [reflexivity| |].
      + intros e He. apply negb_true_iff, memN_false, Hxe, He.
      + intros x Hx. apply negb_false_iff, memN_In.
        apply in_flat_map in Hx as [m [Hm Hx]]. apply in_map_iff in Hx as [k [<- Hx]].
        destruct (Hkids m k (proj1 (kids_of_In _ _ _) Hx)) as (ch & c' & Hch & _ & _ & Ht & _).
        rewrite Ht. apply in_map; exact Hch.
  Qed.
End ParseNode.

Lemma adel_notin {A} k (l : list (N * A)) : ~ In k (map fst l) -> adel k l = l.
Proof.
  unfold adel. induction l as [|[k' v] l IH]; cbn [filter map fst]; intros H; [reflexivity|].
  destruct (N.eqb_spec k' k) as [->|_]; [exfalso; apply H; left; reflexivity|].
  cbn [negb]. f_equal. apply IH. intros Hi; apply H; right; exact Hi.
Qed.

Lemma split_colon_join s a b : split_colon s = Some (a, b) -> s = a ++ 58 :: b.
Proof.
  revert a b; induction s as [|c s IH]; intros a b H; cbn [split_colon] in H; [discriminate|].
  destruct (N.eqb_spec c 58) as [->|_].
  - inversion H; subst. reflexivity.
  - destruct (split_colon s) as [[a' b']|]; [|discriminate]. inversion H; subst.
    cbn [app]. f_equal. apply IH. reflexivity.
Qed.

Lemma norm_I S c r a t K xa xe :
  find_row S c = Some r ->
  norm S (I c a t K xa xe) =
  I c (norm_attrs r a) t
    (flat_map (fun ch => map (fun x => (c_member ch, x)) (map (norm S) (kids_of (c_member ch) K))) (k_children r)) xa xe.
Proof.
  intros Hrow. cbn [norm]. rewrite Hrow. f_equal.
  apply flat_map_ext_in. intros ch _. rewrite kids_of_map. reflexivity.
Qed.

Section Main.
  Variables (NIL TYPE XMLNS_XS : N).
  Hypothesis HNT : NIL <> TYPE.
  Notation parse := (parse NIL TYPE XMLNS_XS).
  Notation wf_inst := (wf_inst NIL TYPE XMLNS_XS).

  (* the round trip of one instance: the induction predicate of roundtrip_parse *)
  Definition RT (S : schema) (k : inst) : Prop :=
    wf_inst S k = true ->
    exists c r, cls_of k = Some c /\ find_row S c = Some r /\ serialise S k = Ok (ser_tot S k) /\
      xtag (ser_tot S k) = k_qtag r /\ parse S c (ser_tot S k) = Ok (norm S k) /\ norm S k <> INone.

  Lemma av_parse_ok S c r t xa xe :
    find_row S c = Some r -> wf_row S r = true -> over_kind r = OAttrValue ->
    NoDup (map fst xa) -> av_ok NIL TYPE XMLNS_XS t xa = true ->
    parse_node NIL TYPE XMLNS_XS S c (k_qtag r) xa t (map (mk NIL TYPE XMLNS_XS S) xe) = Ok (I c [] t [] xa xe).
  Proof.
    intros Hrow Hwf Hav Hxa Hok.
    destruct (wf_row_facts S r Hwf) as (_ & _ & Hnd & _ & _ & _ & _ & Hmiss & Hinit & _ & Hnil).
    destruct (Hnil Hav) as [Hc Ha].
    rewrite (parse_node_at NIL TYPE XMLNS_XS S c r _ _ _ Hrow Hinit Hnd), foreign_kids_mk.
    rewrite map_map. rewrite (sequence_map_ok _ (fun _ => None)).
    2:{ intros e _. apply classify_ext. rewrite Hc. intros []. }
    rewrite Hav. unfold parse_attrs, foreign_attrs. rewrite Hc, Ha. cbn [flat_map map].
    rewrite !filter_all by reflexivity.
    unfold av_ok in Hok. unfold av_text.
    destruct t as [[|ch t0]|]; [| |discriminate].
    - (* empty text: xsi:nil first *)
      destruct xa as [|[n v] rest]; [discriminate|]. apply N.eqb_eq in Hok. subst n.
      cbn [fold_left fst snd aset]. rewrite N.eqb_refl.
      rewrite fold_aset_nodup; [reflexivity|exact Hxa].
    - (* parse_node puts xsi:nil=true in front, av_text deletes it again; setting xsi:type and xmlns:xs
         to the values av_ok says they have leaves xa as it is *)
      apply andb_true_iff in Hok as [Hnil' Hty]. apply negb_true_iff, memN_false in Hnil'.
      rewrite fold_aset_nodup.
      2:{ cbn [app map fst]. constructor; assumption. }
      cbn [app alookup]. destruct (N.eqb_spec NIL TYPE) as [He|_]; [contradiction|].
      destruct (alookup TYPE xa) as [ty|] eqn:Ety; [|discriminate].
      destruct (split_colon ty) as [[[|c0 ns'] tn]|] eqn:Esp; try discriminate.
      apply andb_true_iff in Hty as [Hcv Hxs].
      pose proof (split_colon_join _ _ _ Esp) as Hj.
      destruct ty as [|a b]; [discriminate|]. rewrite Esp.
      destruct (av_conv tn (ch :: t0)) as [t'| |]; try discriminate.
      apply str_eqb_eq in Hcv. subst t'.
      rewrite <- Hj.
      assert (Hd : adel NIL ((NIL, s2l "true") :: xa) = xa).
      { unfold adel. cbn [filter fst]. rewrite N.eqb_refl. cbn [negb]. apply adel_notin; exact Hnil'. }
      rewrite Hd. rewrite (aset_same TYPE _ xa Ety).
      destruct (starts_xs (a :: b)); [|reflexivity].
      destruct (alookup XMLNS_XS xa) as [v|] eqn:Ex; [|discriminate].
      apply str_eqb_eq in Hxs. subst v. rewrite (aset_same _ _ _ Ex). reflexivity.
  Qed.

  Lemma roundtrip_node S c a t K xa xe :
    Forall (fun p => RT S (snd p)) K -> RT S (I c a t K xa xe).
  Proof.
    intros IH Hwf.
    destruct (wf_inst_I _ _ _ _ _ _ _ _ _ _ Hwf) as (r & Hrow & Hwr & Hna & Hsub & Hdef & Hkids & Hsingle & Hxa & Hdisj & Hxe & Hav).
    destruct (wf_row_facts S r Hwr) as (Hchild & _ & _ & _ & Hsub1 & _ & _ & _ & _ & Hunk & Hnil).
    destruct (serialise_shape _ _ _ S c a t K xa xe r Hwf Hrow) as [Hser _].
    rewrite Forall_forall in IH.
    assert (HK : forall m k, In (m, k) K -> KidOK NIL TYPE XMLNS_XS S r m k).
    { intros m k Hin. destruct (Hkids m k Hin) as (ch & Hfc & Hcls & Hwk).
      destruct (IH (m, k) Hin Hwk) as (ck & rk & Hck & Hrk & _ & Ht & Hp & Hnn).
      apply find_some in Hfc as [Hch Hm]. apply N.eqb_eq in Hm.
      cbn [snd] in *. rewrite Hck in Hcls.
      destruct (c_cls ch) as [c'|] eqn:Ec; [|discriminate]. cbn [optN_eqb] in Hcls. apply N.eqb_eq in Hcls. subst c'.
      exists ch, ck. repeat split; try assumption.
      pose proof (Hchild ch Hch) as Hco. unfold child_ok in Hco. rewrite Ec, Hrk in Hco.
      apply N.eqb_eq in Hco. rewrite Ht. exact Hco. }
    exists c, r. rewrite (ser_tot_ok _ _ _ Hser), Hser. cbn [xtag cls_of].
    repeat split; try reflexivity; try assumption.
    - rewrite parse_unfold. rewrite (norm_I S c r); [|exact Hrow].
      destruct (over_kind r) eqn:Eo; [| |congruence].
      + apply parse_node_wf; assumption.
      + (* an AttributeValue class declares nothing: no attributes, no children *)
        destruct (Hnil eq_refl) as [Hc Ha].
        assert (Ho : order_of r = []).
        { destruct (order_of r) as [|m l] eqn:Eor; [reflexivity|]. specialize (Hsub1 m (or_introl eq_refl)).
          unfold child_members in Hsub1. rewrite Hc in Hsub1. destruct Hsub1. }
        unfold norm_attrs, known_attrs. rewrite Hc, Ha, Ho. cbn [flat_map app].
        apply (av_parse_ok S c r); try assumption. apply Hav; reflexivity.
    - rewrite (norm_I S c r); [|exact Hrow]. discriminate.
  Qed.

  Theorem roundtrip_parse S : forall k, RT S k.
  Proof.
    apply inst_ind'.
    - intros H. discriminate.
    - intros c a t k xa xe IH. apply roundtrip_node; exact IH.
  Qed.
End Main.

Lemma norm_attrs_lookup r a x :
  NoDup (declared_members r) -> In x (k_attrs r) -> alookup (a_member x) (norm_attrs r a) = alookup (a_member x) a.
Proof.
  intros Hnd Hx. exact (proj_lookup a_member (fun x => alookup (a_member x) a) (k_attrs r) x (attr_members_nodup r Hnd) Hx).
Qed.

Lemma norm_kids_of r (f : inst -> inst) (K : list (N * inst)) m :
  NoDup (declared_members r) -> In m (child_members r) ->
  kids_of m (flat_map (fun ch => map (fun x => (c_member ch, x)) (map f (kids_of (c_member ch) K))) (k_children r))
  = map f (kids_of m K).
Proof.
  intros Hnd Hm. exact (kids_of_grouped c_member (fun m => map f (kids_of m K)) m _ (child_members_nodup r Hnd) Hm).
Qed.

Section NormSer.
  Variables (NIL TYPE XMLNS_XS : N).
  Notation wf_inst := (wf_inst NIL TYPE XMLNS_XS).

  Theorem norm_serialise S : forall k, wf_inst S k = true -> serialise S (norm S k) = serialise S k.
  Proof.
    apply (inst_ind' (fun k => wf_inst S k = true -> serialise S (norm S k) = serialise S k)).
    - reflexivity.
    - intros c a t K xa xe IH Hwf. rewrite Forall_forall in IH.
      destruct (wf_inst_I _ _ _ _ _ _ _ _ _ _ Hwf) as (r & Hrow & Hwr & _ & _ & _ & _ & _ & Hxa & Hdisj & _).
      destruct (wf_row_facts S r Hwr) as (_ & _ & Hnd & _ & Hsub1 & _).
      destruct (serialise_shape _ _ _ S c a t K xa xe r Hwf Hrow) as [Hser HK]. rewrite Hser.
      (* a normalised child serialises to what the child serialises to *)
      assert (Hn : forall m k, In (m, k) K -> serialise S (norm S k) = Ok (ser_tot S k)).
      { intros m k Hin. rewrite <- (HK m k Hin). exact (IH (m, k) Hin (wf_inst_kid _ _ _ _ _ _ _ _ _ _ m k Hwf Hin)). }
      rewrite (norm_I S c r) by exact Hrow.
      cbn [serialise]. rewrite Hrow.
      rewrite ser_node_wf; try assumption.
      + f_equal. f_equal.
        * f_equal. unfold known_attrs. apply flat_map_ext_in. intros x Hx.
          rewrite (norm_attrs_lookup r a x Hnd Hx). reflexivity.
        * f_equal. apply flat_map_ext_in. intros m Hm.
          rewrite (norm_kids_of r (norm S) K m Hnd (Hsub1 m Hm)).
          rewrite map_map. apply map_ext_in. intros k Hk.
          exact (ser_tot_ok _ _ _ (Hn m k (proj1 (kids_of_In _ _ _) Hk))).
      + intros m Hm. exact (proj_keys a_member (fun x => alookup (a_member x) a) _ m Hm).
      + intros m k' Hin.
        apply in_flat_map in Hin as [ch [Hch Hin]]. apply in_map_iff in Hin as [k2 [He Hin]].
        injection He as <- <-. apply in_map_iff in Hin as [k [<- Hin]].
        apply kids_of_In in Hin. rewrite (ser_tot_ok _ _ _ (Hn _ k Hin)). exact (Hn _ k Hin).
  Qed.
End NormSer.

(* what python observes of an object is what it observes of its canonical form *)
Lemma show_inst_norm NIL TYPE XMLNS_XS S :
  forall i, wf_inst NIL TYPE XMLNS_XS S i = true -> show_inst S (norm S i) = show_inst S i.
Proof.
  apply (inst_ind' (fun i => wf_inst NIL TYPE XMLNS_XS S i = true -> show_inst S (norm S i) = show_inst S i)); [reflexivity|].
  intros c a t K xa xe IH Hwf. rewrite Forall_forall in IH.
  destruct (wf_inst_I _ _ _ _ _ _ _ _ _ _ Hwf) as (r & Hrow & Hwr & _).
  destruct (wf_row_facts S r Hwr) as (_ & _ & Hnd & _).
  rewrite (norm_I S c r _ _ _ _ _ Hrow). cbn [show_inst]. rewrite Hrow.
  (* the two sides differ in the attribute values and in the children shown under each member *)
  f_equal. f_equal. f_equal; [|f_equal; f_equal]; f_equal; apply map_ext_in.
  - intros x Hx. rewrite (norm_attrs_lookup r a x Hnd Hx). reflexivity.
  - intros ch Hch. f_equal. rewrite !kids_of_map, (norm_kids_of r (norm S) K _ Hnd (in_map c_member _ ch Hch)).
    rewrite map_map. apply map_ext_in. intros k Hk. apply kids_of_In in Hk.
    exact (IH (_, k) Hk (wf_inst_kid _ _ _ _ _ _ _ _ _ _ _ k Hwf Hk)).
Qed.

Lemma find_row_In S c r : find_row S c = Some r -> In r S.
Proof. intros H. apply find_some in H. apply H. Qed.

(* stated over variables: applied to the closed tables, forallb_forall itself makes the kernel
   convert wf_schema of the table with its unfolding, which evaluates it *)
Lemma wf_schema_In S r : wf_schema S = true -> In r S -> wf_row S r = true.
Proof. intros H. exact (proj1 (forallb_forall _ _) H r). Qed.

Lemma child_defects_nil {d1 d2 : N} S l :
  flat_map (fun ch => match c_cls ch with
                      | None => [(c_member ch, d2)]
                      | Some _ => if child_ok S ch then [] else [(c_member ch, d1)] end) l = []
  <-> forallb (child_ok S) l = true.
Proof.
  induction l as [|ch l IH]; cbn [flat_map forallb]; [tauto|].
  destruct (child_ok S ch) eqn:Ek, (c_cls ch) eqn:E; cbn [app andb]; try exact IH; try (split; discriminate).
  unfold child_ok in Ek. rewrite E in Ek. discriminate.
Qed.

(* the per-member diagnosis is exact: a row is well-formed iff it has no defect *)
Lemma wf_row_defects S r : wf_row S r = match row_defects S r with [] => true | _ => false end.
Proof.
  unfold wf_row, row_defects.
  destruct (forallb (child_ok S) (k_children r)) eqn:E1.
  - rewrite (proj2 (child_defects_nil S _) E1). cbn [app andb].
    destruct (k_missing r); cbn [map app]; [|rewrite andb_false_r; reflexivity].
    destruct (nodupN (declared_members r)); [|rewrite andb_false_r; reflexivity].
    destruct (nodupN (order_of r)); [|rewrite andb_false_r; reflexivity].
    destruct (subsetN (order_of r) (child_members r)); [|rewrite andb_false_r; reflexivity].
    destruct (subsetN (child_members r) (order_of r)); [|rewrite andb_false_r; reflexivity].
    destruct (nodupN (map c_tagkey (k_children r))); [|reflexivity].
    destruct (nodupN (map a_xml (k_attrs r))); [|reflexivity].
    destruct (k_init_ok r); [|reflexivity].
    cbn [andb app]. destruct (_ && _); reflexivity.
  - cbn [andb]. destruct (flat_map _ (k_children r)) eqn:E2; [apply child_defects_nil in E2; congruence|reflexivity].
Qed.

(* the two report lists are empty on a well-formed schema *)
Lemma wf_no_bad_rows S : wf_schema S = true -> bad_rows S = [].
Proof.
  intros H. unfold bad_rows. rewrite filter_none; [reflexivity|].
  intros r Hr. rewrite (wf_schema_In S r H Hr). reflexivity.
Qed.

Lemma wf_no_bad_members S : wf_schema S = true -> bad_members S = [].
Proof.
  intros H. apply flat_map_nil. intros r Hr. pose proof (wf_schema_In S r H Hr) as Hw.
  rewrite wf_row_defects in Hw. destruct (row_defects S r); [reflexivity|discriminate].
Qed.

(* over a schema all of whose rows are well-formed, the object-level conditions are all
   that wf_inst asks *)
Lemma wf_inst_obj_ok NIL TYPE XMLNS_XS S :
  wf_schema S = true -> forall i, wf_inst NIL TYPE XMLNS_XS S i = obj_ok NIL TYPE XMLNS_XS S i.
Proof.
  intros HS. apply (inst_ind' (fun i => wf_inst NIL TYPE XMLNS_XS S i = obj_ok NIL TYPE XMLNS_XS S i)); [reflexivity|].
  intros c a t K xa xe IH. cbn [wf_inst obj_ok].
  destruct (find_row S c) as [r|] eqn:Er; [|reflexivity].
  rewrite (wf_schema_In S r HS (find_row_In S c r Er)). cbn [andb].
  (* the two sides differ in the recursive call inside the test of the children only *)
  do 6 f_equal.
  induction IH as [|[m k] K Hk _ IHK]; cbn [forallb]; [reflexivity|].
  cbn [snd] in Hk. rewrite Hk, IHK. reflexivity.
Qed.

Lemma obj_ok_wf_inst NIL TYPE XMLNS_XS S :
  wf_schema S = true ->
  forall i, obj_ok NIL TYPE XMLNS_XS S i = true -> wf_inst NIL TYPE XMLNS_XS S i = true.
Proof. intros HS i H. rewrite (wf_inst_obj_ok NIL TYPE XMLNS_XS S HS). exact H. Qed.
