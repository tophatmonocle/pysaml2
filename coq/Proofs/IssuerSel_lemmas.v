(* Proofs/IssuerSel_lemmas.v — whose certificates a signature is checked under (Model/IssuerSel.v): issuer selection,
   the checks made for one response document, the entry point with its retries, histories over several clients. *)
From PV Require Import Lib.Base Model.Sigver Model.CertSelect Model.IssuerSel Proofs.Sigver_lemmas Proofs.CertSelect_lemmas.
Open Scope N_scope.

(* key [k] is a certificate of a signing (or use-less) key descriptor of the entity the store serves for id [i] *)
Definition trusted_for (m : mdstore) (i : str) (k : N) : Prop :=
  exists e r kd, find_entity m i = Some e /\ In r e /\ In kd r /\
    (kd_use kd = Some SIGNING \/ kd_use kd = None) /\ In k (kd_certs kd).

Lemma select_issuer_own own arg i : issuer_text own = Some i -> select_issuer own arg = Some i.
Proof. unfold select_issuer. now intros ->. Qed.

Lemma select_issuer_fallback own arg : issuer_text own = None -> select_issuer own arg = issuer_text arg.
Proof. unfold select_issuer. now intros ->. Qed.

Lemma select_issuer_cases own arg i :
  select_issuer own arg = Some i ->
  issuer_text own = Some i \/ (issuer_text own = None /\ issuer_text arg = Some i).
Proof. unfold select_issuer. destruct (issuer_text own) as [j|]; [intros H; now left|intros H; now right]. Qed.

(* the argument is irrelevant as soon as the element names its issuer *)
Lemma elem_candidates_own c arg own embedded i :
  issuer_text own = Some i ->
  elem_candidates c arg own embedded = candidate_certs (v_mp c) (v_md c) (Some i) (v_only_md c) embedded.
Proof. intros H. unfold elem_candidates. now rewrite (select_issuer_own _ arg _ H). Qed.

Lemma check_elem_own c arg own embedded signer i :
  issuer_text own = Some i ->
  check_elem c arg own embedded signer = check_signature (v_mp c) (v_md c) (Some i) (v_only_md c) embedded signer.
Proof. intros H. unfold check_elem. now rewrite (select_issuer_own _ arg _ H). Qed.

(* default setting: success means the key is trusted for the SELECTED issuer *)
Lemma check_signature_trusted mp m issuer embedded signer :
  check_signature mp m issuer true embedded signer = Ok tt ->
  mp = true /\ exists i, issuer = Some i /\ trusted_for m i signer.
Proof.
  intros H. apply check_signature_default in H as (-> & l & Hm & Hk). split; [reflexivity|].
  destruct issuer as [i|]; [|discriminate]. exists i. split; [reflexivity|]. apply md_certs_In. now exists l.
Qed.

Lemma check_elem_trusted c arg own embedded signer :
  v_only_md c = true ->
  check_elem c arg own embedded signer = Ok tt ->
  exists i, select_issuer own arg = Some i /\ trusted_for (v_md c) i signer.
Proof. intros Ho H. unfold check_elem in H. rewrite Ho in H. exact (proj2 (check_signature_trusted _ _ _ _ _ H)). Qed.

(* … and when the element has an Issuer of its own, for THAT issuer, whatever was passed *)
Lemma check_elem_own_trusted c arg own embedded signer i :
  v_only_md c = true -> issuer_text own = Some i ->
  check_elem c arg own embedded signer = Ok tt -> trusted_for (v_md c) i signer.
Proof.
  intros Ho Hi H. destruct (check_elem_trusted _ _ _ _ _ Ho H) as (j & Hj & T).
  rewrite (select_issuer_own _ arg _ Hi) in Hj. injection Hj as <-. exact T.
Qed.

Lemma check_all_ok {A} (f : A -> result unit) l :
  check_all f l = Ok tt <-> forall x, In x l -> f x = Ok tt.
Proof.
  induction l as [|a l IH]; cbn [check_all].
  - split; [intros _ x []|reflexivity].
  - destruct (f a) as [[]|e] eqn:Fa.
    + rewrite IH. split; [intros H x [<-|Hx]; [exact Fa|now apply H]|intros H x Hx; apply H; now right].
    + split; [discriminate|]. intros H. rewrite <- Fa. apply H. now left.
Qed.

(* a stage followed by the rest of the checks *)
Lemma seq_ok (r k : result unit) : match r with Err e => Err e | Ok _ => k end = Ok tt <-> r = Ok tt /\ k = Ok tt.
Proof. destruct r as [[]|e]; [tauto|]. split; [discriminate|]. intros [H _]; discriminate. Qed.

Lemma result_unit_ok (r : result unit) : (exists u, r = Ok u) -> r = Ok tt.
Proof. intros ([] & H). exact H. Qed.

(* verify_doc = Ok  iff  the response signature step and every element's check pass *)
Lemma verify_doc_ok c d :
  verify_doc c d = Ok tt <->
  (match se_sig (d_resp d) with
   | None => dc_wrs c = false
   | Some _ => check_selem (dc_v c) None (d_resp d) = Ok tt
   end) /\
  (forall a, In a (d_plain d ++ d_enc d) -> check_selem (dc_v c) None (as_elem a) = Ok tt) /\
  (forall a x, In a (d_enc d ++ d_plain d) -> In x (as_advice a) ->
     check_selem (dc_v c) (se_issuer (as_elem a)) x = Ok tt).
Proof.
  unfold verify_doc. rewrite !seq_ok, !check_all_ok. setoid_rewrite check_all_ok. setoid_rewrite in_app_iff.
  destruct (se_sig (d_resp d)); [|destruct (dc_wrs c)]; intuition (auto; discriminate).
Qed.

(* a signed element that passed: its key is trusted for the issuer selected for it *)
Lemma check_selem_trusted c arg e embedded signer :
  v_only_md c = true -> se_sig e = Some (embedded, signer) -> check_selem c arg e = Ok tt ->
  exists i, select_issuer (se_issuer e) arg = Some i /\ trusted_for (v_md c) i signer.
Proof. intros Ho Hs H. unfold check_selem in H. rewrite Hs in H. exact (check_elem_trusted _ _ _ _ _ Ho H). Qed.

Lemma select_issuer_noarg own : select_issuer own None = issuer_text own.
Proof. unfold select_issuer. destruct (issuer_text own); reflexivity. Qed.

Lemma assertion_step_check req v a : assertion_step req v false a = Ok tt -> check_selem v None a = Ok tt.
Proof. unfold assertion_step, check_selem. destruct (se_sig a) as [[emb k]|]; [tauto|reflexivity]. Qed.

Lemma has_encrypted_false d :
  has_encrypted d = false -> d_enc d = [] /\ forall a, In a (d_plain d) -> as_advice a = [].
Proof.
  unfold has_encrypted. intros H. apply orb_false_elim in H as (H1 & H2). split.
  - destruct (d_enc d); [reflexivity|discriminate].
  - intros a Ha. destruct (as_advice a) eqn:Ad; [reflexivity|].
    assert (X : existsb (fun a0 => negb (nilb (as_advice a0))) (d_plain d) = true).
    { apply existsb_exists. exists a. split; [exact Ha|]. now rewrite Ad. }
    congruence.
Qed.

(* a run of parse_assertion that comes through has made every signature check of the document *)
Lemma verify_pass_checks req v d :
  verify_pass req v d = Ok tt ->
  (forall a, In a (d_plain d ++ d_enc d) -> check_selem v None (as_elem a) = Ok tt) /\
  (forall a x, In a (d_enc d ++ d_plain d) -> In x (as_advice a) -> check_selem v (se_issuer (as_elem a)) x = Ok tt).
Proof.
  unfold verify_pass. rewrite seq_ok, check_all_ok. intros [P H]. destruct (has_encrypted d) eqn:HE.
  - rewrite !seq_ok, !check_all_ok in H. destruct H as (E & A & _). split.
    + intros a Ha. apply in_app_or in Ha as [Ha|Ha]; [apply (assertion_step_check req); now apply P|now apply E].
    + intros a x Ha Hx. exact (proj1 (check_all_ok _ _) (A a Ha) x Hx).
  - apply has_encrypted_false in HE as (He & Ha0). rewrite He. split.
    + intros a Ha. rewrite app_nil_r in Ha. apply (assertion_step_check req). now apply P.
    + intros a x Ha Hx. cbn [app] in Ha. rewrite (Ha0 a Ha) in Hx. destruct Hx.
Qed.

Lemma load_response_ok c d :
  load_response c d = Ok tt ->
  match se_sig (d_resp d) with
  | None => dc_wrs (pc_d c) = false
  | Some _ => check_selem (dc_v (pc_d c)) None (d_resp d) = Ok tt
  end.
Proof.
  unfold load_response, load_pass. destruct (se_sig (d_resp d)) as [p|].
  - destruct (check_selem (dc_v (pc_d c)) None (d_resp d)) as [[]|e]; [reflexivity|]. destruct (dc_wrs (pc_d c)); discriminate.
  - destruct (dc_wrs (pc_d c)); [discriminate|reflexivity].
Qed.

(* soundness of the entry point w.r.t. the plain list of checks: the retries never let a document
   through whose signature checks do not all pass *)
Lemma parse_doc_sound c d : parse_doc c d = Ok tt -> verify_doc (pc_d c) d = Ok tt.
Proof.
  unfold parse_doc. destruct (load_response c d) as [[]|e] eqn:L; [|discriminate].
  apply load_response_ok in L. intros V. apply verify_doc_ok. split; [exact L|].
  unfold verify_response in V.
  destruct (verify_pass true (dc_v (pc_d c)) d) as [[]|e] eqn:P1.
  - exact (verify_pass_checks _ _ _ P1).
  - destruct (str_eqb e SignatureError && negb (pc_was c)); [|discriminate].
    exact (verify_pass_checks _ _ _ V).
Qed.

Lemma run_ops_results cs : forall ops st, snd (run_ops cs st ops) = map (check_op cs) ops.
Proof.
  induction ops as [|o rest IH]; intros st; [reflexivity|].
  cbn [run_ops step]. specialize (IH (st ++ op_files cs o)).
  destruct (run_ops cs (st ++ op_files cs o) rest) as [st2 rs]. cbn [snd] in *. cbn [map]. now rewrite IH.
Qed.

(* the n-th outcome of a history is the outcome of the n-th operation on its client alone *)
Lemma run_ops_nth cs st ops n o c :
  nth_error ops n = Some o -> nth_error cs (op_client o) = Some c ->
  nth_error (snd (run_ops cs st ops)) n =
  Some (match o with OpDoc _ d => parse_doc c d | OpElem _ arg e => check_selem (dc_v (pc_d c)) arg e end).
Proof.
  intros Ho Hc. rewrite run_ops_results, nth_error_map, Ho. cbn [option_map]. unfold check_op. now rewrite Hc.
Qed.

Lemma run_ops_app cs : forall ops1 ops2 st,
  snd (run_ops cs st (ops1 ++ ops2)) = snd (run_ops cs st ops1) ++ snd (run_ops cs (fst (run_ops cs st ops1)) ops2).
Proof. intros ops1 ops2 st. rewrite !run_ops_results. apply map_app. Qed.
