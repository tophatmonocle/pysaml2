(* C04 on Model/Response.v: every bearer confirmation of a checked assertion passed its window tests, and the expiry
   values a checked assertion leaves in the state. *)
From PV Require Import Lib.Base Model.Status Model.Response Proofs.Response_lemmas.
Open Scope Z_scope.

(* every bearer confirmation, retained or not, passed its window tests *)
Definition bearer_window_ok (c : cfg) (sc : confirmation) : Prop :=
  forall d, c_method sc = Bearer -> c_data sc = Some d ->
    (forall n, d_nooa d = Some n -> now c <= n + slack c) /\ (forall n, d_nb d = Some n -> n <= now c + slack c).

Lemma subject_loop_windows c irt : forall confs s kept s',
  subject_loop c irt s confs = Ok (kept, s') -> Forall (bearer_window_ok c) confs.
Proof.
  induction confs as [|sc rest IH]; intros s kept s' H; [constructor|]. rewrite subject_loop_cons in H.
  destruct (sc_step c irt s sc) as [[b s1]|] eqn:Es; [|discriminate]. constructor.
  - intros d Hm Hd. destruct (sc_step_ok _ _ _ _ _ _ Es) as [_ W]. destruct (W d Hm Hd) as (A & B & _). now split.
  - destruct b; [|exact (IH _ _ _ H)]. destruct (sc_recipient c sc); [|discriminate].
    destruct (subject_loop c irt s1 rest) as [[k0 s2]|] eqn:El; [|discriminate]. exact (IH _ _ _ El).
Qed.

Lemma check_assertion_windows c irt req v s a s' :
  check_assertion c irt req v s a = Ok s' -> Forall (bearer_window_ok c) (a_confirmations a).
Proof.
  intros H. destruct (check_assertion_ok _ _ _ _ _ _ _ H) as (s1 & s2 & kept & s3 & _ & _ & _ & Eg & _).
  exact (subject_loop_windows _ _ _ _ _ _ (proj2 (get_subject_ok _ _ _ _ _ _ Eg))).
Qed.

(* the Conditions NotOnOrAfter that counts: one of the two sources of the session expiry handed to the application *)
Definition cond_nooa (a : assertion) : option Z :=
  match a_conditions a with Some k => if k_empty k then None else k_nooa k | None => None end.

Lemma condition_ok_state c s a s' : condition_ok c s a = Ok (true, s') -> test_mode c = false ->
  s' = upd_nooa s (cond_nooa a).
Proof.
  intros H Ht. unfold cond_nooa. destruct (a_conditions a) as [k|] eqn:Ek.
  - destruct (k_empty k) eqn:Ee.
    + rewrite condition_ok_eq, Ek, Ee in H. now injection H.
    + now destruct (condition_ok_true _ _ _ _ H k Ek Ee Ht) as (_ & _ & _ & _ & N).
  - rewrite condition_ok_eq, Ek in H. now injection H.
Qed.

Lemma check_assertion_expiry c irt req v s a s' :
  check_assertion c irt req v s a = Ok s' -> test_mode c = false ->
  session_nooa s' = match a_authn a with [Some n] => n | _ => session_nooa s end /\
  not_on_or_after s' = match cond_nooa a with Some n => n | None => not_on_or_after s end.
Proof.
  intros H Ht. destruct (check_assertion_ok _ _ _ _ _ _ _ H) as (s1 & s2 & kept & s3 & _ & Ea & Ec & Eg & ->).
  destruct (authn_statement_ok_ok _ _ _ _ Ea) as (sn & -> & _ & ->).
  rewrite (condition_ok_state _ _ _ _ Ec Ht) in Eg.
  destruct (subject_loop_ok _ _ _ _ _ _ (proj2 (get_subject_ok _ _ _ _ _ _ Eg))) as ((v0 & ->) & _).
  destruct (a_name_id a), (cond_nooa a), sn; split; reflexivity.
Qed.
