(* Proofs/Endpoints_lemmas.v — what Config.endpoint / Base.service_urls return *)
From PV Require Import Lib.Base Model.Status Model.Response Model.Endpoints.
Open Scope Z_scope.

Lemma spec_urls_In eps b u : In u (spec_urls eps b) <-> In (EP u b) eps.
Proof.
  unfold spec_urls. rewrite in_flat_map. split.
  - intros (e & He & Hu). destruct e as [u' b'| |]; try (now destruct Hu).
    destruct (str_eqb_spec b' b) as [->|Hn]; [|now destruct Hu].
    destruct Hu as [<-|[]]. exact He.
  - intros H. exists (EP u b). split; [exact H|]. rewrite str_eqb_refl. now left.
Qed.

Lemma unspec_In eps u : In (Some u) (unspec_entries eps) <-> In (Unspec u) eps.
Proof.
  unfold unspec_entries. rewrite in_flat_map. split.
  - intros (e & He & Hu). destruct e as [u' b'|u'|]; cbn in Hu.
    + destruct Hu.
    + destruct Hu as [Hu|[]]. injection Hu as ->. exact He.
    + destruct Hu as [Hu|[]]. discriminate.
  - intros H. exists (Unspec u). split; [exact H|]. now left.
Qed.

Lemma somes_In l u : In u (somes l) <-> In (Some u) l.
Proof.
  unfold somes. rewrite in_flat_map. split.
  - intros (x & Hx & Hu). destruct x as [v|]; [|destruct Hu]. destruct Hu as [<-|[]]. exact Hx.
  - intros H. exists (Some u). split; [exact H|]. now left.
Qed.

(* what Config.endpoint returns for a binding: exactly the addresses registered for it (and perhaps non-strings) *)
Lemma config_endpoint_In eps b u : In (Some u) (config_endpoint eps b) <-> registered_for eps b u.
Proof.
  unfold config_endpoint, registered_for. pose proof (spec_urls_In eps b) as Hs.
  destruct (spec_urls eps b) as [|x xs].
  - rewrite unspec_In. split.
    + intros H. right. split; [intros u' Hu; exact (proj2 (Hs u') Hu)|exact H].
    + intros [H|[_ H]]; [destruct (proj2 (Hs u) H)|exact H].
  - rewrite in_map_iff. split.
    + intros (v & E & Hin). injection E as ->. left. apply Hs, Hin.
    + intros [H|[Hno _]]; [exists u; split; [reflexivity|apply Hs, H]|].
      destruct (Hno x (proj1 (Hs x) (or_introl eq_refl))).
Qed.

(* the addresses service_urls hands out are exactly the ones registered for the binding *)
Lemma service_urls_some eps b l :
  service_urls eps b = Some l -> forall u, In u l <-> registered_for eps b u.
Proof.
  unfold service_urls. intros H u. destruct (config_endpoint eps b) as [|y ys] eqn:E; [discriminate|]. rewrite <- E in H. injection H as <-.
  rewrite somes_In. apply config_endpoint_In.
Qed.

Lemma service_urls_none eps b :
  service_urls eps b = None -> forall u, ~ registered_for eps b u.
Proof.
  unfold service_urls. destruct (config_endpoint eps b) eqn:E; [|discriminate]. intros _ u H.
  apply config_endpoint_In in H. rewrite E in H. destruct H.
Qed.

(* an endpoint of ANOTHER binding is not handed out when the arriving binding has entries of its own
   or the table has no binding-less entry for it *)
Lemma other_binding_not_registered eps b u :
  ~ In (EP u b) eps -> ~ In (Unspec u) eps -> ~ registered_for eps b u.
Proof. intros H1 H2 [H|[_ H]]; auto. Qed.

Lemma nth_error_run_calls eps calls n :
  nth_error (run_calls eps calls) n =
  match nth_error calls n with
  | Some (c, b, r) => Some (parse_authn_response {| base := c; acs_table := eps; arriving := b |} r)
  | None => None
  end.
Proof. unfold run_calls. rewrite nth_error_map. destruct (nth_error calls n) as [[[c b] r]|]; reflexivity. Qed.
