(* Proofs/EncryptMd_lemmas.v — C17, identity provider, with the hypothesis put on the service
   provider's METADATA (key descriptors with an optional use attribute, several role descriptors,
   several sources) instead of on the derived certificate list: which certificates md_enc_certs
   finds (md_enc_certs_spec), every ciphertext opens under one of them or a certificate handed in
   (enc_keys_md), without any certificate nothing in the message claims to be encrypted
   (nothing_claims_encrypted), the first usable certificate is the one used (later_cert_used);
   then the hand-written metadata of the witnesses in Props/C17.v. *)
From PV Require Import Lib.Base Model.Status Model.Response Model.Encrypt Model.CertSelect Model.EncryptMd
  Proofs.CertSelect_lemmas Proofs.Encrypt_lemmas.
Open Scope N_scope.

Lemma use_matches_encryption kd : use_matches ENCRYPTION kd = true <-> for_encryption kd.
Proof. unfold for_encryption. rewrite use_matches_iff. tauto. Qed.

Lemma md_enc_certs_spec m sp k u :
  In (k, u) (md_enc_certs m sp) <-> sp_enc_cert m sp k /\ u = negb (k =? 0).
Proof.
  unfold md_enc_certs, sp_enc_cert. destruct (md_certs m (Some sp) ENCRYPTION) as [l|] eqn:Em.
  - destruct (md_certs_spec _ _ _ _ Em) as (i & e & Hi & Hf & Hl). injection Hi as <-.
    rewrite in_map_iff. unfold cert_pair. split.
    + intros (x & Hx & Hin). injection Hx as -> <-. split; [|reflexivity].
      apply Hl in Hin as (r & kd & Hr & Hk & Hu & Hc). exists e, r, kd. rewrite <- use_matches_encryption. auto.
    + intros ((e' & r & kd & Hf' & Hr & Hk & Hu & Hc) & ->). exists k. split; [reflexivity|].
      rewrite Hf in Hf'. injection Hf' as <-. apply Hl. exists r, kd. rewrite use_matches_encryption. auto.
  - split; [intros []|]. intros ((e & r & kd & Hf & _) & _). unfold md_certs in Em. rewrite Hf in Em. discriminate.
Qed.

Lemma has_enc_key_certs m sp : sp_has_enc_key m sp <-> md_enc_certs m sp <> [].
Proof.
  split.
  - intros (k & Hk) He. assert (In (k, negb (k =? 0)) (md_enc_certs m sp)) as Hin by (apply md_enc_certs_spec; auto).
    rewrite He in Hin. destruct Hin.
  - destruct (md_enc_certs m sp) as [|[k u] l] eqn:El; [congruence|]. intros _. exists k.
    assert (In (k, u) (md_enc_certs m sp)) as Hin by (rewrite El; now left). now apply md_enc_certs_spec in Hin.
Qed.

Lemma no_enc_key_certs m sp : (forall k, ~ sp_enc_cert m sp k) -> md_enc_certs m sp = [].
Proof.
  intros H. destruct (md_enc_certs m sp) eqn:E; [reflexivity|]. exfalso.
  destruct (proj2 (has_enc_key_certs m sp)) as [k Hk]; [rewrite E; discriminate|exact (H k Hk)].
Qed.

Lemma has_cert_md ca g m sp : sp_has_enc_key m sp -> has_cert_for ca (args_md g m sp).
Proof. intros H. left. cbn. now apply has_enc_key_certs. Qed.

Lemma md_enc_certs_real m sp k : In (k, true) (md_enc_certs m sp) -> sp_enc_cert m sp k /\ k <> 0.
Proof. intros H. apply md_enc_certs_spec in H as [Hs Hu]. split; [exact Hs|]. intros ->. discriminate. Qed.

Lemma enc_keys_md g m sp i t k :
  idp_build_md g m sp i = Ok t -> In k (enc_keys t) ->
  g_cert_assertion g = CGiven k true \/ g_cert_advice g = CGiven k true \/ (sp_enc_cert m sp k /\ k <> 0).
Proof.
  unfold idp_build_md, idp_build. intros H Hk.
  destruct (enc_keys_for_sp true _ _ _ H k Hk) as [Hc|Hc]; apply certs_for_in in Hc as [Hc|Hc]; auto using md_enc_certs_real.
Qed.

Lemma claims_leaves n a vs : str_eqb n (E "EncryptedAssertion") = false ->
  existsb claims_encrypted (map (fun v : str => El n a (Some v) []) vs) = false.
Proof. intros Hn. induction vs as [|v vs IH]; [reflexivity|]. cbn [map existsb claims_encrypted]. now rewrite Hn, IH. Qed.

Lemma claims_attrs attrs : existsb claims_encrypted (map attr_el attrs) = false.
Proof.
  induction attrs as [|a attrs IH]; [reflexivity|]. cbn [map existsb]. rewrite IH, orb_false_r.
  unfold attr_el. cbn [claims_encrypted]. now rewrite claims_leaves.
Qed.

Lemma claims_attr_stmt attrs : existsb claims_encrypted (attr_stmt attrs) = false.
Proof.
  destruct attrs as [|a attrs]; [reflexivity|]. unfold attr_stmt. cbn [existsb claims_encrypted]. rewrite claims_attrs. reflexivity.
Qed.

Lemma claims_advice p attrs : claims_encrypted (advice_assertion p attrs) = false.
Proof.
  unfold advice_assertion. cbn [claims_encrypted]. rewrite existsb_app, claims_attr_stmt. reflexivity.
Qed.

Lemma claims_main p n adv attrs : existsb claims_encrypted adv = false -> claims_encrypted (main_assertion p n adv attrs) = false.
Proof.
  intros Ha. unfold main_assertion. cbn [claims_encrypted]. rewrite !existsb_app, claims_attr_stmt.
  cbn [existsb claims_encrypted txt conditions_el]. rewrite !existsb_app, claims_leaves by reflexivity.
  destruct adv as [|a adv']; [reflexivity|]. cbn [existsb claims_encrypted] in *. rewrite Ha. reflexivity.
Qed.

Lemma claims_sign_if b k t : claims_encrypted (sign_if b k t) = claims_encrypted t.
Proof. destruct b, t; reflexivity. Qed.

Lemma claims_response g b x : claims_encrypted (response_of g b x) = claims_encrypted x.
Proof. unfold response_of. rewrite claims_sign_if. cbn. apply orb_false_r. Qed.

Lemma nothing_claims_encrypted fixed g i t :
  g_md_certs g = [] -> g_cert_assertion g = CNone -> g_cert_advice g = CNone ->
  idp_build_with fixed g i = Ok t -> claims_encrypted t = false.
Proof.
  intros Hm Ha Hd. unfold idp_build_with. destruct (gather g); [|discriminate]. intros H.
  apply response_with_inv in H as (b1 & b2 & kids & body & -> & Hkids & Hbody).
  assert (kids = adv_of g i) as ->.
  { destruct Hkids as [->|Hk]; [reflexivity|]. unfold advice_kids, enc_adv, no_cert in Hk. rewrite Hm, Hd in Hk. now apply Ok_inj in Hk. }
  destruct Hbody as [->|[Has _]]; [|unfold enc_as, no_cert in Has; rewrite Hm, Ha in Has; discriminate].
  rewrite claims_response, claims_sign_if. apply claims_main.
  unfold adv_of. destruct (g_pefim g); [|reflexivity]. cbn [existsb]. now rewrite claims_advice.
Qed.

Lemma later_cert_used g i k :
  g_encrypt_assertion g = true -> g_cert_assertion g = CNone -> g_cert_advice g = CNone ->
  g_verify_assertion g = None -> g_verify_advice g = None ->
  g_self_contained g || g_pefim g || g_sign_assertion g = true ->
  first_usable (g_md_certs g) = Some k ->
  exists t, idp_build g i = Ok t /\ hd_error (enc_keys t) = Some k.
Proof.
  intros He Ha Hd Hva Hvd Htext Hk.
  assert (has_cert_for (g_cert_assertion g) g) as Hc by (left; intros Hn; now rewrite Hn in Hk).
  assert (gather g = Ok tt) as G by (unfold gather; rewrite Hva, Hvd, He; now destruct (g_enc_advice g || g_pefim g)).
  unfold idp_build, idp_build_with. rewrite G, (response_with_encrypting _ _ _ He Hc).
  assert (exists kids, advice_kids g i = Ok kids) as (kids & ->).
  { unfold advice_kids. destruct (enc_adv g && g_pefim g); [|now eexists]. rewrite encrypt_with_eq, Hd. cbn [certs_for]. rewrite Hk. now eexists. }
  cbn [bind]. unfold encrypted_main, encrypt_main. rewrite Htext, encrypt_with_eq, Ha. cbn [certs_for]. rewrite Hk.
  eexists. split; [reflexivity|]. now rewrite enc_keys_response.
Qed.

(* metadata of the witnesses in Props/C17.v: the SP, a key descriptor with use [u], one without use *)
Definition SPID : str := E "https://sp.example.org/sp".
Definition kd (u : string) (cs : list N) : keydesc := {| kd_use := Some (s2l u); kd_certs := cs |}.
Definition kdn (cs : list N) : keydesc := {| kd_use := None; kd_certs := cs |}.
(* one source; another entity first; the SP: spsso role with a signing key and a use-less key, in that order *)
Definition md_useless : mdstore :=
  [(E "https://other.example.org/sp", [[kd "encryption" [2]]]); (SPID, [[kd "signing" [2]; kdn [1]]])].
(* signing only *)
Definition md_signing_only : mdstore := [(SPID, [[kd "signing" [1]]])].
(* a use-less key under another role descriptor only *)
Definition md_other_role : mdstore := [(SPID, [[kd "signing" [2]]; [kdn [1]]])].
(* the same entity in two sources: the first one served has a signing key only *)
Definition md_two_sources : mdstore := [(SPID, [[kd "signing" [1]]]); (SPID, [[kd "encryption" [1]]])].
(* garbage first, another descriptor later *)
Definition md_later : mdstore := [(SPID, [[kd "signing" [2]; kd "encryption" [0]; kdn [0; 1]]])].

(* encrypt_assertion on, no certificate handed in: the certificates come from the metadata *)
Definition g_enc : idp_args := {| g_sign_response := false; g_sign_assertion := true; g_encrypt_assertion := true; g_enc_advice := false;
  g_pefim := false; g_self_contained := true; g_cert_assertion := CNone; g_cert_advice := CNone; g_md_certs := []; g_verify_assertion := None; g_verify_advice := None;
  g_idp_key := 3; g_pub := pub0 |}.
