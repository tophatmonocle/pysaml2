(* Proofs/Glue_enc_certs.v — GLUE: Model/EncryptMd.v (C17: where the IdP takes the SP's encryption certificates
   from) reads Model/CertSelect.v md_certs for use = encryption; through Proofs/Glue_certs.v that is
   Model/MdStore.v store_certs (C16) on the abstraction of a C16 store.  So the C17 hypothesis "the SP's metadata
   has a key descriptor whose use is encryption or absent" and the C17 conclusion "every ciphertext opens under a
   key the SP's own metadata offers for encryption" are statements about the loaded metadata documents. *)
From PV Require Import Lib.Base.
From PV Require Model.CertSelect Model.MdStore Model.EncryptMd Proofs.CertSelect_lemmas Proofs.MdStore_lemmas
  Proofs.EncryptMd_lemmas.
From PV Require Import Proofs.Glue_certs.
Module EM := PV.Model.EncryptMd.
Module EML := PV.Proofs.EncryptMd_lemmas.
Open Scope N_scope.

Lemma ENCRYPTION_same : EM.ENCRYPTION = MS.U_ENCRYPTION.
Proof. reflexivity. Qed.

(* sp_enc_cert over an abstracted store, in the C16 vocabulary *)
Theorem sp_enc_cert_declared num st sp x :
  EM.sp_enc_cert (abs_store num st) sp x <-> declared_enc_key num st sp x.
Proof.
  unfold EM.sp_enc_cert, declared_enc_key, EM.for_encryption.
  apply (abs_store_In num st sp (fun u => u = None \/ u = Some MS.U_ENCRYPTION)).
Qed.

(* C17's hypothesis and conclusion over the documents the IdP's store was loaded from *)
Theorem sp_enc_cert_in_loaded_documents num now srcs sp x :
  EM.sp_enc_cert (abs_store num (MS.load_all now [] srcs)) sp x ->
  declared_in_documents num now srcs MS.U_ENCRYPTION sp x.
Proof. intros H. apply sp_enc_cert_declared in H. now apply served_in_documents. Qed.

(* every ciphertext in a response built for SP [sp] by an IdP holding the loaded store opens under a key given by the
   caller, or under a certificate an unexpired EntityDescriptor of [sp] in a registered source offers for encryption *)
Theorem ciphertext_keys_from_loaded_documents num now srcs g sp i t k :
  EM.idp_build_md g (abs_store num (MS.load_all now [] srcs)) sp i = Ok t -> In k (Encrypt.enc_keys t) ->
  Encrypt.g_cert_assertion g = Encrypt.CGiven k true \/ Encrypt.g_cert_advice g = Encrypt.CGiven k true \/
  (declared_in_documents num now srcs MS.U_ENCRYPTION sp k /\ k <> 0).
Proof.
  intros H Hk. destruct (EML.enc_keys_md _ _ _ _ _ _ H Hk) as [Hc|[Hc|[Hc Hn]]]; auto.
  right. right. split; [now apply sp_enc_cert_in_loaded_documents|exact Hn].
Qed.

Example enc_certs_example :
  EM.md_enc_certs (abs_store ex_num ex_store) (s2l "A") = [(2, true)] /\
  MS.store_certs ex_store (s2l "A") ANY MS.U_ENCRYPTION = Ok [cert_b].
Proof. vm_compute. split; reflexivity. Qed.
