(* The SP pipeline of Model/Response.v stage by stage: each stage as an equation in its steps, what an Ok of it
   means, and which cells of the state it may write. *)
From PV Require Import Lib.Base Model.Status Model.Response Proofs.Status_lemmas.
Open Scope Z_scope.

Lemma validate_on_or_after_ok c t r : validate_on_or_after c t = Ok r ->
  (forall n, t = Some n -> now c <= n + slack c) /\ r = t.
Proof.
  unfold validate_on_or_after. destruct t as [n|]; intros H.
  - destruct (now c >? n + slack c) eqn:G; [discriminate|]. injection H as <-. split; [|reflexivity].
    intros m Hm. injection Hm as <-. lia.
  - injection H as <-. split; [intros n Hn; discriminate|reflexivity].
Qed.

Lemma validate_before_ok c t : validate_before c t = Ok tt -> forall n, t = Some n -> n <= now c + slack c.
Proof.
  unfold validate_before. destruct t as [n|]; intros H m Hm; [|discriminate].
  injection Hm as <-. destruct (n >? now c + slack c) eqn:G; [discriminate|]. lia.
Qed.

(* s' is s but for came_from *)
Definition only_cf (s s' : st) : Prop := exists v, s' = set_cf s v.

Lemma only_cf_refl s : only_cf s s.
Proof. exists (came_from s). destruct s; reflexivity. Qed.
Lemma only_cf_trans s1 s2 s3 : only_cf s1 s2 -> only_cf s2 s3 -> only_cf s1 s3.
Proof. intros [v ->] [w ->]. exists w. reflexivity. Qed.

(* the body of get_subject's loop: the decision on one confirmation, then the Recipient test of a retained one *)
Definition sc_step (c : cfg) (irt : option str) (s : st) (sc : confirmation) : result (bool * st) :=
  match c_method sc with
  | Bearer => bearer_confirmed c irt s (c_data sc)
  | HolderOfKey has => Ok (match c_data sc with Some _ => has | None => false end, s)
  | SenderVouches => Ok (true, s)
  | OtherMethod => Err (E "ValueError")
  end.
Definition sc_recipient (c : cfg) (sc : confirmation) : result unit :=
  match (match c_data sc with Some d => d_recipient d | None => None end) with
  | None => match c_data sc with None => Err (E "AttributeError") | Some _ => Err (E "VerificationError") end
  | Some r => match verify_recipient c r with Err e => Err e | Ok false => Err (E "VerificationError") | Ok true => Ok tt end
  end.

Lemma subject_loop_cons c irt s sc rest :
  subject_loop c irt s (sc :: rest) =
  match sc_step c irt s sc with
  | Err e => Err e
  | Ok (false, s') => subject_loop c irt s' rest
  | Ok (true, s') =>
      match sc_recipient c sc with
      | Err e => Err e
      | Ok _ => match subject_loop c irt s' rest with Err e => Err e | Ok (kept, s'') => Ok (sc :: kept, s'') end
      end
  end.
Proof.
  cbn [subject_loop]. unfold sc_step, sc_recipient. destruct (c_method sc) as [|has| |]; [| | |reflexivity].
  1: destruct (bearer_confirmed c irt s (c_data sc)) as [[[|] s']|]; [|reflexivity..].
  2: destruct (match c_data sc with Some _ => has | None => false end); [|reflexivity].
  all: destruct (match c_data sc with Some d => d_recipient d | None => None end) as [rcp|]; [|destruct (c_data sc); reflexivity].
  all: destruct (verify_recipient c rcp) as [[|]|]; reflexivity.
Qed.

Lemma sc_step_ok c irt s sc b s' : sc_step c irt s sc = Ok (b, s') ->
  only_cf s s' /\
  forall d, c_method sc = Bearer -> c_data sc = Some d ->
    (forall n, d_nooa d = Some n -> now c <= n + slack c) /\
    (forall n, d_nb d = Some n -> n <= now c + slack c) /\
    (b = true -> names_other_request c irt d = false /\ later_than (d_nooa d) (d_nb d) = true).
Proof.
  unfold sc_step. destruct (c_method sc); [|intros H; injection H as _ <-; split; [apply only_cf_refl|discriminate]..|discriminate].
  unfold bearer_confirmed. destruct (c_data sc) as [dd|].
  2:{ intros H. injection H as <- <-. split; [apply only_cf_refl|discriminate]. }
  destruct (match d_address dd with Some _ => negb (d_address_valid dd) | None => false end); [discriminate|].
  destruct (validate_on_or_after c (d_nooa dd)) as [ro|] eqn:E0; [|discriminate].
  destruct (validate_before c (d_nb dd)) as [[]|] eqn:E1; [|discriminate].
  apply validate_on_or_after_ok in E0 as [Hn _]. pose proof (validate_before_ok _ _ E1) as Hb.
  destruct (later_than (d_nooa dd) (d_nb dd)) eqn:E2; cbn [negb].
  - destruct (names_other_request c irt dd) eqn:E3; [discriminate|]. intros H. split.
    + destruct (asynch c && match came_from s with None => true | Some _ => false end);
        [|injection H as _ <-; apply only_cf_refl].
      destruct (d_irt dd) as [i|]; [|injection H as _ <-; apply only_cf_refl].
      destruct (lookup_str i (outstanding c)) as [cf|]; [injection H as _ <-; now exists (Some cf)|].
      destruct (allow_unsolicited c); [injection H as _ <-; apply only_cf_refl|discriminate].
    + intros ? _ [= <-]. split; [exact Hn|]. split; [exact Hb|]. intros _. split; [exact E3|exact E2].
  - intros H. injection H as <- <-. split; [apply only_cf_refl|].
    intros ? _ [= <-]. split; [exact Hn|]. split; [exact Hb|]. discriminate.
Qed.

Definition conf_ok (c : cfg) (irt : option str) (sc : confirmation) : Prop :=
  (* what holds of every RETAINED confirmation *)
  exists d r, c_data sc = Some d /\ d_recipient d = Some r /\ verify_recipient c r = Ok true /\
    (c_method sc = Bearer -> names_other_request c irt d = false /\
        validate_on_or_after c (d_nooa d) <> Err (E "ResponseLifetimeExceed") /\
        (forall n, d_nooa d = Some n -> now c <= n + slack c) /\
        (forall n, d_nb d = Some n -> n <= now c + slack c) /\
        later_than (d_nooa d) (d_nb d) = true).

Lemma conf_ok_data c irt sc : conf_ok c irt sc ->
  exists d r, c_data sc = Some d /\ d_recipient d = Some r /\ verify_recipient c r = Ok true.
Proof. intros (d & r & Hd & Hr & Hv & _). now exists d, r. Qed.

Lemma conf_ok_bearer c irt sc d : conf_ok c irt sc -> c_method sc = Bearer -> c_data sc = Some d ->
  names_other_request c irt d = false /\
  (forall n, d_nooa d = Some n -> now c <= n + slack c) /\ (forall n, d_nb d = Some n -> n <= now c + slack c) /\
  later_than (d_nooa d) (d_nb d) = true.
Proof.
  intros (d' & r & Hd' & _ & _ & Hb) Hm Hd. rewrite Hd in Hd'. injection Hd' as <-.
  destruct (Hb Hm) as (A & _ & B & C & D). repeat split; assumption.
Qed.

(* a Recipient passes as the entity id of the conversation or as one of the own endpoints *)
Lemma verify_recipient_true c ci r : conv_info c = Some ci -> verify_recipient c r = Ok true ->
  ci_entity_id ci = Some r \/ exists addrs, return_addrs c = Some addrs /\ In r addrs.
Proof.
  unfold verify_recipient. intros -> H.
  destruct (match ci_entity_id ci with Some e => str_eqb r e | None => false end) eqn:Ee.
  - left. destruct (ci_entity_id ci) as [e|]; [|discriminate]. apply str_eqb_eq in Ee. now subst e.
  - right. destruct (return_addrs c) as [addrs|]; [|discriminate]. injection H as H.
    exists addrs. split; [reflexivity|now apply mem_str_In].
Qed.

Lemma subject_loop_ok c irt : forall confs s kept s',
  subject_loop c irt s confs = Ok (kept, s') -> only_cf s s' /\ Forall (conf_ok c irt) kept /\ incl kept confs.
Proof.
  induction confs as [|sc rest IH]; intros s kept s' H.
  - injection H as <- <-. split; [apply only_cf_refl|]. split; [constructor|apply incl_refl].
  - rewrite subject_loop_cons in H. destruct (sc_step c irt s sc) as [[b s1]|] eqn:Es; [|discriminate].
    destruct (sc_step_ok _ _ _ _ _ _ Es) as [F1 W]. destruct b.
    + destruct (sc_recipient c sc) as [[]|] eqn:Er; [|discriminate].
      destruct (subject_loop c irt s1 rest) as [[kept0 s2]|] eqn:El; [|discriminate]. injection H as <- <-.
      destruct (IH _ _ _ El) as (F2 & K & I). split; [exact (only_cf_trans _ _ _ F1 F2)|]. split.
      * constructor; [|exact K]. unfold sc_recipient in Er.
        destruct (c_data sc) as [d|] eqn:Hd; [|discriminate]. destruct (d_recipient d) as [rcp|] eqn:Hr; [|discriminate].
        destruct (verify_recipient c rcp) as [[|]|] eqn:Hv; try discriminate.
        exists d, rcp. split; [exact Hd|]. split; [exact Hr|]. split; [exact Hv|].
        intros Hm. destruct (W d Hm eq_refl) as (Hn & Hb & Ht). destruct (Ht eq_refl) as [N L].
        split; [exact N|]. split; [|split; [exact Hn|split; [exact Hb|exact L]]].
        unfold validate_on_or_after. destruct (d_nooa d) as [n0|]; [|discriminate].
        specialize (Hn n0 eq_refl). destruct (now c >? n0 + slack c) eqn:G; [lia|discriminate].
      * apply incl_cons; [now left|apply incl_tl, I].
    + destruct (IH _ _ _ H) as (F2 & K & I). split; [exact (only_cf_trans _ _ _ F1 F2)|]. split; [exact K|apply incl_tl, I].
Qed.

Lemma get_subject_ok c irt s a kept s' : get_subject c irt s a = Ok (kept, s') ->
  kept <> [] /\ subject_loop c irt s (a_confirmations a) = Ok (kept, s').
Proof.
  unfold get_subject. destruct (negb (a_has_subject a)); [discriminate|].
  destruct (negb (verify_attesting_entity c (a_confirmations a))); [discriminate|].
  destruct (subject_loop c irt s (a_confirmations a)) as [[[|k0 k] st']|]; try discriminate.
  intros H. injection H as <- <-. split; [discriminate|reflexivity].
Qed.

(* the signature stage of _assertion *)
Definition sig_stage (req verified : bool) (a : assertion) : result unit :=
  match a_sig a with
  | None => if req then Err SignatureError else Ok tt
  | Some r => if verified then Ok tt else r
  end.

Record assertion_facts (c : cfg) (irt : option str) (a : assertion) : Prop := {
  af_audience : forall k, a_conditions a = Some k -> k_empty k = false -> test_mode c = false -> for_me k (entity_id c) = true;
  af_conditions_time : forall k, a_conditions a = Some k -> k_empty k = false -> test_mode c = false ->
      (forall n, k_nooa k = Some n -> now c <= n + slack c) /\ (forall n, k_nb k = Some n -> n <= now c + slack c) /\
      (forall n m, k_nb k = Some n -> k_nooa k = Some m -> n <= m);
  af_session : forall n, a_authn a = [Some n] -> now c <= n + slack c;
  af_authn_one : exists sn, a_authn a = [sn];
  af_subject : exists kept, kept <> [] /\ Forall (conf_ok c irt) kept /\ incl kept (a_confirmations a);
  af_sig : forall req verified s s', check_assertion c irt req verified s a = Ok s' ->
      (req = true -> a_sig a <> None) /\ (verified = false -> a_sig a <> None -> a_sig a = Some (Ok tt))
}.

Lemma authn_statement_ok_ok c s a s' : authn_statement_ok c s a = Ok s' ->
  exists sn, a_authn a = [sn] /\ (forall n, sn = Some n -> now c <= n + slack c) /\
             s' = match sn with Some n => set_snooa s n | None => s end.
Proof.
  unfold authn_statement_ok. destruct (a_authn a) as [|[n|] [|? ?]]; try discriminate.
  - destruct (validate_on_or_after c (Some n)) as [ro|] eqn:Ev; [|discriminate].
    apply validate_on_or_after_ok in Ev as [Hn ->]. intros H. injection H as <-. now exists (Some n).
  - intros H. injection H as <-. exists None. split; [reflexivity|]. split; [discriminate|reflexivity].
Qed.

(* condition_ok without the state: the time tests give the value to write into not_on_or_after (None: leave it),
   in lax mode a failure writes 0 *)
Definition cond_time (c : cfg) (k : conditions) : result (option Z) :=
  match (match validate_on_or_after c (k_nooa k) with
         | Err e => Err e
         | Ok _ => match validate_before c (k_nb k) with Err e => Err e | Ok _ => Ok (k_nooa k) end
         end) with
  | Ok o => Ok o
  | Err e => if test_mode c then Ok (Some 0) else Err e
  end.
Definition upd_nooa (s : st) (o : option Z) : st := match o with Some n => set_nooa s n | None => s end.

Lemma condition_ok_eq c s a :
  condition_ok c s a =
  match a_conditions a with
  | None => Ok (true, s)
  | Some k =>
      if k_empty k then Ok (true, s) else
      if (match k_nb k, k_nooa k with Some _, Some _ => negb (later_than (k_nooa k) (k_nb k)) | _, _ => false end)
      then Ok (false, s) else
      match cond_time c k with
      | Err e => Err e
      | Ok o => if negb (for_me k (entity_id c)) && negb (test_mode c) then Err (E "Exception")
                else if k_unknown_condition k then Err (E "Exception")
                else Ok (true, upd_nooa s o)
      end
  end.
Proof.
  unfold condition_ok, cond_time. destruct (a_conditions a) as [k|]; [|reflexivity].
  destruct (k_empty k); [reflexivity|]. destruct (match k_nb k, k_nooa k with Some _, Some _ => _ | _, _ => false end); [reflexivity|].
  destruct (validate_on_or_after c (k_nooa k)) as [ro|] eqn:Eo; [|destruct (test_mode c); reflexivity].
  apply validate_on_or_after_ok in Eo as [_ ->].
  destruct (validate_before c (k_nb k)); [destruct (k_nooa k)|destruct (test_mode c)]; reflexivity.
Qed.

Lemma cond_time_strict c k o : test_mode c = false -> cond_time c k = Ok o ->
  o = k_nooa k /\ (forall n, k_nooa k = Some n -> now c <= n + slack c) /\ (forall n, k_nb k = Some n -> n <= now c + slack c).
Proof.
  unfold cond_time. intros ->. destruct (validate_on_or_after c (k_nooa k)) as [ro|] eqn:Eo; [|discriminate].
  destruct (validate_before c (k_nb k)) as [[]|] eqn:Eb; [|discriminate]. intros H. injection H as <-.
  split; [reflexivity|]. split; [exact (proj1 (validate_on_or_after_ok _ _ _ Eo))|exact (validate_before_ok _ _ Eb)].
Qed.

(* condition_ok writes at most not_on_or_after *)
Lemma condition_ok_frame c s a b s' : condition_ok c s a = Ok (b, s') -> exists o, s' = upd_nooa s o.
Proof.
  rewrite condition_ok_eq. destruct (a_conditions a) as [k|]; [|intros H; injection H as _ <-; now exists None].
  destruct (k_empty k); [intros H; injection H as _ <-; now exists None|].
  destruct (match k_nb k, k_nooa k with Some _, Some _ => _ | _, _ => false end); [intros H; injection H as _ <-; now exists None|].
  destruct (cond_time c k) as [o|]; [|discriminate]. destruct (_ && _); [discriminate|].
  destruct (k_unknown_condition k); [discriminate|]. intros H; injection H as _ <-. now exists o.
Qed.

Lemma condition_ok_true c s a s' : condition_ok c s a = Ok (true, s') ->
  forall k, a_conditions a = Some k -> k_empty k = false -> test_mode c = false ->
    for_me k (entity_id c) = true /\
    (forall n, k_nooa k = Some n -> now c <= n + slack c) /\ (forall n, k_nb k = Some n -> n <= now c + slack c) /\
    (forall n m, k_nb k = Some n -> k_nooa k = Some m -> n <= m) /\
    s' = upd_nooa s (k_nooa k).
Proof.
  rewrite condition_ok_eq. intros H k Hk He Ht. rewrite Hk, He in H.
  match type of H with (if ?x then _ else _) = _ => destruct x eqn:EL; [discriminate|] end.
  destruct (cond_time c k) as [o|] eqn:Et; [|discriminate]. destruct (cond_time_strict _ _ _ Ht Et) as (-> & Ho & Hb).
  rewrite Ht, andb_true_r in H. destruct (negb (for_me k (entity_id c))) eqn:Ef; [discriminate|].
  destruct (k_unknown_condition k); [discriminate|]. injection H as <-. apply negb_false_iff in Ef.
  split; [exact Ef|]. split; [exact Ho|]. split; [exact Hb|]. split; [|reflexivity].
  intros n m Hn Hm. rewrite Hn, Hm in EL. unfold later_than in EL. apply negb_false_iff in EL. lia.
Qed.

Lemma check_assertion_ok c irt req v s a s' : check_assertion c irt req v s a = Ok s' ->
  exists s1 s2 kept s3,
    sig_stage req v a = Ok tt /\ authn_statement_ok c s a = Ok s1 /\ condition_ok c s1 a = Ok (true, s2) /\
    get_subject c irt s2 a = Ok (kept, s3) /\
    s' = match a_name_id a with Some n => set_nid s3 (Some n) | None => s3 end.
Proof.
  unfold check_assertion. fold (sig_stage req v a). destruct (sig_stage req v a) as [[]|]; [|discriminate].
  destruct (authn_statement_ok c s a) as [s1|] eqn:Ea; [|discriminate].
  destruct (condition_ok c s1 a) as [[[|] s2]|] eqn:Ec; try discriminate.
  destruct (get_subject c irt s2 a) as [[kept s3]|] eqn:Eg; [|discriminate].
  match goal with |- (if ?x then _ else _) = _ -> _ => destruct x; [discriminate|] end.
  intros H. injection H as <-. now exists s1, s2, kept, s3.
Qed.

Lemma check_assertion_facts c irt req verified s a s' :
  check_assertion c irt req verified s a = Ok s' -> assertion_facts c irt a.
Proof.
  intros H. destruct (check_assertion_ok _ _ _ _ _ _ _ H) as (s1 & s2 & kept & s3 & _ & Ea & Ec & Eg & _).
  destruct (authn_statement_ok_ok _ _ _ _ Ea) as (sn & Hsn & Hw & _).
  constructor.
  - intros k Hk He Ht. now destruct (condition_ok_true _ _ _ _ Ec k Hk He Ht) as (F & _).
  - intros k Hk He Ht. destruct (condition_ok_true _ _ _ _ Ec k Hk He Ht) as (_ & A & B & C & _). repeat split; assumption.
  - intros n Hn. rewrite Hn in Hsn. injection Hsn as <-. now apply Hw.
  - now exists sn.
  - destruct (get_subject_ok _ _ _ _ _ _ Eg) as [Hne El]. destruct (subject_loop_ok _ _ _ _ _ _ El) as (_ & F & I).
    now exists kept.
  - intros req' v' sx sx' Hx. destruct (check_assertion_ok _ _ _ _ _ _ _ Hx) as (_ & _ & _ & _ & Es & _).
    unfold sig_stage in Es. destruct (a_sig a) as [r0|]; split; try congruence.
    + intros -> _. now rewrite Es.
    + intros ->. discriminate.
Qed.

Lemma check_assertions_all c irt req verified push : forall l s s',
  check_assertions c irt req verified push s l = Ok s' ->
  Forall (fun a => exists sa sa', check_assertion c irt req verified sa a = Ok sa') l.
Proof.
  induction l as [|a l IH]; intros s s' H; [constructor|]. cbn [check_assertions] in H.
  destruct (check_assertion c irt req verified s a) as [s1|] eqn:E; [|discriminate].
  constructor; [now exists s, s1|]. eapply IH. exact H.
Qed.

(* the assertions whose content the application may read *)
Definition processed (r : response) : list assertion := decrypted_prefix (r_encrypted r) ++ r_assertions r.

Lemma decrypted_prefix_map (f : assertion -> assertion) l :
  decrypted_prefix (map (fun e => {| e_opens := e_opens e; e_inner := f (e_inner e) |}) l) = map f (decrypted_prefix l).
Proof.
  induction l as [|e l IH]; [reflexivity|]. cbn [map decrypted_prefix e_opens e_inner].
  destruct (e_opens e); [cbn [map]; rewrite IH; reflexivity|reflexivity].
Qed.

(* parse_assertion in one line of steps: with nothing encrypted the decrypted part is empty and its steps do nothing *)
Lemma parse_assertion_eq c req s r :
  parse_assertion c req s r =
  if negb ((List.length (r_assertions r) =? 1)%nat || (List.length (r_encrypted r) =? 1)%nat) then Err (E "Exception") else
  match check_assertions c (r_irt r) req false false s (r_assertions r) with
  | Err e => Err e
  | Ok s1 =>
      match verify_decrypted (decrypted_prefix (r_encrypted r)) with
      | Err e => Err e
      | Ok _ => match check_assertions c (r_irt r) req true true s1 (decrypted_prefix (r_encrypted r)) with
                | Err e => Err e
                | Ok s2 => Ok (push_all s2 (r_assertions r))
                end
      end
  end.
Proof.
  unfold parse_assertion. destruct (negb _); [reflexivity|].
  destruct (check_assertions c (r_irt r) req false false s (r_assertions r)); [|reflexivity].
  destruct (r_encrypted r); reflexivity.
Qed.

Lemma parse_assertion_ok c req s r s' : parse_assertion c req s r = Ok s' ->
  Forall (assertion_facts c (r_irt r)) (processed r) /\
  Forall (fun a => exists sa sa', check_assertion c (r_irt r) req false sa a = Ok sa') (r_assertions r) /\
  Forall (fun a => exists sa sa', check_assertion c (r_irt r) req true sa a = Ok sa') (decrypted_prefix (r_encrypted r)) /\
  verify_decrypted (decrypted_prefix (r_encrypted r)) = Ok tt.
Proof.
  rewrite parse_assertion_eq. destruct (negb _); [discriminate|].
  destruct (check_assertions c (r_irt r) req false false s (r_assertions r)) as [s1|] eqn:E1; [|discriminate].
  destruct (verify_decrypted (decrypted_prefix (r_encrypted r))) as [[]|]; [|discriminate].
  destruct (check_assertions c (r_irt r) req true true s1 (decrypted_prefix (r_encrypted r))) as [s2|] eqn:E2; [|discriminate].
  intros _. apply check_assertions_all in E1, E2.
  split; [|repeat split; assumption]. apply Forall_app.
  split; (eapply Forall_impl; [|eassumption]); intros a (sa & sa' & Ha); exact (check_assertion_facts _ _ _ _ _ _ _ Ha).
Qed.

(* what verify answers before it looks at the assertions: a function of configuration and envelope only *)
Definition verify_front (c : cfg) (r : response) : option (result (option st)) :=
  if asynch c && version_is_20 (r_version r) &&
     (match r_destination r, dest_regex_set c, return_addrs c with Some _, false, None => true | _, _, _ => false end)
  then Some (Err (E "TypeError")) else
  match verify_core (verify_in_of c r) with
  | Err e => Some (Err e)
  | Ok None => Some (Ok None)
  | Ok (Some _) => None
  end.

Lemma verify_eq c req s r :
  verify c req s r =
  match verify_front c r with
  | Some x => x
  | None => match parse_assertion c req s r with Err e => Err e | Ok x => Ok (Some x) end
  end.
Proof.
  unfold verify, verify_front, authn_verify. destruct (_ && _ && _); [reflexivity|].
  destruct (verify_core (verify_in_of c r)) as [[[]|]|]; reflexivity.
Qed.

Lemma verify_some c req s r s' : verify c req s r = Ok (Some s') ->
  verify_core (verify_in_of c r) = Ok (Some tt) /\ parse_assertion c req s r = Ok s' /\
  (asynch c = true -> forall d, r_destination r = Some d -> dest_regex_set c = false -> return_addrs c <> None).
Proof.
  rewrite verify_eq. unfold verify_front. destruct (_ && _ && _) eqn:G; [discriminate|].
  destruct (verify_core (verify_in_of c r)) as [[[]|]|] eqn:Ev; try discriminate.
  destruct (parse_assertion c req s r) as [x|]; [|discriminate]. intros H. injection H as <-.
  split; [reflexivity|]. split; [reflexivity|].
  intros Ha d Hd Hr Hn. destruct (verify_core_ok _ Ev) as (_ & V & _). cbn [verify_in_of version] in V.
  rewrite Ha, V, Hd, Hr, Hn in G. discriminate.
Qed.

Definition st0 (cf : option str) : st :=
  {| came_from := cf; not_on_or_after := 0; session_nooa := 0; nid := None; acc := [] |}.

Lemma loads_ok c req r s : loads c req r = Ok s ->
  exists cf, s = st0 cf /\
    (asynch c = true -> allow_unsolicited c = false ->
     exists i v, r_irt r = Some i /\ lookup_str i (outstanding c) = Some v /\ cf = Some v).
Proof.
  unfold loads. destruct (response_sig_stage req r); [|discriminate]. unfold loads_rest. fold (st0 None).
  destruct (asynch c); [|intros H; injection H as <-; exists None; split; [reflexivity|discriminate]].
  destruct (allow_unsolicited c).
  - intros H. assert (exists cf, s = st0 cf) as [cf ->]; [|exists cf; split; [reflexivity|discriminate]].
    destruct (match (if r_valid_instance r then r_irt r else None) with Some i => lookup_str i (outstanding c) | None => None end) as [cf|].
    + destruct (assertions_name_irt _ _) as [[|]|]; try discriminate; injection H as <-; now exists (Some cf).
    + injection H as <-. now exists None.
  - intros H. destruct (r_valid_instance r).
    + destruct (r_irt r) as [i|] eqn:Ei; [|discriminate]. destruct (lookup_str i (outstanding c)) as [cf|] eqn:El; [|discriminate].
      exists (Some cf). split; [|intros _ _; now exists i, cf].
      destruct (assertions_name_irt _ _) as [[|]|]; try discriminate; injection H as <-; reflexivity.
    + discriminate.
Qed.

Lemma loads_fields c req r s : loads c req r = Ok s -> session_nooa s = 0 /\ not_on_or_after s = 0 /\ acc s = [].
Proof. intros H. destruct (loads_ok _ _ _ _ H) as (cf & -> & _). repeat split. Qed.

Lemma residue_fields c req s r : let s' := parse_assertion_residue c req s r in
  came_from s' = came_from s /\ nid s' = nid s /\ session_nooa s' = session_nooa s /\ not_on_or_after s' = not_on_or_after s.
Proof.
  unfold parse_assertion_residue. destruct (check_assertions c (r_irt r) req false false s (r_assertions r)); [|repeat split].
  destruct (verify_decrypted (decrypted_prefix (r_encrypted r))); repeat split.
Qed.

Definition stage1 (c : cfg) (r : response) : result (st * bool) :=
  match loads c true r with
  | Ok s => Ok (s, true)
  | Err e => if is_sigver_error e then
               (if wrs c then Err e
                else match loads c false r with Ok s => Ok (s, false) | Err e' => Err e' end)
             else Err e
  end.
Definition verify_retry (c : cfg) (s : st) (r : response) : result (option st * bool) :=
  match verify c true s r with
  | Ok x => Ok (x, true)
  | Err e => if is_signature_error e then
               (if was c then Err e
                else match verify c false (parse_assertion_residue c true s r) r with Ok x => Ok (x, false) | Err e' => Err e' end)
             else Err e
  end.

Lemma parse_response_eq c r :
  parse_response c r =
  match stage1 c r with
  | Err e => Err e
  | Ok (s, response_is_signed) =>
      if negb (r_valid_instance r) then Err (E "AttributeError") else
      match verify_retry c s r with
      | Err e => Err e
      | Ok (None, _) => Err (E "AttributeError")
      | Ok (Some s', assertions_are_signed) =>
          if waors c && negb response_is_signed && negb assertions_are_signed then Err (E "SigverError")
          else Ok {| o_assertions := acc s'; o_name_id := nid s'; o_came_from := came_from s';
                     o_nooa := if session_nooa s' >? 0 then session_nooa s' else not_on_or_after s';
                     o_irt := r_irt r |}
      end
  end.
Proof. reflexivity. Qed.

(* the flag of a stage says which call succeeded; the forced one is skipped only when the option is off *)
Lemma stage1_ok c r s b : stage1 c r = Ok (s, b) -> loads c b r = Ok s /\ (wrs c = true -> b = true).
Proof.
  unfold stage1. destruct (loads c true r) as [sA|e] eqn:L1.
  - intros H. injection H as <- <-. split; [exact L1|reflexivity].
  - destruct (is_sigver_error e); [|discriminate]. destruct (wrs c); [discriminate|].
    destruct (loads c false r) as [sB|] eqn:L2; [|discriminate]. intros H. injection H as <- <-. split; [exact L2|discriminate].
Qed.

Lemma verify_retry_ok c s r x b : verify_retry c s r = Ok (x, b) ->
  exists s0, verify c b s0 r = Ok x /\ (was c = true -> b = true) /\
             (s0 = s \/ b = false /\ s0 = parse_assertion_residue c true s r).
Proof.
  unfold verify_retry. destruct (verify c true s r) as [y|e] eqn:V1.
  - intros H. injection H as <- <-. exists s. split; [exact V1|]. split; [reflexivity|now left].
  - destruct (is_signature_error e); [|discriminate]. destruct (was c); [discriminate|].
    destruct (verify c false (parse_assertion_residue c true s r) r) as [y|] eqn:V2; [|discriminate].
    intros H. injection H as <- <-. exists (parse_assertion_residue c true s r). split; [exact V2|]. split; [discriminate|now right].
Qed.

(* [req], [s], [s'] of ac_verify: the verify call that succeeded, the state it started from and the one it ended in *)
Record accepted_facts (c : cfg) (r : response) (o : outcome) : Prop := {
  ac_valid : r_valid_instance r = true;
  ac_loads : exists req0 s0, loads c req0 r = Ok s0 /\ (wrs c = true -> req0 = true);
  ac_verify : exists req s s', verify c req s r = Ok (Some s') /\ (was c = true -> req = true) /\
                session_nooa s = 0 /\ not_on_or_after s = 0 /\
                o_assertions o = acc s' /\ o_came_from o = came_from s' /\
                o_nooa o = (if session_nooa s' >? 0 then session_nooa s' else not_on_or_after s');
  ac_either : waors c = true -> (loads c true r <> Err SignatureError /\ is_ok (loads c true r) = true) \/
                                (exists s s', verify c true s r = Ok (Some s'))
}.

(* an accepted run, taken apart: [b1], [b2] say whether the forced call of each stage succeeded, [s] is what loads
   returned, [s0] the state the successful verify started from, [s'] the one it ended in *)
Lemma parse_response_ok c r o : parse_response c r = Ok o ->
  exists s b1 s0 b2 s',
    r_valid_instance r = true /\ loads c b1 r = Ok s /\ (wrs c = true -> b1 = true) /\
    verify c b2 s0 r = Ok (Some s') /\ (was c = true -> b2 = true) /\
    (s0 = s \/ b2 = false /\ s0 = parse_assertion_residue c true s r) /\
    waors c && negb b1 && negb b2 = false /\
    o_assertions o = acc s' /\ o_came_from o = came_from s' /\
    o_nooa o = (if session_nooa s' >? 0 then session_nooa s' else not_on_or_after s').
Proof.
  rewrite parse_response_eq. destruct (stage1 c r) as [[s b1]|] eqn:E1; [|discriminate].
  destruct (r_valid_instance r); [|discriminate]. cbn [negb].
  destruct (verify_retry c s r) as [[[s'|] b2]|] eqn:E2; try discriminate.
  destruct (waors c && negb b1 && negb b2) eqn:W; [discriminate|]. intros H. injection H as <-.
  destruct (stage1_ok _ _ _ _ E1) as [L Hw]. destruct (verify_retry_ok _ _ _ _ _ E2) as (s0 & Hv & Hwa & Hs0).
  exists s, b1, s0, b2, s'. repeat split; assumption.
Qed.

Lemma parse_response_accepted c r o : parse_response c r = Ok o -> accepted_facts c r o.
Proof.
  intros H. destruct (parse_response_ok c r o H) as (s & b1 & s0 & b2 & s' & V & L & Hw & Hv & Hwa & Hs0 & W & OA & OC & ON).
  destruct (loads_fields _ _ _ _ L) as (F1 & F2 & _).
  constructor.
  - exact V.
  - now exists b1, s.
  - exists b2, s0, s'. split; [exact Hv|]. split; [exact Hwa|].
    destruct Hs0 as [->|[_ ->]]; [|destruct (residue_fields c true s r) as (_ & _ & -> & ->)]; repeat split; assumption.
  - intros Wo. rewrite Wo in W. destruct b1; [left; rewrite L; split; [discriminate|reflexivity]|].
    destruct b2; [right; now exists s0, s'|discriminate].
Qed.
