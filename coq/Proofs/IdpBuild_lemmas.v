(* Proofs/IdpBuild_lemmas.v — C08, text level: what ElementTree writes for character
   data / attribute values is read back exactly (character data modulo the XML
   end-of-line rule, stated exactly), contains no delimiter, and stays XML-legal. *)
From PV Require Import Lib.Base Model.Codec Model.IdpBuild.
Open Scope N_scope.

(* vocabulary of C08_text_is_data / C08_attribute_value_is_data: every '&' of the written form starts one of
   the references the writer emits *)
Definition starts_with (p s : str) : bool := match strip_prefix p s with Some _ => true | None => false end.
Fixpoint amp_ok (allowed : list str) (s : str) : bool :=
  match s with
  | [] => true
  | c :: r => (if c =? 38 then existsb (fun n => starts_with n r) allowed else true) && amp_ok allowed r
  end.

Definition TEXT_REFS : list str := [s2l "amp;"; s2l "lt;"; s2l "gt;"].
Definition ATTR_REFS : list str := [s2l "amp;"; s2l "lt;"; s2l "gt;"; s2l "quot;"; s2l "#13;"; s2l "#10;"; s2l "#09;"].

Lemma escape_cdata_cons c s : escape_cdata (c :: s) = esc_text_char c ++ escape_cdata s.
Proof. reflexivity. Qed.
Lemma escape_attrib_cons c s : escape_attrib (c :: s) = esc_attr_char c ++ escape_attrib s.
Proof. reflexivity. Qed.
Lemma escape_cdata_app a b : escape_cdata (a ++ b) = escape_cdata a ++ escape_cdata b.
Proof. unfold escape_cdata. now rewrite flat_map_app. Qed.
Lemma escape_attrib_app a b : escape_attrib (a ++ b) = escape_attrib a ++ escape_attrib b.
Proof. unfold escape_attrib. now rewrite flat_map_app. Qed.

Lemma etc_cases c :
  (c = 38 /\ esc_text_char c = [38; 97; 109; 112; 59]) \/
  (c = 60 /\ esc_text_char c = [38; 108; 116; 59]) \/
  (c = 62 /\ esc_text_char c = [38; 103; 116; 59]) \/
  (c <> 38 /\ c <> 60 /\ c <> 62 /\ esc_text_char c = [c]).
Proof.
  unfold esc_text_char.
  destruct (N.eqb_spec c 38) as [->|N38]; [left; split; reflexivity|].
  destruct (N.eqb_spec c 60) as [->|N60]; [right; left; split; reflexivity|].
  destruct (N.eqb_spec c 62) as [->|N62]; [right; right; left; split; reflexivity|].
  right; right; right. repeat split; assumption.
Qed.

Lemma eac_cases c :
  (c = 38 /\ esc_attr_char c = [38; 97; 109; 112; 59]) \/
  (c = 60 /\ esc_attr_char c = [38; 108; 116; 59]) \/
  (c = 62 /\ esc_attr_char c = [38; 103; 116; 59]) \/
  (c = 34 /\ esc_attr_char c = [38; 113; 117; 111; 116; 59]) \/
  (c = 13 /\ esc_attr_char c = [38; 35; 49; 51; 59]) \/
  (c = 10 /\ esc_attr_char c = [38; 35; 49; 48; 59]) \/
  (c = 9 /\ esc_attr_char c = [38; 35; 48; 57; 59]) \/
  (c <> 38 /\ c <> 60 /\ c <> 62 /\ c <> 34 /\ c <> 13 /\ c <> 10 /\ c <> 9 /\ esc_attr_char c = [c]).
Proof.
  unfold esc_attr_char.
  destruct (N.eqb_spec c 38) as [->|N38]; [left; split; reflexivity|].
  destruct (N.eqb_spec c 60) as [->|N60]; [right; left; split; reflexivity|].
  destruct (N.eqb_spec c 62) as [->|N62]; [right; right; left; split; reflexivity|].
  destruct (N.eqb_spec c 34) as [->|N34]; [right; right; right; left; split; reflexivity|].
  destruct (N.eqb_spec c 13) as [->|N13]; [right; right; right; right; left; split; reflexivity|].
  destruct (N.eqb_spec c 10) as [->|N10]; [right; right; right; right; right; left; split; reflexivity|].
  destruct (N.eqb_spec c 9) as [->|N9]; [right; right; right; right; right; right; left; split; reflexivity|].
  right; right; right; right; right; right; right. repeat split; assumption.
Qed.

Ltac neqb :=
  repeat match goal with
         | H : ?a <> ?b |- context [N.eqb ?a ?b] => rewrite (proj2 (N.eqb_neq a b) H)
         end.

Lemma unesc_attr_char c r out :
  unesc true UNorm (esc_attr_char c ++ r) out = unesc true UNorm r (c :: out).
Proof.
  destruct (eac_cases c) as [[-> E]|[[-> E]|[[-> E]|[[-> E]|[[-> E]|[[-> E]|[[-> E]|(N38 & N60 & N62 & N34 & N13 & N10 & N9 & E)]]]]]]];
    rewrite E; try reflexivity.
  cbn [app unesc]. neqb. cbn [orb andb]. reflexivity.
Qed.

Lemma unesc_attr_gen s : forall r out,
  unesc true UNorm (escape_attrib s ++ r) out = unesc true UNorm r (rev s ++ out).
Proof.
  induction s as [|c s IH]; intros r out; [reflexivity|].
  rewrite escape_attrib_cons, <- app_assoc, unesc_attr_char, IH. cbn [rev]. now rewrite <- app_assoc.
Qed.

Theorem unescape_attr_escape s : unescape_attr (escape_attrib s) = Some s.
Proof.
  unfold unescape_attr. rewrite <- (app_nil_r (escape_attrib s)), unesc_attr_gen. cbn [unesc].
  now rewrite app_nil_r, rev_involutive.
Qed.

Theorem escape_cdata_safe s :
  forallb (fun c => negb ((c =? 60) || (c =? 62))) (escape_cdata s) = true /\ amp_ok TEXT_REFS (escape_cdata s) = true.
Proof.
  induction s as [|c s [IH1 IH2]]; [split; reflexivity|]. rewrite escape_cdata_cons.
  destruct (etc_cases c) as [[-> E]|[[-> E]|[[-> E]|(N38 & N60 & N62 & E)]]]; rewrite E; cbn [app].
  1-3: split; [cbn [forallb]; rewrite IH1; reflexivity|
               cbn -[escape_cdata]; rewrite IH2; reflexivity].
  split.
  - cbn [forallb]. neqb. rewrite IH1. reflexivity.
  - cbn [amp_ok]. neqb. rewrite IH2. reflexivity.
Qed.

Theorem escape_attrib_safe s :
  forallb (fun c => negb ((c =? 60) || (c =? 62) || (c =? 34) || (c =? 13) || (c =? 10) || (c =? 9))) (escape_attrib s) = true /\
  amp_ok ATTR_REFS (escape_attrib s) = true.
Proof.
  induction s as [|c s [IH1 IH2]]; [split; reflexivity|]. rewrite escape_attrib_cons.
  destruct (eac_cases c) as [[-> E]|[[-> E]|[[-> E]|[[-> E]|[[-> E]|[[-> E]|[[-> E]|(N38 & N60 & N62 & N34 & N13 & N10 & N9 & E)]]]]]]];
    rewrite E; cbn [app].
  1-7: split; [cbn [forallb]; rewrite IH1; reflexivity|
               cbn -[escape_attrib]; rewrite IH2; reflexivity].
  split.
  - cbn [forallb]. neqb. rewrite IH1. reflexivity.
  - cbn [amp_ok]. neqb. rewrite IH2. reflexivity.
Qed.

Lemma unesc_text_char c r out : c <> 13 ->
  unesc false UNorm (esc_text_char c ++ r) out = unesc false UNorm r (c :: out).
Proof.
  intros N13.
  destruct (etc_cases c) as [[-> E]|[[-> E]|[[-> E]|(N38 & N60 & N62 & E)]]]; rewrite E; try reflexivity.
  cbn [app unesc]. neqb. cbn [andb]. reflexivity.
Qed.

Lemma unesc_text_cr_state c r out : c <> 10 ->
  unesc false UCr (esc_text_char c ++ r) out = unesc false UNorm (esc_text_char c ++ r) out.
Proof.
  intros N10.
  destruct (etc_cases c) as [[-> E]|[[-> E]|[[-> E]|(N38 & N60 & N62 & E)]]]; rewrite E; try reflexivity.
  cbn [app unesc]. neqb. cbn [andb]. reflexivity.
Qed.


Definition after_cr (s : str) : str := match s with 10 :: r => r | _ => s end.

Lemma norm_eol_cr r : norm_eol (13 :: r) = 10 :: norm_eol (after_cr r).
Proof. reflexivity. Qed.
Lemma norm_eol_other c r : c <> 13 -> norm_eol (c :: r) = c :: norm_eol r.
Proof.
  intros H. destruct c as [|p]; [reflexivity|].
  cbn [norm_eol]. repeat (destruct p as [p|p|]; try reflexivity). congruence.
Qed.

(* one statement for the two reader states, proved together: UNorm, and UCr (just after a CR), where a
   pending LF belongs to the CR already answered with LF - that is what after_cr drops *)
Lemma unesc_text_gen : forall s out,
  unesc false UNorm (escape_cdata s) out = Some (rev out ++ norm_eol s) /\
  unesc false UCr (escape_cdata s) out = Some (rev out ++ norm_eol (after_cr s)).
Proof.
  induction s as [|c s IH]; intros out.
  - cbn. now rewrite app_nil_r.
  - rewrite escape_cdata_cons.
    destruct (N.eq_dec c 13) as [->|N13].
    + change (esc_text_char 13) with [13]. cbn [app unesc N.eqb Pos.eqb eol after_cr]. rewrite norm_eol_cr.
      destruct (IH (10 :: out)) as [_ Q]. rewrite Q. cbn [rev]. rewrite <- app_assoc. split; reflexivity.
    + split.
      * rewrite unesc_text_char by exact N13. destruct (IH (c :: out)) as [P _]. rewrite P.
        rewrite norm_eol_other by exact N13. cbn [rev]. now rewrite <- app_assoc.
      * destruct (N.eq_dec c 10) as [->|N10].
        { change (esc_text_char 10) with [10]. cbn [app unesc N.eqb Pos.eqb after_cr]. destruct (IH out) as [P _]. exact P. }
        rewrite unesc_text_cr_state by assumption. rewrite unesc_text_char by exact N13.
        destruct (IH (c :: out)) as [P _]. rewrite P.
        assert (after_cr (c :: s) = c :: s) as ->.
        { unfold after_cr. destruct c as [|p]; [reflexivity|]. repeat (destruct p as [p|p|]; try reflexivity). congruence. }
        rewrite norm_eol_other by exact N13. cbn [rev]. now rewrite <- app_assoc.
Qed.

(* the escaped form contains no '>' at all, hence never the CDATA end marker *)
Lemma escape_cdata_no_gt s : forallb (fun c => negb (c =? 62)) (escape_cdata s) = true.
Proof.
  apply (forallb_impl (fun c => negb ((c =? 60) || (c =? 62)))); [|apply escape_cdata_safe].
  intros c H. apply negb_true_iff, orb_false_iff in H. apply negb_true_iff, H.
Qed.

Lemma no_gt_no_cdend s : forallb (fun c => negb (c =? 62)) s = true -> has_sub CDEND s = false.
Proof.
  induction s as [|c s IH]; intros H; [reflexivity|].
  cbn [forallb] in H. apply andb_true_iff in H as [Hc Hs]. cbn [has_sub]. rewrite (IH Hs).
  change CDEND with [93; 93; 62].
  destruct s as [|c2 [|c3 s3]]; cbn [strip_prefix].
  - destruct (93 =? c); reflexivity.
  - destruct (93 =? c); [|reflexivity]. destruct (93 =? c2); reflexivity.
  - destruct (93 =? c); [|reflexivity]. destruct (93 =? c2); [|reflexivity].
    cbn [forallb] in Hs. apply andb_true_iff in Hs as [_ Hs]. apply andb_true_iff in Hs as [H3 _].
    apply negb_true_iff in H3. rewrite N.eqb_sym, H3. reflexivity.
Qed.

Theorem unescape_text_escape s : unescape_text (escape_cdata s) = Some (norm_eol s).
Proof.
  unfold unescape_text. rewrite (no_gt_no_cdend _ (escape_cdata_no_gt s)).
  destruct (unesc_text_gen s []) as [P _]. exact P.
Qed.

(* without CR the text is read back unchanged *)
Lemma norm_eol_id s : forallb (fun c => negb (c =? 13)) s = true -> norm_eol s = s.
Proof.
  induction s as [|c s IH]; intros H; [reflexivity|]. cbn [forallb] in H. apply andb_true_iff in H as [Hc Hs].
  apply negb_true_iff, N.eqb_neq in Hc. rewrite norm_eol_other by exact Hc. now rewrite IH.
Qed.

(* legal characters stay legal *)
Lemma escape_cdata_legal s : forallb xml_char s = true -> forallb xml_char (escape_cdata s) = true.
Proof.
  unfold escape_cdata. rewrite forallb_flat_map. apply forallb_impl. intros c Hc.
  destruct (etc_cases c) as [[-> E]|[[-> E]|[[-> E]|(_ & _ & _ & E)]]]; rewrite E; try reflexivity.
  cbn [forallb]. now rewrite Hc.
Qed.
Lemma escape_attrib_legal s : forallb xml_char s = true -> forallb xml_char (escape_attrib s) = true.
Proof.
  unfold escape_attrib. rewrite forallb_flat_map. apply forallb_impl. intros c Hc.
  destruct (eac_cases c) as [[-> E]|[[-> E]|[[-> E]|[[-> E]|[[-> E]|[[-> E]|[[-> E]|(_ & _ & _ & _ & _ & _ & _ & E)]]]]]]]; rewrite E; try reflexivity.
  cbn [forallb]. now rewrite Hc.
Qed.
