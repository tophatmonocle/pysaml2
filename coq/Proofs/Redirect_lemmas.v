(* Proofs/Redirect_lemmas.v — lemmas for C15, for any tables [T]: the two percent-encoders, dict access and the ordered
   parameter list, the shared signer table under a trace (exec, last_write), signing and verifying, and schedules /
   scripts.  Only Section WithTables assumes [tables_ok T = true] (which Props/C15.v discharges for the actual tables
   by evaluation); the lemmas about traces assume at most a value of [t_shared T]. *)
From PV Require Import Lib.Base Model.Codec Model.Redirect Proofs.Base64_lemmas Proofs.Url_lemmas.
Open Scope N_scope.

Lemma quote_plus_g_true bs : quote_plus_g true bs = quote_plus bs.
Proof. reflexivity. Qed.

Lemma urlencode_g_true ps : urlencode_g true ps = urlencode ps.
Proof. reflexivity. Qed.

Lemma quote_plus_g_roundtrip ts bs : Forall byte bs -> unquote_plus (quote_plus_g ts bs) = bs.
Proof.
  apply unquote_flat_map. intros b rest Hb. unfold quote_byte_g. destruct (negb ts && (b =? TILDE)) eqn:E.
  - apply andb_true_iff in E as [_ E]. apply N.eqb_eq in E. subst b. reflexivity.
  - now apply unquote_quote_byte.
Qed.

Lemma quote_plus_g_alphabet ts bs : Forall byte bs -> forallb url_safe (quote_plus_g ts bs) = true.
Proof.
  apply forallb_flat_map_Forall. intros b Hb. unfold quote_byte_g.
  destruct (negb ts && (b =? TILDE)); [reflexivity|now apply quote_byte_safe].
Qed.

(* one name=value field: the step of parse_qsl_urlencode_g *)
Lemma parse_field_encode_g ts kv : bytes_pair kv -> parse_field (encode_pair_g ts kv) = Some kv.
Proof. exact (parse_field_pair _ (quote_plus_g_roundtrip ts) (quote_plus_g_alphabet ts) kv). Qed.

Theorem parse_qsl_urlencode_g ts ps : Forall bytes_pair ps -> parse_qsl (urlencode_g ts ps) = ps.
Proof. exact (parse_qsl_pairs _ (quote_plus_g_roundtrip ts) (quote_plus_g_alphabet ts) ps). Qed.

(* the octet string determines the parameter list, whichever of the two encoders made it *)
Theorem urlencode_g_inj ts ts' ps ps' : Forall bytes_pair ps -> Forall bytes_pair ps' ->
  urlencode_g ts ps = urlencode_g ts' ps' -> ps = ps'.
Proof.
  intros H H' E. apply (f_equal parse_qsl) in E.
  now rewrite (parse_qsl_urlencode_g ts ps H), (parse_qsl_urlencode_g ts' ps' H') in E.
Qed.

(* the two encoders differ on the tilde only *)
Definition no_tilde (s : str) : Prop := forallb (fun c => negb (c =? TILDE)) s = true.
Definition no_tilde_pair (kv : list N * list N) : Prop := no_tilde (fst kv) /\ no_tilde (snd kv).

Lemma quote_plus_g_no_tilde ts ts' s : no_tilde s -> quote_plus_g ts s = quote_plus_g ts' s.
Proof.
  apply flat_map_ext_on. intros c Hc. apply negb_true_iff in Hc. unfold quote_byte_g. now rewrite Hc, !andb_false_r.
Qed.

Lemma urlencode_g_no_tilde ts ts' ps : Forall no_tilde_pair ps -> urlencode_g ts ps = urlencode_g ts' ps.
Proof.
  intros H. unfold urlencode_g.
  f_equal. apply map_ext_Forall. revert H. apply Forall_impl. intros kv [Hk Hv]. unfold encode_pair_g.
  now rewrite (quote_plus_g_no_tilde ts ts' _ Hk), (quote_plus_g_no_tilde ts ts' _ Hv).
Qed.

Lemma lookup_In k l v : lookup k l = Some v -> In (k, v) l.
Proof.
  induction l as [|[k' v'] l IH]; [discriminate|]. cbn [lookup].
  destruct (str_eqb_spec k k') as [->|Hne]; intros H.
  - injection H as ->. now left.
  - right. now apply IH.
Qed.

Lemma In_ordered o args k v : In (k, v) (ordered o args) -> In k o /\ lookup k args = Some v.
Proof.
  unfold ordered. rewrite in_flat_map. intros [k0 [Hin Hp]]. unfold pick in Hp.
  destruct (lookup k0 args) as [v0|] eqn:E; [|contradiction].
  destruct Hp as [Hp|[]]. injection Hp as -> ->. now split.
Qed.

Lemma ordered_In o args k v : In k o -> lookup k args = Some v -> In (k, v) (ordered o args).
Proof.
  intros Hin Hl. unfold ordered. rewrite in_flat_map. exists k. split; [exact Hin|].
  unfold pick. rewrite Hl. now left.
Qed.

Lemma ordered_Forall (P : str * str -> Prop) o args : Forall P args -> Forall P (ordered o args).
Proof.
  intros H. rewrite Forall_forall in *. intros [k v] Hin. apply In_ordered in Hin as [_ Hl].
  apply lookup_In in Hl. now apply H.
Qed.

(* equal ordered lists give equal look-ups for every name of the (second) order *)
Lemma ordered_eq_lookup o o' args args' k :
  ordered o' args' = ordered o args -> In k o -> In k o' ->
  lookup k args' = lookup k args.
Proof.
  intros E Ho Ho'.
  destruct (lookup k args) as [v|] eqn:L.
  - pose proof (ordered_In o args k v Ho L) as Hin. rewrite <- E in Hin. now apply In_ordered in Hin as [_ ?].
  - destruct (lookup k args') as [v'|] eqn:L'; [|reflexivity].
    pose proof (ordered_In o' args' k v' Ho' L') as Hin. rewrite E in Hin. apply In_ordered in Hin as [_ Hl]. congruence.
Qed.

Lemma strs_eqb_eq a b : strs_eqb a b = true -> a = b.
Proof.
  revert b; induction a as [|x a IH]; intros [|y b]; cbn [strs_eqb]; try discriminate; [reflexivity|].
  intros H. apply andb_true_iff in H as [H1 H2]. apply str_eqb_eq in H1. subst. f_equal. now apply IH.
Qed.

Lemma plain_spec s : plain s = true -> Forall byte s /\ no_tilde s.
Proof.
  unfold plain. intros H. apply andb_true_iff in H as [H1 H2]. split; [now apply forallb_byte|exact H2].
Qed.

Lemma sh_get_setkey_same st a k o : sh_get st a = Some o ->
  sh_get (sh_setkey st a k) a = Some {| so_digest := so_digest o; so_key := k |}.
Proof.
  induction st as [|[a' o'] st IH]; [discriminate|]. cbn [sh_get sh_setkey].
  destruct (str_eqb a a') eqn:E; intros H.
  - injection H as ->. cbn [sh_get]. now rewrite E.
  - cbn [sh_get]. rewrite E. now apply IH.
Qed.

Lemma sh_get_setkey_other st a b k : a <> b -> sh_get (sh_setkey st a k) b = sh_get st b.
Proof.
  intros Hne. induction st as [|[a' o'] st IH]; [reflexivity|]. cbn [sh_setkey].
  destruct (str_eqb_spec a a') as [<-|Hn]; cbn [sh_get].
  - destruct (str_eqb_spec b a) as [->|_]; [congruence|reflexivity].
  - now rewrite IH.
Qed.

(* storing a key neither adds nor removes an algorithm *)
Lemma sh_get_setkey_none st a b k : sh_get (sh_setkey st a k) b = None <-> sh_get st b = None.
Proof.
  destruct (str_eqb_spec a b) as [<-|Hne].
  - destruct (sh_get st a) as [o|] eqn:E.
    + rewrite (sh_get_setkey_same st a k o E). split; discriminate.
    + assert (sh_setkey st a k = st) as ->; [|now rewrite E].
      induction st as [|[a' o'] st IH]; [reflexivity|]. cbn [sh_get sh_setkey] in *.
      destruct (str_eqb a a'); [discriminate|]. now rewrite IH.
  - now rewrite sh_get_setkey_other.
Qed.

(* the state after a step is decided by what the step writes *)
Definition apply_write (st : shared) (w : option (str * option keyid)) : shared :=
  match w with
  | Some (a, v) => match sh_get st a with Some _ => sh_setkey st a v | None => st end
  | None => st
  end.

Lemma step_state T st o : fst (step T st o) = if t_shared T then apply_write st (writes o) else st.
Proof.
  destruct o as [e alg sk0|e typ m rs sigalg h|e q cert sigkey]; cbn [step writes apply_write].
  - unfold get_signer. destruct (sh_get st alg); destruct (t_shared T); reflexivity.
  - now destruct (t_shared T).
  - unfold verify_redirect_signature. destruct (lookup K_ALG (q_params q)) as [alg|]; [|now destruct (t_shared T)].
    unfold get_signer. cbn [apply_write]. destruct (sh_get st alg) as [o|] eqn:E; [|now destruct (t_shared T)].
    destruct (verify_order T (q_params q)); [|now destruct (t_shared T)].
    destruct (q_sig q) as [[s|[|]]|]; try (now destruct (t_shared T)).
    cbn [fst]. destruct (sh_get (if t_shared T then sh_setkey st alg (or_key sigkey e) else st) alg); now destruct (t_shared T).
Qed.

(* fresh signer objects: no step ever changes the table *)
Lemma exec_fresh T tr : t_shared T = false -> forall st, exec T st tr = st.
Proof.
  intros F. induction tr as [|o tr IH]; intros st; [reflexivity|]. cbn [exec]. rewrite step_state, F. apply IH.
Qed.

(* the last value written for algorithm a by a trace *)
Fixpoint last_write (a : str) (tr : list op) (cur : option (option keyid)) : option (option keyid) :=
  match tr with
  | [] => cur
  | o :: r => last_write a r (match writes o with
                              | Some (a', v) => if str_eqb a' a then Some v else cur
                              | None => cur
                              end)
  end.

Lemma apply_write_get st w a :
  sh_get (apply_write st w) a =
  match sh_get st a with
  | None => None
  | Some o => Some match w with
                   | Some (a', v) => if str_eqb a' a then {| so_digest := so_digest o; so_key := v |} else o
                   | None => o
                   end
  end.
Proof.
  destruct w as [[a' v]|]; cbn [apply_write]; [|now destruct (sh_get st a)].
  destruct (str_eqb_spec a' a) as [->|Hne].
  - destruct (sh_get st a) as [o|] eqn:E; [|now rewrite E]. now rewrite (sh_get_setkey_same st a v o E).
  - destruct (sh_get st a') as [o'|]; [|now destruct (sh_get st a)].
    rewrite (sh_get_setkey_other st a' a v Hne). now destruct (sh_get st a).
Qed.

(* the starting value only matters when the trace writes nothing for a *)
Lemma last_write_cur a tr : forall cur,
  last_write a tr cur = match last_write a tr None with Some v => Some v | None => cur end.
Proof.
  induction tr as [|o tr IH]; intros cur; cbn [last_write]; [now destruct cur|].
  destruct (writes o) as [[a' v]|]; [destruct (str_eqb a' a)|]; try apply IH.
  rewrite (IH (Some v)). now destruct (last_write a tr None).
Qed.

Lemma last_write_app a tr1 tr2 : forall cur, last_write a (tr1 ++ tr2) cur = last_write a tr2 (last_write a tr1 cur).
Proof. induction tr1 as [|x tr1 IH]; intros cur; [reflexivity|]. cbn [app last_write]. apply IH. Qed.

(* the algorithm's entry after any trace: same digest, key = last write (or the initial one) *)
Lemma exec_get T tr : t_shared T = true -> forall st a,
  sh_get (exec T st tr) a =
  match sh_get st a with
  | None => None
  | Some o => Some {| so_digest := so_digest o;
                      so_key := match last_write a tr None with Some v => v | None => so_key o end |}
  end.
Proof.
  intros SH. induction tr as [|op tr IH]; intros st a.
  - cbn [exec last_write]. destruct (sh_get st a) as [[d k]|]; reflexivity.
  - cbn [exec last_write]. rewrite IH, step_state, SH, apply_write_get.
    destruct (sh_get st a) as [o|]; [|reflexivity]. f_equal.
    destruct (writes op) as [[a' v]|]; [destruct (str_eqb a' a)|]; cbn [so_digest so_key]; try reflexivity.
    rewrite (last_write_cur a tr (Some v)). now destruct (last_write a tr None).
Qed.

(* no step adds or removes an algorithm *)
Lemma exec_domain T tr st a : sh_get (exec T st tr) a = None <-> sh_get st a = None.
Proof.
  destruct (t_shared T) eqn:SH; [|now rewrite exec_fresh].
  rewrite (exec_get T tr SH). destruct (sh_get st a); split; congruence.
Qed.

(* steps that do not write another key for a keep the key *)
Definition keeps (a : str) (k : option keyid) (o : op) : Prop :=
  forall v, writes o = Some (a, v) -> v = k.

Lemma last_write_keeps a k tr : Forall (keeps a k) tr ->
  forall cur, (cur = None \/ cur = Some k) -> last_write a tr cur = None \/ last_write a tr cur = Some k.
Proof.
  induction 1 as [|o tr Ho _ IH]; intros cur Hc; [exact Hc|]. cbn [last_write]. apply IH.
  destruct (writes o) as [[a' v]|] eqn:W; [|exact Hc].
  destruct (str_eqb_spec a' a) as [->|_]; [|exact Hc]. right. f_equal. now apply Ho.
Qed.

(* the query http_redirect_message makes; its Signature value, at digest_of T alg, is what the harness computes as
   Model/Redirect.v made_sig (the two unfold to the same term) *)
Definition msg_typ (typ : str) : Prop := typ = K_REQ \/ typ = K_RESP.
Definition sign_order (T : tables) (typ : str) : list str := if str_eqb typ K_REQ then t_sreq T else t_sresp T.
Definition args0 (typ m rs alg : str) : list (str * str) := redirect_args typ m rs ++ [(K_ALG, alg)].
Definition sign_string (T : tables) (typ m rs alg : str) : str :=
  urlencode_g (t_sign_tilde T) (ordered (sign_order T typ) (args0 typ m rs alg)).
Definition signed_query (T : tables) (k : keyid) (digest typ m rs alg : str) : query :=
  {| q_params := args0 typ m rs alg; q_sig := Some (SigOf (rsa_sign k digest (sign_string T typ m rs alg))) |}.

Lemma sign_produces T st typ m rs alg h o k :
  msg_typ typ -> mem_str alg (t_allowed T) = true -> sh_get st (fst h) = Some o -> handle_key T o h = Some k ->
  http_redirect_message T st typ m rs alg (Some h) = Ok (signed_query T k (so_digest o) typ m rs alg).
Proof.
  intros Ht Ha Hg Hk. unfold http_redirect_message, signer_sign. rewrite Ha, Hg, Hk.
  destruct Ht as [-> | ->]; reflexivity.
Qed.

(* whatever is returned as a signed query was signed with the key stored for the handle at that moment *)
Lemma sign_used_key T st typ m rs alg h q :
  http_redirect_message T st typ m rs alg (Some h) = Ok q ->
  exists o, sh_get st (fst h) = Some o /\ used_key (Ok q) = handle_key T o h /\ handle_key T o h <> None.
Proof.
  unfold http_redirect_message, signer_sign.
  destruct (str_eqb typ K_REQ || str_eqb typ K_RESP || str_eqb typ K_ART); [|discriminate].
  destruct (mem_str alg (t_allowed T)); [|discriminate].
  destruct (str_eqb typ K_REQ || str_eqb typ K_RESP); [|discriminate].
  destruct (sh_get st (fst h)) as [o|]; [|discriminate]. destruct (handle_key T o h) as [k|] eqn:E; [|discriminate].
  cbn [bind]. intros H. injection H as <-. exists o. cbn [used_key q_sig sg_key rsa_sign]. rewrite E. repeat split; discriminate.
Qed.

Lemma lookup_args0 typ m rs alg : msg_typ typ ->
  lookup typ (args0 typ m rs alg) = Some m /\
  lookup K_RS (args0 typ m rs alg) = (if is_nil rs then None else Some rs) /\
  lookup K_ALG (args0 typ m rs alg) = Some alg /\
  has K_REQ (args0 typ m rs alg) = str_eqb typ K_REQ /\
  has K_RESP (args0 typ m rs alg) = str_eqb typ K_RESP.
Proof.
  intros [-> | ->]; unfold args0, redirect_args, has; destruct rs; cbn; repeat split; reflexivity.
Qed.

Lemma unsigned_no_sig T st typ m rs alg q : http_redirect_message T st typ m rs alg None = Ok q -> q_sig q = None.
Proof. unfold http_redirect_message. destruct (_ || _); [|discriminate]. now intros [= <-]. Qed.

Lemma args0_bytes typ m rs alg : msg_typ typ -> Forall byte m -> Forall byte rs -> Forall byte alg ->
  Forall bytes_pair (args0 typ m rs alg).
Proof.
  intros Ht Hm Hr Ha. assert (Forall byte typ) as Hty by (destruct Ht as [-> | ->]; now apply forallb_byte).
  assert (Forall byte K_RS) as H1 by now apply forallb_byte.
  assert (Forall byte K_ALG) as H2 by now apply forallb_byte.
  unfold args0, redirect_args. destruct (is_nil rs); cbn [app]; repeat constructor; assumption.
Qed.

Lemma args0_no_tilde typ m rs alg : msg_typ typ -> no_tilde m -> no_tilde rs -> no_tilde alg ->
  Forall no_tilde_pair (args0 typ m rs alg).
Proof.
  intros Ht Hm Hr Ha. assert (no_tilde typ) as Hty by (destruct Ht as [-> | ->]; reflexivity).
  unfold args0, redirect_args. destruct (is_nil rs); cbn [app]; repeat constructor; try assumption; reflexivity.
Qed.

Lemma get_signer_none T st e alg sk : sh_get st alg = None -> get_signer T st e alg sk = (st, None).
Proof. unfold get_signer. now intros ->. Qed.

(* get_signer on a supported algorithm: the handle's effective key is the requested one, the digest is the entry's *)
Lemma get_signer_entry T st e alg sk o : sh_get st alg = Some o ->
  exists st' o', get_signer T st e alg sk = (st', Some (alg, or_key sk e)) /\
                 sh_get st' alg = Some o' /\ so_digest o' = so_digest o /\
                 handle_key T o' (alg, or_key sk e) = or_key sk e.
Proof.
  intros Hg. unfold get_signer, handle_key. rewrite Hg. destruct (t_shared T).
  - eexists. eexists. split; [reflexivity|]. rewrite (sh_get_setkey_same st alg _ o Hg). repeat split.
  - exists st, o. repeat split. exact Hg.
Qed.

(* what a successful verification establishes: a supported algorithm, a Signature somebody made and, under an
   explicit certificate, that it was made with that key over the verifier's string *)
Lemma verify_true_inv T st e q cert sk :
  verifies (verify_redirect_signature T st e q cert sk) = true ->
  exists alg o order s,
    lookup K_ALG (q_params q) = Some alg /\ sh_get st alg = Some o /\
    verify_order T (q_params q) = Some order /\ q_sig q = Some (SigOf s) /\
    forall c, cert = Some c ->
      sg_key s = c /\ sg_digest s = so_digest o /\ sg_msg s = verify_string T order (q_params q).
Proof.
  unfold verifies, verify_redirect_signature.
  destruct (lookup K_ALG (q_params q)) as [alg|]; [|discriminate].
  destruct (sh_get st alg) as [o|] eqn:Eg; [|rewrite get_signer_none by exact Eg; discriminate].
  destruct (get_signer_entry T st e alg sk o Eg) as (st' & o' & -> & Eg' & Ed & _).
  destruct (verify_order T (q_params q)) as [order|]; [|discriminate].
  destruct (q_sig q) as [[s|[|]]|]; try discriminate.
  cbn [fst]. rewrite Eg'. cbn [snd]. rewrite Ed. intros V.
  exists alg, o, order, s. split; [reflexivity|]. split; [exact Eg|]. do 2 (split; [reflexivity|]). intros c ->. cbn [or_key] in V.
  destruct (rsa_verify c (so_digest o) (verify_string T order (q_params q)) s) eqn:R; [|discriminate].
  unfold rsa_verify in R. apply andb_true_iff in R as [R R3]. apply andb_true_iff in R as [R1 R2].
  apply N.eqb_eq in R1. apply str_eqb_eq in R2, R3. repeat split; congruence.
Qed.

(* unsupported or missing algorithm: never verifies, whatever the certificate, key, state *)
Lemma verify_unsupported T st e q cert sk :
  (lookup K_ALG (q_params q) = None \/ exists a, lookup K_ALG (q_params q) = Some a /\ sh_get st a = None) ->
  verifies (verify_redirect_signature T st e q cert sk) = false.
Proof.
  intros H. destruct (verifies _) eqn:V; [|reflexivity].
  apply verify_true_inv in V as (alg & o & _ & _ & L & G & _). destruct H as [H|(a & H1 & H2)]; congruence.
Qed.

(* no Signature, or a Signature value nobody made: never verifies *)
Lemma verify_needs_signature T st e q cert sk :
  (forall s, q_sig q <> Some (SigOf s)) -> verifies (verify_redirect_signature T st e q cert sk) = false.
Proof.
  intros H. destruct (verifies _) eqn:V; [|reflexivity].
  apply verify_true_inv in V as (_ & _ & _ & s & _ & _ & _ & S & _). now destruct (H s).
Qed.

Section WithTables.
  Variable T : tables.
  Hypothesis HT : tables_ok T = true.

  Lemma tables_facts :
    t_sreq T = t_vreq T /\ t_sresp T = t_vresp T /\
    (In K_REQ (t_vreq T) /\ In K_RS (t_vreq T) /\ In K_ALG (t_vreq T) /\ ~ In K_RESP (t_vreq T) /\ Forall (fun s => Forall byte s /\ no_tilde s) (t_vreq T)) /\
    (In K_RESP (t_vresp T) /\ In K_RS (t_vresp T) /\ In K_ALG (t_vresp T) /\ ~ In K_REQ (t_vresp T) /\ Forall (fun s => Forall byte s /\ no_tilde s) (t_vresp T)).
  Proof.
    pose proof HT as H. unfold tables_ok in H.
    apply andb_true_iff in H as [H _]. apply andb_true_iff in H as [H _].
    apply andb_true_iff in H as [H Hd]. apply andb_true_iff in H as [H Hc]. apply andb_true_iff in H as [Ha Hb].
    assert (forall own other o, order_ok own other o = true ->
              In own o /\ In K_RS o /\ In K_ALG o /\ ~ In other o /\ Forall (fun s => Forall byte s /\ no_tilde s) o) as G.
    { intros own other o Ho. unfold order_ok in Ho.
      apply andb_true_iff in Ho as [Ho O5]. apply andb_true_iff in Ho as [Ho O4].
      apply andb_true_iff in Ho as [Ho O3]. apply andb_true_iff in Ho as [O1 O2].
      apply mem_str_In in O1, O2, O3. repeat split; try assumption.
      - intros Hin. apply mem_str_In in Hin. now rewrite Hin in O4.
      - rewrite Forall_forall. rewrite forallb_forall in O5. intros s Hs. now apply plain_spec, O5. }
    split; [now apply strs_eqb_eq|]. split; [now apply strs_eqb_eq|]. split; [exact (G _ _ _ Hc)|exact (G _ _ _ Hd)].
  Qed.

  Lemma supported_facts alg : In alg (map fst (t_algs T)) ->
    mem_str alg (t_allowed T) = true /\ Forall byte alg /\ no_tilde alg /\ alg <> [].
  Proof.
    pose proof HT as H. unfold tables_ok in H. apply andb_true_iff in H as [_ H].
    rewrite forallb_forall in H. rewrite in_map_iff. intros [r [<- Hr]]. specialize (H r Hr).
    apply andb_true_iff in H as [H H3]. apply andb_true_iff in H as [H1 H2]. apply plain_spec in H2 as [? ?].
    repeat split; try assumption. intros E. now rewrite E in H3.
  Qed.

  Lemma sign_order_in typ : msg_typ typ ->
    In typ (sign_order T typ) /\ In K_RS (sign_order T typ) /\ In K_ALG (sign_order T typ).
  Proof.
    destruct tables_facts as (E1 & E2 & (A1 & A2 & A3 & _) & (B1 & B2 & B3 & _)).
    intros [-> | ->]; unfold sign_order; cbn [str_eqb]; [rewrite str_eqb_refl, E1|]; try now repeat split.
    replace (str_eqb K_RESP K_REQ) with false by reflexivity. rewrite E2. now repeat split.
  Qed.

  (* the order chosen by the verifier for a query holds RelayState and SigAlg, and says which kind the query is *)
  Lemma verify_order_spec ps order : verify_order T ps = Some order ->
    In K_RS order /\ In K_ALG order /\ (In K_REQ order -> has K_REQ ps = true) /\ (In K_RESP order -> has K_REQ ps = false).
  Proof.
    destruct tables_facts as (_ & _ & (_ & A2 & A3 & A4 & _) & (_ & B2 & B3 & B4 & _)).
    unfold verify_order. destruct (has K_REQ ps); [|destruct (has K_RESP ps); [|discriminate]];
      intros [= <-]; repeat split; auto; intros; contradiction.
  Qed.

  (* ... which, for the parameters the signer made, is the order the signer used *)
  Lemma verify_order_args0 typ m rs alg : msg_typ typ ->
    verify_order T (args0 typ m rs alg) = Some (sign_order T typ).
  Proof.
    intros Ht. destruct (lookup_args0 typ m rs alg Ht) as (_ & _ & _ & L4 & L5).
    destruct tables_facts as (E1 & E2 & _). unfold verify_order, sign_order. rewrite L4, L5. destruct Ht as [-> | ->].
    - now rewrite str_eqb_refl, E1.
    - replace (str_eqb K_RESP K_REQ) with false by reflexivity. now rewrite str_eqb_refl, E2.
  Qed.

  (* (1a) a URL signed with key k verifies under certificate k, provided both sides encode alike *)
  Definition encoders_agree (m rs : str) : Prop :=
    t_sign_tilde T = t_verify_tilde T \/ (no_tilde m /\ no_tilde rs).

  Lemma own_cert_verifies stv e sk k typ m rs alg ov :
    msg_typ typ -> In alg (map fst (t_algs T)) -> sh_get stv alg = Some ov ->
    encoders_agree m rs ->
    verifies (verify_redirect_signature T stv e (signed_query T k (so_digest ov) typ m rs alg) (Some k) sk) = true.
  Proof.
    intros Ht Hal Hg Henc.
    destruct (lookup_args0 typ m rs alg Ht) as (_ & _ & L3 & _).
    destruct (supported_facts alg Hal) as (_ & _ & Hnt & _).
    unfold verifies, verify_redirect_signature, signed_query. cbn [q_params q_sig].
    rewrite L3. destruct (get_signer_entry T stv e alg sk ov Hg) as (st' & o' & -> & Eg' & Ed & _).
    rewrite (verify_order_args0 typ m rs alg Ht). cbn [fst]. rewrite Eg'. cbn [snd or_key]. rewrite Ed.
    unfold rsa_verify, rsa_sign. cbn [sg_key sg_digest sg_msg]. rewrite N.eqb_refl, str_eqb_refl. cbn [andb].
    assert (verify_string T (sign_order T typ) (args0 typ m rs alg) = sign_string T typ m rs alg) as ->; [|now rewrite str_eqb_refl].
    unfold verify_string, sign_string. destruct Henc as [->|[Hm Hr]]; [reflexivity|].
    now apply urlencode_g_no_tilde, ordered_Forall, args0_no_tilde.
  Qed.

  (* (1b,c) whatever verifies with that Signature value carries the signed parameters, under cert k *)
  Lemma binds_query stv e sk k d typ m rs alg q' c :
    msg_typ typ -> Forall byte m -> Forall byte rs -> Forall byte alg ->
    Forall bytes_pair (q_params q') ->
    q_sig q' = q_sig (signed_query T k d typ m rs alg) ->
    verifies (verify_redirect_signature T stv e q' (Some c) sk) = true ->
    c = k /\
    lookup typ (q_params q') = Some m /\
    lookup K_RS (q_params q') = (if is_nil rs then None else Some rs) /\
    lookup K_ALG (q_params q') = Some alg /\
    has K_REQ (q_params q') = str_eqb typ K_REQ.
  Proof.
    intros Ht Hm Hr Ha Hq Hs Hv.
    apply verify_true_inv in Hv as (alg' & o & order & s & V1 & V2 & V3 & V4 & V).
    destruct (V c eq_refl) as (V5 & V6 & V7).
    rewrite Hs in V4. cbn [signed_query q_sig] in V4. injection V4 as <-. cbn [rsa_sign sg_key sg_msg] in *.
    split; [congruence|].
    unfold sign_string, verify_string in V7. apply urlencode_g_inj in V7;
      [| now apply ordered_Forall, args0_bytes | now apply ordered_Forall].
    symmetry in V7.
    destruct (lookup_args0 typ m rs alg Ht) as (L1 & L2 & L3 & L4 & L5).
    destruct (sign_order_in typ Ht) as (S1 & S2 & S3).
    destruct (verify_order_spec _ _ V3) as (O1 & O2 & Oreq & Oresp).
    (* the message parameter itself is among the verifier's ordered parameters *)
    pose proof (ordered_In _ _ typ m S1 L1) as Hin. rewrite <- V7 in Hin. apply In_ordered in Hin as [Hto Hlt].
    repeat split.
    - exact Hlt.
    - transitivity (lookup K_RS (args0 typ m rs alg)); [|exact L2]. now apply (ordered_eq_lookup _ _ _ _ K_RS V7).
    - transitivity (lookup K_ALG (args0 typ m rs alg)); [|exact L3]. now apply (ordered_eq_lookup _ _ _ _ K_ALG V7).
    - destruct Ht as [-> | ->]; [now rewrite Oreq, str_eqb_refl|now rewrite Oresp].
  Qed.
End WithTables.

(* exact characterisation: a Sign step uses the key LAST STORED for its handle's algorithm by any entity *)
Lemma sign_uses_last_writer T st tr e typ m rs sigalg h q : t_shared T = true ->
  snd (step T (exec T st tr) (OSign e typ m rs sigalg (Some h))) = OutSigned (Ok q) ->
  exists o, sh_get st (fst h) = Some o /\
            used_key (Ok q) = match last_write (fst h) tr None with Some v => v | None => so_key o end.
Proof.
  intros SH. cbn [step snd]. intros H. injection H as H. apply sign_used_key in H as (o' & Hg & Hu & _).
  rewrite (exec_get T tr SH) in Hg. destruct (sh_get st (fst h)) as [o|]; [|discriminate]. injection Hg as <-.
  exists o. split; [reflexivity|]. rewrite Hu. unfold handle_key. now rewrite SH.
Qed.

(* own key, provided no step between obtaining the handle and signing stores another key for that algorithm
   (any k0: with shared signer objects the key recorded in the handle itself is never read) *)
Lemma own_key_partial T st pre e a k0 mid typ m rs sigalg q : t_shared T = true ->
  Forall (keeps a e) mid ->
  snd (step T (exec T st (pre ++ OGet e a None :: mid)) (OSign e typ m rs sigalg (Some (a, k0)))) = OutSigned (Ok q) ->
  used_key (Ok q) = e.
Proof.
  intros SH Hmid H. apply (sign_uses_last_writer T _ _ _ _ _ _ _ _ _ SH) in H as (o & Hg & ->). cbn [fst].
  rewrite last_write_app. cbn [last_write writes or_key]. rewrite str_eqb_refl, last_write_cur.
  now destruct (last_write_keeps a e mid Hmid None (or_introl eq_refl)) as [-> | ->].
Qed.

Lemma get_handle_shape T st e a sk h : snd (step T st (OGet e a sk)) = OutHandle (Some h) -> h = (a, or_key sk e).
Proof.
  cbn [step]. unfold get_signer. destruct (sh_get st a); cbn [snd]; [|discriminate]. intros H. now injection H as <-.
Qed.

Lemma out_handle_get T st e a sk h : out_handle (snd (step T st (OGet e a sk))) = Some h -> h = (a, or_key sk e).
Proof.
  intros H. apply (get_handle_shape T st). destruct (snd (step T st (OGet e a sk))); cbn [out_handle] in H; try discriminate.
  now subst.
Qed.

(* fresh signer objects: the handle an entity obtained signs with the key it was asked for - the entity's own key
   for the ordinary call, the sigkey for a call with a sigkey - in ANY state, so whatever anybody (the entity itself
   included) did before or does in between, with or without a sigkey *)
Lemma handle_key_fresh T st0 e a sk h : t_shared T = false ->
  snd (step T st0 (OGet e a sk)) = OutHandle (Some h) ->
  forall st e' typ m rs sigalg q,
    snd (step T st (OSign e' typ m rs sigalg (Some h))) = OutSigned (Ok q) -> used_key (Ok q) = or_key sk e.
Proof.
  intros F Hget st e' typ m rs sigalg q H. apply get_handle_shape in Hget. subst h. cbn [step snd] in H.
  injection H as H. apply sign_used_key in H as (o & _ & -> & _). unfold handle_key. now rewrite F.
Qed.

Lemma own_key_fresh T st0 e a h : t_shared T = false ->
  snd (step T st0 (OGet e a None)) = OutHandle (Some h) ->
  forall st typ m rs sigalg q,
    snd (step T st (OSign e typ m rs sigalg (Some h))) = OutSigned (Ok q) -> used_key (Ok q) = e.
Proof. intros F Hget st typ m rs sigalg q H. exact (handle_key_fresh T st0 e a None h F Hget st e typ m rs sigalg q H). Qed.

(* positions in ONE trace: the i-th output of a run is the step taken in the state after the first i steps *)
Lemma run_nth T tr : forall st i o, nth_error tr i = Some o ->
  nth_error (run T st tr) i = Some (snd (step T (exec T st (firstn i tr)) o)).
Proof.
  induction tr as [|o0 tr IH]; intros st i o H; [destruct i; discriminate|].
  cbn [run]. destruct (step T st o0) as [st' x] eqn:E. destruct i as [|i].
  - cbn in H. injection H as <-. cbn [nth_error firstn exec]. now rewrite E.
  - cbn [nth_error firstn exec] in *. rewrite E. cbn [fst]. now apply IH.
Qed.

(* every Sign step of a trace made with the handle an EARLIER ordinary get_signer step of the same trace returned to
   entity e carries e's key, whatever the other steps of the trace are (sigkey calls of e itself included) *)
Lemma trace_signs_own T tr st i j e a h typ m rs sigalg q : t_shared T = false ->
  nth_error tr i = Some (OGet e a None) -> nth_error (run T st tr) i = Some (OutHandle (Some h)) ->
  nth_error tr j = Some (OSign e typ m rs sigalg (Some h)) -> nth_error (run T st tr) j = Some (OutSigned (Ok q)) ->
  used_key (Ok q) = e.
Proof.
  intros F Hi Ri Hj Rj.
  rewrite (run_nth T tr st i _ Hi) in Ri. rewrite (run_nth T tr st j _ Hj) in Rj.
  assert (snd (step T (exec T st (firstn i tr)) (OGet e a None)) = OutHandle (Some h)) as Ri' by congruence.
  assert (snd (step T (exec T st (firstn j tr)) (OSign e typ m rs sigalg (Some h))) = OutSigned (Ok q)) as Rj' by congruence.
  exact (own_key_fresh T _ e a h F Ri' _ typ m rs sigalg q Rj').
Qed.

(* apply_binding = get_signer ; sign back to back: the caller's own key in EVERY state, for both kinds of tables *)
Lemma apply_binding_own_key T st e resp m rs alg q :
  snd (apply_binding_redirect T st e resp m rs true (Some alg)) = Ok q -> q_sig q <> None -> used_key (Ok q) = e.
Proof.
  unfold apply_binding_redirect. destruct (is_nil alg).
  - cbn [snd]. intros H Hs. now apply unsigned_no_sig in H.
  - destruct (sh_get st alg) as [o|] eqn:Eg.
    + destruct (get_signer_entry T st e alg None o Eg) as (st' & o' & -> & Eg' & _ & Hk). cbn [snd or_key] in *.
      intros H _. apply sign_used_key in H as (o'' & Hg & -> & _). cbn [fst] in Hg. rewrite Eg' in Hg. injection Hg as <-. exact Hk.
    + rewrite get_signer_none by exact Eg. cbn [snd]. intros H Hs. now apply unsigned_no_sig in H.
Qed.

(* scripts (what the schedule unit compares with the real objects): every ordinary Sign / apply_binding step
   of every script shows the acting entity's own key, nothing signed, or an exception.  Induction over the script;
   the invariant says every ordinary handle an entity holds was made from that entity's key. *)
Definition held_ok (held : held_t) : Prop :=
  forall e a h, held_handle e a false held = Some h -> snd h = Some e.

Lemma show_signed_own T st e typ m rs alg oh :
  t_shared T = false -> (forall h, oh = Some h -> snd h = Some e) ->
  let v := show_out (OutSigned (http_redirect_message T st typ m rs alg oh)) in
  v = VL [VZ 1%Z; VZ (Z.of_N e)] \/ v = VL [VZ 1%Z; VNone] \/ exists err, v = VL [VZ 1%Z; VE err].
Proof.
  intros F Hoh. cbn [show_out]. destruct (http_redirect_message T st typ m rs alg oh) as [q|err] eqn:E.
  - destruct oh as [h|].
    + apply sign_used_key in E as (o & _ & -> & _). unfold handle_key. rewrite F, (Hoh h eq_refl). left. reflexivity.
    + right. left. apply unsigned_no_sig in E. cbn [used_key]. now rewrite E.
  - right. right. now exists err.
Qed.

Lemma held_ok_cons held e alg slot oh : held_ok held ->
  (slot = false -> forall h, oh = Some h -> snd h = Some e) -> held_ok ((e, alg, slot, oh) :: held).
Proof.
  intros Hh Hn e0 a0 h0. cbn [held_handle].
  destruct ((e0 =? e) && str_eqb a0 alg && Bool.eqb false slot) eqn:C; [|apply Hh].
  apply andb_true_iff in C as [C S]. apply andb_true_iff in C as [C _]. apply N.eqb_eq in C. subst e0.
  destruct slot; [discriminate|]. now apply Hn.
Qed.

Lemma script_own T : t_shared T = false ->
  forall s st made held, held_ok held -> Forall2 own_step s (run_script T st made held s).
Proof.
  intros F. induction s as [|x s IH]; intros st made held Hh; [constructor|].
  destruct x as [e alg|e alg k|e resp m rs alg|e resp m rs alg|e resp m rs alg|e alg cert sk]; cbn [run_script].
  (* surjective_pairing: to get through the let '(st', x) := step ... of run_script without naming the pair *)
  - rewrite (surjective_pairing (step T st (OGet (Some e) alg None))). constructor; [exact I|].
    apply IH, held_ok_cons; [exact Hh|]. intros _ h Hx. apply out_handle_get in Hx. now subst h.
  - rewrite (surjective_pairing (step T st (OGet (Some e) alg (Some k)))). constructor; [exact I|].
    apply IH, held_ok_cons; [exact Hh|discriminate].
  - cbn [step]. constructor; [|now apply IH].
    apply (show_signed_own T st e _ m rs alg _ F). intros h. apply Hh.
  - cbn [step]. constructor; [exact I|now apply IH].
  - rewrite (surjective_pairing (step T st (OGet (Some e) alg None))). cbn [step]. constructor; [|now apply IH].
    apply (show_signed_own T _ e _ m rs alg _ F). intros h Hx. apply out_handle_get in Hx. now subst h.
  - rewrite (surjective_pairing (step T st (OVerify (Some e) (find_query alg made) cert sk))).
    constructor; [exact I|now apply IH].
Qed.

(* ... and the initial table holds exactly the SIGNER_ALGS keys *)
Lemma init_shared_domain T a : sh_get (init_shared T) a = None <-> ~ In a (map fst (t_algs T)).
Proof.
  unfold init_shared. induction (t_algs T) as [|[u d] l IH]; cbn [map sh_get fst snd In].
  - split; [tauto|reflexivity].
  - destruct (str_eqb_spec a u) as [->|Hne].
    + split; [discriminate|]. intros H. exfalso. apply H. now left.
    + rewrite IH. split; [intros H [E|E]; [congruence|contradiction]|tauto].
Qed.

(* the regenerated flag: get_signer makes a fresh signer object per call *)
Lemma actual_fresh_signer : t_shared actual = false.
Proof. reflexivity. Qed.
