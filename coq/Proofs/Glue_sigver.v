(* Proofs/Glue_sigver.v — GLUE:
   (a) the last step of SecurityContext._check_signature: Model/Sigver.v check_signature_runs (C20; used by
       Model/CertSelect.v for C03) versus the step written out in Model/Request.v check_sig (C10, with the F16 switch).
       Request.check_sig IS check_signature_runs on the per-certificate tool verdicts (F16 repaired: fixd = true) resp.
       check_signature_runs_before_fix (fixd = false), only_valid_cert passed through unchanged.
   (b) Request.verify: Model/Status.v request_verify (C06's file) versus Model/Request.v verify (C10): one function
       through verify_view, defined here (the theorem is Glue_request_verify_same in Props/Glue.v). *)
From PV Require Import Lib.Base Model.Sigver Proofs.Sigver_lemmas.
From PV Require Model.CertSelect Model.Xmlsec Model.Status Model.Request Proofs.CertSelect_lemmas.
Module CS := PV.Model.CertSelect.
Module RQ := PV.Model.Request.
Module ST := PV.Model.Status.
Open Scope N_scope.

(* the tool run for one candidate certificate, given the tool's verdict on it (signer 0 against certificate 0 or 1:
   any equal / unequal pair would do) *)
Definition run_of (b : bool) : tool_result := CS.tool_for 0 (if b then 0 else 1).

Lemma validate_run_of b : validate_signature (run_of b) = if b then Ok true else Err XmlsecError.
Proof. destruct b; reflexivity. Qed.

Lemma cert_loop_run_of {A} (f : A -> bool) l : cert_loop (map (fun k => run_of (f k)) l) = Ok (existsb f l).
Proof. apply (cert_loop_decided (fun k => run_of (f k)) f). intros k. apply validate_run_of. Qed.

(* verify_cert(last_pem_file): the certificate that verified, else the last one tried *)
Definition last_tried_valid (c : RQ.rcfg) (v : option N) (certs : list N) : bool :=
  match (match v with Some k => Some k | None => last (map Some certs) None end) with
  | Some k => RQ.cert_ok c k
  | None => true
  end.

Theorem request_check_sig_is_check_signature_runs pre fixd c d nm ovc :
  RQ.check_sig pre fixd c d nm ovc =
  match RQ.request_certs c d with
  | Err e => Err e
  | Ok certs =>
      let i := RQ.root_id (RQ.d_tree d) in
      if pre && negb (RQ.enveloped_ok (RQ.d_tree d) nm i) then Err (s2l "SignatureError") else
      let f := Xmlsec.tool_verify (RQ.c_dupfail c) (RQ.d_tree d) nm (RQ.node_id_arg i) in
      (if fixd then check_signature_runs else check_signature_runs_before_fix)
        false (map (fun k => run_of (f k)) certs) ovc (last_tried_valid c (find f certs) certs)
  end.
Proof.
  unfold RQ.check_sig. destruct (RQ.request_certs c d) as [certs|e]; [|reflexivity]. cbv zeta.
  destruct (pre && negb (RQ.enveloped_ok (RQ.d_tree d) nm (RQ.root_id (RQ.d_tree d)))); [reflexivity|].
  destruct fixd; unfold check_signature_runs, check_signature_runs_before_fix, RQ.verifying_cert, last_tried_valid;
    rewrite cert_loop_run_of, find_existsb;
    destruct (find (Xmlsec.tool_verify (RQ.c_dupfail c) (RQ.d_tree d) nm (RQ.node_id_arg (RQ.root_id (RQ.d_tree d)))) certs) as [k|];
    cbn [orb]; try reflexivity.
Qed.

(* the input of Status.request_verify read off a Request.v document *)
Definition verify_view (c : RQ.rcfg) (addrs : list RQ.addr) (d : RQ.reqdoc) : ST.req_verify_in :=
  {| ST.r_version := RQ.d_version d;
     ST.r_dest_present := RQ.truthy (RQ.d_destination d);
     ST.r_have_addrs := negb (CS.nilb addrs);
     ST.r_dest_in_addrs := match RQ.d_destination d with Some x => RQ.addr_mem x addrs | None => false end;
     ST.r_issue_ok := match RQ.d_issue_instant d with
                      | None => Err (s2l "ValueError")
                      | Some t => Ok (RQ.issue_instant_ok c t)
                      end |}.

