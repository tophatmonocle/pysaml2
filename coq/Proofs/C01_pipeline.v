(* Proofs/C01_pipeline.v — for composing the element-level statement (Xsw_lemmas) with the SP pipeline model
   (Model/Response.v, whose signature verdicts are inputs): the vocabulary (elem_covered), when an element is covered
   by nothing (not_covered_at, for the refutation witnesses), and which assertions reach self.assertions. *)
From PV Require Import Lib.Base Model.Status Model.Response Model.Xsw
  Proofs.Response_lemmas Proofs.Rel_lemmas Proofs.C02_lemmas Proofs.Xsw_lemmas.

Definition elem_covered (certs : list N) (doc : tree) (nm : N) (i : option str) : Prop :=
  exists v px X k D, i = Some v /\ covered doc nm v certs px X k D.

(* an element that carries the ID but has no signature child over "#ID" is not what any [covered] speaks about *)
Lemma not_covered_at doc nm v certs q Y :
  subtree_at q doc = Some Y -> t_id Y = Some v ->
  (forall k key sid spl skids D, nth_error (t_kids Y) k <> Some (Sg [(HASH :: v, D)] key true sid spl skids)) ->
  forall px X k D, ~ covered doc nm v certs px X k D.
Proof.
  intros Hq Hi Hno px X k D [_ Hat _ Huniq Hsig _ _ _].
  rewrite <- (Huniq q Y Hq Hi), Hq in Hat. injection Hat as <-.
  destruct Hsig as (key & sid & spl & skids & Hk & _). exact (Hno _ _ _ _ _ _ Hk).
Qed.

Open Scope Z_scope.

(* self.assertions only ever receives assertions that were processed: the checks of one assertion leave it
   alone, the loops append exactly the assertions they have passed *)
Lemma acc_check_assertion c irt req v s a s' : check_assertion c irt req v s a = Ok s' -> acc s' = acc s.
Proof.
  intros H. destruct (check_assertion_ok _ _ _ _ _ _ _ H) as (s1 & s2 & kept & s3 & _ & Ea & Ec & Eg & ->).
  destruct (authn_statement_ok_ok _ _ _ _ Ea) as (sn & _ & _ & ->). destruct (condition_ok_frame _ _ _ _ _ Ec) as [o ->].
  destruct (subject_loop_ok _ _ _ _ _ _ (proj2 (get_subject_ok _ _ _ _ _ _ Eg))) as ((w & ->) & _).
  destruct (a_name_id a), o, sn; reflexivity.
Qed.

Lemma acc_check_assertions c irt req v push : forall l s s',
  check_assertions c irt req v push s l = Ok s' -> acc s' = acc s ++ (if push then map a_id l else []).
Proof.
  induction l as [|a l IH]; intros s s'; cbn [check_assertions map].
  - intros H; injection H as <-. destruct push; now rewrite app_nil_r.
  - destruct (check_assertion c irt req v s a) as [t|] eqn:E; [|discriminate]. intros H.
    apply IH in H. apply acc_check_assertion in E. rewrite H.
    destruct push; cbn [acc push_acc]; rewrite E; [rewrite <- app_assoc|]; reflexivity.
Qed.

Lemma acc_parse_assertion c req s r s' :
  parse_assertion c req s r = Ok s' -> acc s' = acc s ++ map a_id (processed r).
Proof.
  rewrite parse_assertion_eq. destruct (negb _); [discriminate|].
  destruct (check_assertions c (r_irt r) req false false s (r_assertions r)) as [s1|] eqn:E1; [|discriminate].
  destruct (verify_decrypted (decrypted_prefix (r_encrypted r))); [|discriminate].
  destruct (check_assertions c (r_irt r) req true true s1 (decrypted_prefix (r_encrypted r))) as [s2|] eqn:E2; [|discriminate].
  intros H; injection H as <-. apply acc_check_assertions in E1, E2.
  cbn [push_all acc]. rewrite E2, E1, app_nil_r. unfold processed. now rewrite map_app, app_assoc.
Qed.

(* a failed attempt leaves behind some of the decrypted assertions *)
Lemma acc_after_failure_incl c irt req v : forall l s,
  incl (acc (acc_after_failure c irt req v s l)) (acc s ++ map a_id l).
Proof.
  induction l as [|a l IH]; intros s; cbn [acc_after_failure map].
  - rewrite app_nil_r. apply incl_refl.
  - destruct (check_assertion c irt req v s a) as [t|] eqn:E; [|apply incl_appl, incl_refl].
    apply acc_check_assertion in E. specialize (IH (push_acc t (a_id a))).
    cbn [acc push_acc] in IH. rewrite <- app_assoc, E in IH. exact IH.
Qed.

Lemma acc_residue c req s r :
  incl (acc (parse_assertion_residue c req s r)) (acc s ++ map a_id (processed r)).
Proof.
  unfold parse_assertion_residue, processed. rewrite map_app.
  destruct (check_assertions c (r_irt r) req false false s (r_assertions r)) as [s1|] eqn:E1; [|apply incl_appl, incl_refl].
  apply acc_check_assertions in E1. rewrite app_nil_r in E1.
  destruct (verify_decrypted (decrypted_prefix (r_encrypted r))); [|apply incl_appl, incl_refl].
  cbn [acc]. eapply incl_tran; [apply acc_after_failure_incl|]. rewrite E1, app_assoc. apply incl_appl, incl_refl.
Qed.

(* what reaches the application was processed: through the retry structure of Entity._parse_response and the state
   a failed first attempt leaves behind *)
Lemma accepted_acc c r o : parse_response c r = Ok o -> incl (o_assertions o) (map a_id (processed r)).
Proof.
  intros H. destruct (parse_response_ok c r o H) as (s & b1 & s0 & b2 & s' & _ & L & _ & Hv & _ & Hs0 & _ & -> & _).
  destruct (loads_fields _ _ _ _ L) as (_ & _ & A0). destruct (verify_some _ _ _ _ _ Hv) as (_ & Hp & _).
  rewrite (acc_parse_assertion _ _ _ _ _ Hp). apply incl_app; [|apply incl_refl].
  (* the attempt that succeeded started from nothing, or from what the failed one left *)
  destruct Hs0 as [->|[_ ->]]; [rewrite A0; apply incl_nil_l|]. pose proof (acc_residue c true s r) as I. now rewrite A0 in I.
Qed.
