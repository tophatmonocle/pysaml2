(* C01 - whether the id reaches the tool at all (Model/XswOpts.v): any hand-over that passes every non-empty id on
   keeps the covered statement *)
From PV Require Import Lib.Base Model.Xsw Model.XswOpts Proofs.Xsw_lemmas.
Import ListNotations.
Open Scope N_scope.

(* the id always handed over => the C01 statement for EVERY id string: no condition on its characters *)
Theorem handed_over_is_covered h pol doc nm v certs :
  (v <> [] -> h v = Some v) ->
  check_signature_h h pol doc nm (Some v) certs = true ->
  exists px X k D, covered doc nm v certs px X k D.
Proof.
  intros Hh H. destruct v as [|c r]; [cbn in H; discriminate|].
  unfold check_signature_h in H. rewrite Hh in H by discriminate.
  exact (relied_is_covered_some _ _ _ _ _ H).
Qed.

