(* Proofs/CertValidity_lemmas.v — the validity window of a certificate is carried through the certificate
   selection of _check_signature and read nowhere: erasure onto Model/CertSelect.v, re-dating invariance,
   and the fallback to KeyInfo certificates decided by the DECLARED metadata list alone. *)
From PV Require Import Lib.Base Model.Sigver Model.CertSelect Model.CertValidity Proofs.Sigver_lemmas Proofs.Dedup Proofs.CertSelect_lemmas.
Open Scope N_scope.

Lemma validity_eqb_eq a b : validity_eqb a b = true <-> a = b.
Proof. destruct a, b; cbn; split; intros H; try reflexivity; discriminate. Qed.

Lemma cert_eqb_eq a b : cert_eqb a b = true <-> a = b.
Proof.
  destruct a as [ka va], b as [kb vb]. unfold cert_eqb. cbn [c_key c_valid].
  rewrite andb_true_iff, N.eqb_eq, validity_eqb_eq. split.
  - intros [-> ->]. reflexivity.
  - intros H. injection H as -> ->. split; reflexivity.
Qed.

Lemma vextract_certs_In use r : forall res x,
  In x (vextract_certs use r res) <-> In x res \/ exists kd, In kd r /\ vuse_matches use kd = true /\ In x (vkd_certs kd).
Proof. exact (gextract_In cert_eqb cert_eqb_eq vkd_use vkd_certs use r). Qed.

(* certs() with the dates: exactly the certificates (whatever their window) of the use-matching key descriptors
   of THAT entity *)
Lemma vmd_certs_spec m eid use l :
  vmd_certs m eid use = Some l ->
  exists i e, eid = Some i /\ vfind_entity m i = Some e /\
    forall x, In x l <-> exists r kd, In r e /\ In kd r /\ vuse_matches use kd = true /\ In x (vkd_certs kd).
Proof.
  unfold vmd_certs. destruct eid as [i|]; [|discriminate]. destruct (vfind_entity m i) as [e|] eqn:F; [|discriminate].
  intros H. injection H as <-. exists i, e. split; [reflexivity|]. split; [exact F|].
  exact (gextract_flat_In cert_eqb cert_eqb_eq vkd_use vkd_certs use e).
Qed.

Definition same_keys (a b : list N) : Prop := forall k, In k a <-> In k b.

Lemma same_keys_nil a b : same_keys a b -> nilb a = nilb b.
Proof.
  intros H. destruct a as [|x a], b as [|y b]; try reflexivity.
  - destruct (proj2 (H y)); now left.
  - destruct (proj1 (H x)); now left.
Qed.

Lemma same_keys_mem a b s : same_keys a b -> memN s a = memN s b.
Proof. intros H. apply Bool.eq_iff_eq_true. rewrite !memN_In. apply H. Qed.

Lemma verdict_same_keys a b s : same_keys a b -> verdict_of_keys a s = verdict_of_keys b s.
Proof.
  intros H. unfold verdict_of_keys. pose proof (same_keys_nil _ _ H) as Hn. rewrite (same_keys_mem _ _ s H).
  destruct a, b; try discriminate; reflexivity.
Qed.

Definition vchosen (metadata_present : bool) (m : vmdstore) (issuer : option str) (only_md : bool) (embedded : list cert) : list cert :=
  if consults_embedded metadata_present m issuer only_md then embedded else declared_signing metadata_present m issuer.

(* a declared certificate closes the fallback to KeyInfo, under either setting *)
Lemma vchosen_declared mp m issuer only_md embedded c :
  In c (declared_signing mp m issuer) ->
  consults_embedded mp m issuer only_md = false /\ vchosen mp m issuer only_md embedded = declared_signing mp m issuer.
Proof.
  intros Hc. unfold vchosen, consults_embedded. destruct (declared_signing mp m issuer); [destruct Hc|]. now split.
Qed.

Lemma vcheck_signature_verdict mp m issuer only_md embedded signer :
  vcheck_signature mp m issuer only_md embedded signer = verdict_of_keys (map c_key (vchosen mp m issuer only_md embedded)) signer.
Proof.
  unfold vcheck_signature, vcandidate_certs. fold (vchosen mp m issuer only_md embedded).
  destruct (vchosen mp m issuer only_md embedded) as [|c l]; [reflexivity|].
  unfold vtool_for. rewrite <- (map_map c_key (tool_for signer)). apply runs_tool_for.
Qed.

Lemma vuse_erase use kd : use_matches use (erase_kd kd) = vuse_matches use kd.
Proof. reflexivity. Qed.

Lemma find_erase m i : find_entity (erase_md m) i = option_map erase_entity (vfind_entity m i).
Proof.
  induction m as [|[k e] m IH]; [reflexivity|]. cbn [erase_md map find_entity vfind_entity fst snd].
  destruct (str_eqb i k); [reflexivity|exact IH].
Qed.

Lemma extract_erase use r : same_keys (map c_key (vextract_certs use r [])) (extract_certs use (map erase_kd r) []).
Proof.
  intros k. rewrite in_map_iff, extract_certs_In. split.
  - intros (c & <- & Hc). apply vextract_certs_In in Hc as [[]|(kd & Hk & Hu & Hx)].
    right. exists (erase_kd kd). split; [now apply in_map|]. split; [exact Hu|]. cbn [erase_kd kd_certs]. now apply in_map.
  - intros [[]|(kd' & Hk & Hu & Hx)]. apply in_map_iff in Hk as (kd & <- & Hk). cbn [erase_kd kd_certs] in Hx.
    apply in_map_iff in Hx as (c & <- & Hc). exists c. split; [reflexivity|]. apply vextract_certs_In. right. now exists kd.
Qed.

Lemma flat_erase use e :
  same_keys (map c_key (flat_map (fun r => vextract_certs use r []) e)) (flat_map (fun r => extract_certs use r []) (erase_entity e)).
Proof.
  intros k. unfold erase_entity. rewrite in_map_iff, in_flat_map. split.
  - intros (c & <- & Hc). apply in_flat_map in Hc as (r & Hr & Hc). exists (map erase_kd r). split; [now apply in_map|].
    apply extract_erase. now apply in_map.
  - intros (r' & Hr & Hk). apply in_map_iff in Hr as (r & <- & Hr). apply extract_erase in Hk.
    apply in_map_iff in Hk as (c & <- & Hc). exists c. split; [reflexivity|]. apply in_flat_map. now exists r.
Qed.

Lemma declared_erase mp m issuer :
  same_keys (map c_key (declared_signing mp m issuer))
            (if mp then match md_certs (erase_md m) issuer SIGNING with Some l => l | None => [] end else []).
Proof.
  unfold declared_signing, vmd_certs, md_certs. destruct mp; [|intros k; reflexivity].
  destruct issuer as [i|]; [|intros k; reflexivity]. rewrite find_erase.
  destruct (vfind_entity m i) as [e|]; [|intros k; reflexivity]. cbn [option_map]. apply flat_erase.
Qed.

Lemma nilb_map {A B} (f : A -> B) l : nilb (map f l) = nilb l.
Proof. destruct l; reflexivity. Qed.

Lemma chosen_erase mp m issuer only_md embedded :
  same_keys (map c_key (vchosen mp m issuer only_md embedded))
            (chosen_of mp (md_certs (erase_md m) issuer SIGNING) only_md (map c_key embedded)).
Proof.
  unfold vchosen, chosen_of, consults_embedded. cbv zeta. pose proof (declared_erase mp m issuer) as H.
  rewrite <- (same_keys_nil _ _ H), nilb_map.
  destruct (nilb (declared_signing mp m issuer) && negb only_md); [intros k; reflexivity|exact H].
Qed.

(* the validity-aware model and the model that does not know about dates give the same verdict *)
Theorem vcheck_erase mp m issuer only_md embedded signer :
  vcheck_signature mp m issuer only_md embedded signer =
  check_signature mp (erase_md m) issuer only_md (map c_key embedded) signer.
Proof. rewrite vcheck_signature_verdict, check_signature_verdict. apply verdict_same_keys, chosen_erase. Qed.

Lemma erase_redate f m : erase_md (redate_md f m) = erase_md m.
Proof.
  unfold erase_md, redate_md. rewrite map_map. apply map_ext. intros [k e]. cbn [fst snd]. f_equal.
  unfold erase_entity. rewrite map_map. apply map_ext. intros r. rewrite map_map. apply map_ext. intros kd.
  unfold erase_kd, redate_kd. cbn [vkd_use vkd_certs]. f_equal. rewrite map_map. apply map_ext. reflexivity.
Qed.

(* give every certificate - in metadata and in KeyInfo - any other validity window: same verdict *)
Theorem vcheck_redate f g mp m issuer only_md embedded signer :
  vcheck_signature mp (redate_md f m) issuer only_md (map (redate_cert g) embedded) signer =
  vcheck_signature mp m issuer only_md embedded signer.
Proof. rewrite !vcheck_erase, erase_redate, map_map. reflexivity. Qed.

(* the declared list itself does not depend on the dates (its keys, in particular whether it is empty) *)
Lemma declared_redate f mp m issuer :
  same_keys (map c_key (declared_signing mp (redate_md f m) issuer)) (map c_key (declared_signing mp m issuer)).
Proof. intros k. rewrite (declared_erase mp (redate_md f m) issuer k), erase_redate. symmetry. apply declared_erase. Qed.

Lemma consults_embedded_redate f mp m issuer only_md :
  consults_embedded mp (redate_md f m) issuer only_md = consults_embedded mp m issuer only_md.
Proof. unfold consults_embedded. f_equal. rewrite <- !(nilb_map c_key). apply same_keys_nil, declared_redate. Qed.

(* acceptance, with the dates visible: the key is held by a certificate DECLARED for the issuer (default setting) *)
Lemma vcheck_accepts_declared mp m issuer embedded signer :
  vcheck_signature mp m issuer true embedded signer = Ok tt ->
  exists c, In c (declared_signing mp m issuer) /\ c_key c = signer.
Proof.
  rewrite vcheck_signature_verdict, verdict_of_keys_ok. unfold vchosen, consults_embedded. rewrite andb_false_r.
  intros M. apply in_map_iff in M as (c & Hk & Hc). now exists c.
Qed.
