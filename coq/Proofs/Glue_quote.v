(* Proofs/Glue_quote.v — GLUE between the copies of urllib percent-encoding:

     Model/Codec.v     quote_byte plus / quote / quote_plus / urlencode    (C14: proved round trips)
     Model/Redirect.v  quote_byte_g ts / quote_plus_g / urlencode_g        (C15: the tilde flag of the backport)
     Model/Ident.v     quote_byte_s / quote_s, code, decode                (C18: quote with its default safe=/)
     Model/Cache.v     quote_id_byte / quote_id, code, decode              (C19: the cache key, the same ident.code)

   One general encoder [quote_x plus exc] (Codec.quote_byte except where [exc] names another spelling) with ONE
   round-trip / injectivity theorem from C14's unquote_quote_byte; the four copies are instances; Ident.code and
   Cache.code are the same function through the obvious reading of a name identifier; Cache.decode is defined through
   Ident.decode (one decoder on every string; Cache.decode_one_digit, which reads int() for one digit only, differs off
   the image of code: Props/Glue.v, Glue_ident_decode_one_digit_witness). *)
From PV Require Import Lib.Base Model.Codec Proofs.Base64_lemmas Proofs.Url_lemmas.
From PV Require Model.Redirect Model.Ident Model.Cache Proofs.Redirect_lemmas Proofs.Ident_lemmas Proofs.CacheKey_lemmas.
Module RD := PV.Model.Redirect.
Module ID := PV.Model.Ident.
Module CA := PV.Model.Cache.
Module IDL := PV.Proofs.Ident_lemmas.
Module CAL := PV.Proofs.CacheKey_lemmas.
Open Scope N_scope.

Definition quote_byte_x (plus : bool) (exc : N -> option str) (b : N) : str :=
  match exc b with Some s => s | None => quote_byte plus b end.
Definition quote_x (plus : bool) (exc : N -> option str) (bs : list N) : str := flat_map (quote_byte_x plus exc) bs.

(* an exceptional spelling must itself decode to the byte *)
Definition exc_ok (plus : bool) (exc : N -> option str) : Prop :=
  forall b s rest, exc b = Some s -> unquote_gen plus (s ++ rest) = b :: unquote_gen plus rest.

Theorem unquote_quote_x plus exc bs :
  exc_ok plus exc -> Forall byte bs -> unquote_gen plus (quote_x plus exc bs) = bs.
Proof.
  intros He. apply unquote_flat_map. intros b rest Hb. unfold quote_byte_x. destruct (exc b) as [s|] eqn:E.
  - exact (He b s rest E).
  - exact (unquote_quote_byte plus b rest Hb).
Qed.

Theorem quote_x_injective plus exc a b :
  exc_ok plus exc -> Forall byte a -> Forall byte b -> quote_x plus exc a = quote_x plus exc b -> a = b.
Proof.
  intros He Ha Hb H. rewrite <- (unquote_quote_x plus exc a He Ha), <- (unquote_quote_x plus exc b He Hb). now rewrite H.
Qed.

(* no exception (Codec), the slash kept (Ident, Cache: safe=/), the tilde encoded unless ts (Redirect) *)
Definition exc_none (b : N) : option str := None.
Definition exc_slash (b : N) : option str := if b =? 47 then Some [47] else None.
Definition exc_tilde (ts : bool) (b : N) : option str := if negb ts && (b =? 126) then Some [PCT; 55; 69] else None.

Lemma exc_none_ok plus : exc_ok plus exc_none.
Proof. intros b s rest H. discriminate. Qed.
Lemma exc_slash_ok plus : exc_ok plus exc_slash.
Proof.
  intros b s rest H. unfold exc_slash in H. destruct (b =? 47) eqn:E; [|discriminate]. injection H as <-.
  apply N.eqb_eq in E. subst b. destruct plus; reflexivity.
Qed.
Lemma exc_tilde_ok plus ts : exc_ok plus (exc_tilde ts).
Proof.
  intros b s rest H. unfold exc_tilde in H. destruct (negb ts && (b =? 126)) eqn:E; [|discriminate]. injection H as <-.
  apply andb_true_iff in E as [_ E]. apply N.eqb_eq in E. subst b. destruct plus; reflexivity.
Qed.

Lemma codec_quote_is_x bs : quote bs = quote_x false exc_none bs /\ quote_plus bs = quote_x true exc_none bs.
Proof. split; reflexivity. Qed.

Lemma redirect_quote_is_x ts bs : RD.quote_plus_g ts bs = quote_x true (exc_tilde ts) bs.
Proof.
  unfold RD.quote_plus_g, quote_x. apply flat_map_ext. intros b. unfold RD.quote_byte_g, quote_byte_x, exc_tilde, RD.TILDE.
  destruct (negb ts && (b =? 126)); reflexivity.
Qed.

Lemma ident_quote_is_x bs : ID.quote_s bs = quote_x false exc_slash bs.
Proof.
  unfold ID.quote_s, quote_x. apply flat_map_ext. intros b. unfold ID.quote_byte_s, quote_byte_x, exc_slash, ID.SLASH.
  destruct (b =? 47); reflexivity.
Qed.

(* Model/Cache.v's quote_id is Model/Ident.v's quote_s, definition for definition *)
Lemma cache_quote_is_x bs : CA.quote_id bs = quote_x false exc_slash bs.
Proof. exact (ident_quote_is_x bs). Qed.

(* ... equal to C14's quote (safe empty) off the slash, and C15's to C14's quote_plus off the tilde / with the flag on *)
Theorem quote_s_is_codec_quote bs : forallb (fun c => negb (c =? 47)) bs = true -> ID.quote_s bs = quote bs.
Proof.
  apply flat_map_ext_on. intros b Hb. apply negb_true_iff in Hb. unfold ID.quote_byte_s, ID.SLASH. now rewrite Hb.
Qed.

Theorem quote_plus_g_is_codec_quote_plus ts bs :
  ts = true \/ forallb (fun c => negb (c =? 126)) bs = true -> RD.quote_plus_g ts bs = quote_plus bs.
Proof.
  intros [->|H]; [apply Redirect_lemmas.quote_plus_g_true|exact (Redirect_lemmas.quote_plus_g_no_tilde ts true bs H)].
Qed.

(* whole queries: C15's urlencode_g is C14's urlencode with the flag on, or when no name / value holds a tilde *)
Theorem urlencode_g_is_codec_urlencode ts ps :
  ts = true \/ Forall Redirect_lemmas.no_tilde_pair ps -> RD.urlencode_g ts ps = urlencode ps.
Proof.
  intros [->|H]; [apply Redirect_lemmas.urlencode_g_true|exact (Redirect_lemmas.urlencode_g_no_tilde ts true ps H)].
Qed.

(* Cache.v writes an absent / empty attribute as the empty string: Model/Cache.v of_ident *)
Definition od (o : option str) : str := CA.od o.
Definition toC (n : ID.nameid) : CA.nameid := CA.of_ident n.

Theorem code_same n : CA.code (toC n) = ID.code n.
Proof. exact (CAL.code_of_ident n). Qed.

Lemma od_bytes o : IDL.obytes o -> Forall byte (od o).
Proof.
  intros H. unfold od, CA.od. destruct (ID.tr o) as [v|] eqn:E; [|constructor]. exact (IDL.tr_bytes _ _ H E).
Qed.

Lemma toC_bytes n : IDL.wfb n -> CAL.byte_nid (toC n).
Proof. intros (H1 & H2 & H3 & H4 & H5). repeat split; cbn; now apply od_bytes. Qed.

Lemma toC_norm n : toC (ID.norm n) = toC n.
Proof. exact (CAL.of_ident_norm n). Qed.

(* ident.decode: Model/Cache.v's decoder IS Model/Ident.v's, on EVERY string (it is defined through it) *)
Theorem decode_same s :
  CA.decode s = match ID.decode s with Ok m => Ok (toC m) | Err e => Err e end.
Proof. reflexivity. Qed.

Example code_example :
  let n := ID.NameId (Some (s2l "http://idp/x y")) None (Some []) None (Some (s2l "a~b,c=d")) in
  ID.code n = s2l "0=http%3A//idp/x%20y,4=a~b%2Cc%3Dd" /\ CA.code (toC n) = ID.code n /\
  CA.decode (ID.code n) = Ok (toC n) /\ ID.decode (ID.code n) = Ok (ID.norm n).
Proof. vm_compute. repeat split; reflexivity. Qed.
