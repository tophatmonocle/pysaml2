(* Proofs/Base64_lemmas.v — [byte], and base64: the 24-bit arithmetic of one group (three octets = four sextets),
   the alphabet table (a finite check over 0..63), and b64dec (b64enc bs) = Some bs by induction in steps of three. *)
From PV Require Import Lib.Base Model.Codec.
From Coq Require Import ZifyN ZifyBool.
Open Scope N_scope.
(* lia reads n / 64 and n mod 64 through their Euclidean equations; in this file only *)
Local Ltac Zify.zify_post_hook ::= Z.to_euclidean_division_equations.

Definition byte (b : N) : Prop := b < 256.

Lemma forallb_byte s : forallb (fun b => b <? 256) s = true -> Forall byte s.
Proof. rewrite forallb_forall, Forall_forall. intros H b Hb. now apply N.ltb_lt, H. Qed.

(* 24 bits as four sextets and as three octets *)
Lemma unpack_sx n : unpack4 (sx0 n) (sx1 n) (sx2 n) (sx3 n) = n.
Proof. unfold unpack4, sx0, sx1, sx2, sx3. lia. Qed.

Lemma sx_lt a b c : byte a -> byte b -> byte c ->
  let n := pack3 a b c in sx0 n < 64 /\ sx1 n < 64 /\ sx2 n < 64 /\ sx3 n < 64.
Proof. unfold byte, pack3, sx0, sx1, sx2, sx3. intros. repeat split; lia. Qed.

Lemma by_pack a b c : byte b -> byte c ->
  by0 (pack3 a b c) = a /\ by1 (pack3 a b c) = b /\ by2 (pack3 a b c) = c.
Proof. unfold byte, pack3, by0, by1, by2. intros. repeat split; lia. Qed.

(* the sextets that padding replaces are zero *)
Lemma unpack_pad1 a : let n := pack3 a 0 0 in unpack4 (sx0 n) (sx1 n) 0 0 = n.
Proof. unfold unpack4, sx0, sx1, pack3. lia. Qed.
Lemma unpack_pad2 a b : let n := pack3 a b 0 in unpack4 (sx0 n) (sx1 n) (sx2 n) 0 = n.
Proof. unfold unpack4, sx0, sx1, sx2, pack3. lia. Qed.

Lemma byte_0 : byte 0.
Proof. reflexivity. Qed.

(* alphabet: finite check lifted *)
Fixpoint upto (n : nat) : list N := match n with O => [] | S k => upto k ++ [N.of_nat k] end.
Lemma upto_In n i : (i < N.of_nat n) -> In i (upto n).
Proof.
  induction n as [|k IH]; intros H; [lia|]. cbn [upto]. apply in_or_app.
  destruct (N.eq_dec i (N.of_nat k)) as [->|Hne]; [right; now left|left; apply IH; lia].
Qed.

Definition alpha_ok (i : N) : bool :=
  match b64idx (b64char i) with Some j => (j =? i) | None => false end && negb (b64char i =? PAD).
Lemma alpha_all : forallb alpha_ok (upto 64) = true.
Proof. vm_compute. reflexivity. Qed.
Lemma alpha i : i < 64 -> b64idx (b64char i) = Some i /\ (b64char i =? PAD) = false.
Proof.
  intros H. pose proof alpha_all as A. rewrite forallb_forall in A.
  specialize (A i (upto_In 64 i H)). unfold alpha_ok in A.
  apply andb_true_iff in A as [A1 A2]. destruct (b64idx (b64char i)) as [j|]; [|discriminate].
  apply N.eqb_eq in A1. subst j. split; [reflexivity|]. now destruct (b64char i =? PAD).
Qed.

Lemma list3_ind {A} (P : list A -> Prop) :
  P [] -> (forall a, P [a]) -> (forall a b, P [a; b]) ->
  (forall a b c rest, P rest -> P (a :: b :: c :: rest)) -> forall l, P l.
Proof.
  intros H0 H1 H2 H3.
  assert (forall l, P l /\ (forall a, P (a :: l)) /\ (forall a b, P (a :: b :: l))) as H.
  { induction l as [|x l (IHa & IHb & IHc)].
    - repeat split; auto.
    - split; [exact (IHb x)|]. split; [intros a; exact (IHc a x)|]. intros a b. apply H3. exact IHa. }
  intros l. apply H.
Qed.

(* the same over lists of elements in Q (byte strings: the shape of b64enc's recursion) *)
Lemma bytes3_ind {A} (Q : A -> Prop) (P : list A -> Prop) :
  P [] -> (forall a, Q a -> P [a]) -> (forall a b, Q a -> Q b -> P [a; b]) ->
  (forall a b c rest, Q a -> Q b -> Q c -> Forall Q rest -> P rest -> P (a :: b :: c :: rest)) ->
  forall l, Forall Q l -> P l.
Proof.
  intros H0 H1 H2 H3 l. induction l as [|a|a b|a b c rest IH] using list3_ind; rewrite ?Forall_cons_iff; intros HB.
  - exact H0.
  - now apply H1.
  - now apply H2.
  - destruct HB as (Ha & Hb & Hc & Hr). now apply H3; auto.
Qed.

Theorem b64_roundtrip bs : Forall byte bs -> b64dec (b64enc bs) = Some bs.
Proof.
  revert bs. apply bytes3_ind; [reflexivity|intros a Ha|intros a b Ha Hb|intros a b c rest Ha Hb Hc _ IH]; cbn [b64enc b64dec]; cbv zeta.
  - destruct (by_pack a 0 0 byte_0 byte_0) as (R0 & _). destruct (sx_lt a 0 0 Ha byte_0 byte_0) as (H0 & H1 & _).
    destruct (alpha _ H0) as [-> _]. destruct (alpha _ H1) as [-> _]. rewrite N.eqb_refl. cbn [andb is_nil].
    now rewrite unpack_pad1, R0.
  - destruct (by_pack a b 0 Hb byte_0) as (R0 & R1 & _). destruct (sx_lt a b 0 Ha Hb byte_0) as (H0 & H1 & H2 & _).
    destruct (alpha _ H0) as [-> _]. destruct (alpha _ H1) as [-> _]. destruct (alpha _ H2) as [-> ->].
    rewrite N.eqb_refl. cbn [is_nil]. now rewrite unpack_pad2, R0, R1.
  - destruct (by_pack a b c Hb Hc) as (R0 & R1 & R2). destruct (sx_lt a b c Ha Hb Hc) as (H0 & H1 & H2 & H3).
    destruct (alpha _ H0) as [-> _]. destruct (alpha _ H1) as [-> _].
    destruct (alpha _ H2) as [-> ->]. destruct (alpha _ H3) as [-> ->].
    now rewrite IH, unpack_sx, R0, R1, R2.
Qed.

(* the encoder's output alphabet: A-Z a-z 0-9 + / = only *)
Definition b64_alphabet (c : N) : bool := match b64idx c with Some _ => true | None => c =? PAD end.
Lemma b64char_alphabet i : i < 64 -> b64_alphabet (b64char i) = true.
Proof. intros H. unfold b64_alphabet. now destruct (alpha i H) as [-> _]. Qed.

