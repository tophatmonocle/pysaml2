(* Proofs/XmlEntry_lemmas.v — C11: the regenerated inventory passes its decision procedure
   (and what passing means for one site); the readers over arbitrary event lists: no IO
   without fetching, the defused reader accepts no hostile event, prolog events change nothing,
   an accepted run accepts every prefix and nothing after the closed root (truncation), accepted
   input is balanced; the entry points return objects only from a successful parse. *)
From PV Require Import Lib.Base Model.XmlEntry Gen.XmlSites.
Open Scope N_scope.

Lemma inventory_checked : inventory_ok xml_sites et_uses = true.
Proof. vm_compute. reflexivity. Qed.

Lemma site_ok_inv s : site_ok s = true ->
  s_kind s = KCall /\
  match s_tag s with
  | Core => exists m, s_module s = Some m /\ is_defused_module m = true /\ weakened s = false
  | OptionalBackend => exists m, s_module s = Some m /\ is_optional_module m = true
  end.
Proof.
  unfold site_ok. destruct (s_kind s); try discriminate. destruct (s_module s) as [m|]; try discriminate.
  intros H. split; [reflexivity|]. destruct (s_tag s); exists m.
  - apply andb_true_iff in H as [Hm Hw]. apply negb_true_iff in Hw. auto.
  - auto.
Qed.

Lemma kw_ok_inv k v : kw_ok (k, v) = true ->
  (k = s2l "forbid_dtd" /\ v <> KwOther) \/ ((k = s2l "forbid_entities" \/ k = s2l "forbid_external") /\ v = KwTrue).
Proof.
  unfold kw_ok. destruct (str_eqb_spec k (s2l "forbid_dtd")) as [->|_]; [left; split; [reflexivity|]; destruct v; congruence|].
  destruct (str_eqb_spec k (s2l "forbid_entities")) as [->|_]; cbn [orb]; [right; split; [now left|]; destruct v; congruence|].
  destruct (str_eqb_spec k (s2l "forbid_external")) as [->|_]; [|discriminate]. right. split; [now right|]. destruct v; congruence.
Qed.

Lemma inventory_has_core_site : existsb is_core_defused xml_sites = true.
Proof. vm_compute. reflexivity. Qed.

Lemma text_event_fields st s st' :
  text_event st s = Ok st' ->
  trace st' = trace st /\ ents st' = ents st /\ root_done st' = root_done st /\ expanded st' = expanded st /\
  (stack st = [] -> stack st' = []) /\ List.length (stack st') = List.length (stack st).
Proof.
  unfold text_event. destruct (stack st) as [|f rest] eqn:Hs.
  - destruct (forallb is_ws s); intros H; inversion H; subst. rewrite Hs. repeat split; auto.
  - intros H; inversion H; subst; cbn. repeat split; auto. discriminate.
Qed.

(* what one accepted event may change *)
Lemma step_inv r st e st' : step r st e = Ok st' ->
  e <> Malformed /\
  (trace st' = trace st \/ on_external r = ExtFetch) /\
  (ents st' = ents st \/ on_entity r = EntDefine) /\
  (expanded st' = expanded st \/ exists n v, e = EntityRef n /\ lookup n (ents st) = Some v) /\
  match e with
  | StartElem _ _ => root_done st = None /\ root_done st' = None /\ List.length (stack st') = S (List.length (stack st))
  | EndElem => List.length (stack st) = S (List.length (stack st')) /\ (root_done st' <> None -> stack st' = [])
  | _ => root_done st' = root_done st /\ (stack st = [] -> stack st' = []) /\ List.length (stack st') = List.length (stack st)
  end.
Proof.
  destruct e; cbn [step]; intros H; (split; [discriminate|]).
  - inversion H; subst; auto 7.
  - destruct (on_entity r); [discriminate|]. destruct k; inversion H; subst; cbn; auto 7.
  - destruct (on_external r) eqn:E; [discriminate| |]; inversion H; subst; cbn; auto 7.
  - inversion H; subst; auto 7.
  - destruct (root_done st); inversion H; subst; cbn; auto 7.
  - destruct (stack st) as [|f [|p rest]]; inversion H; subst; cbn; repeat split; auto; congruence.
  - apply text_event_fields in H as (A & B & C & D & F & G). rewrite A, B, C, D. auto 7.
  - destruct (lookup name (ents st)) as [v|] eqn:L; [|discriminate].
    destruct (text_event st v) eqn:Ht; inversion H; subst; cbn.
    apply text_event_fields in Ht as (A & B & C & D & F & G). rewrite A, B, C. repeat split; eauto.
  - discriminate.
Qed.

(* an invariant of accepted steps holds at the end of an accepted run, and what it implies of each
   accepted event holds of every event of the input *)
Lemma run_from_inv r (I : pstate -> Prop) (Q : ev -> bool) :
  (forall st e st', I st -> step r st e = Ok st' -> I st' /\ Q e = true) ->
  forall evs st st', I st -> fst (run_from r st evs) = Ok st' -> I st' /\ forallb Q evs = true.
Proof.
  intros Step. induction evs as [|e evs IH]; intros st st' Hi H; cbn [run_from] in H.
  - inversion H; subst. now split.
  - destruct (step r st e) as [st1|x] eqn:Hs; [|discriminate].
    destruct (Step _ _ _ Hi Hs) as [Hi1 Hq]. destruct (IH _ _ Hi1 H) as [Hi' Hf]. cbn [forallb]. now rewrite Hq.
Qed.

Lemma step_trace r st e st' : on_external r <> ExtFetch -> step r st e = Ok st' -> trace st' = trace st.
Proof. intros Hr H. destruct (step_inv _ _ _ _ H) as (_ & [T|T] & _); [exact T|contradiction]. Qed.

Lemma run_from_no_io r :
  on_external r <> ExtFetch -> forall evs st, snd (run_from r st evs) = trace st.
Proof.
  intros Hr. induction evs as [|e evs IH]; intros st; cbn [run_from]; [reflexivity|].
  destruct (step r st e) as [st'|x] eqn:Hs; [|reflexivity]. now rewrite IH, (step_trace _ _ _ _ Hr Hs).
Qed.

Lemma parse_io_split r evs : parse_io r evs = (finish (fst (run_from r st0 evs)), rev (snd (run_from r st0 evs))).
Proof. unfold parse_io. destruct (run_from r st0 evs); reflexivity. Qed.

Lemma no_fetch_no_io r :
  on_external r <> ExtFetch -> forall evs, io_of r evs = [].
Proof.
  intros Hr evs. unfold io_of. rewrite parse_io_split. cbn [snd].
  now rewrite (run_from_no_io r Hr evs st0).
Qed.

(* a fetching reader DOES perform IO: the property separates the reader kinds *)
Lemma fetching_does_io :
  io_of fetching [Doctype None; EntityDecl (s2l "e") (GenExternal (s2l "file:///etc/passwd"));
                  StartElem (s2l "r") []; ExternalRef (s2l "file:///etc/passwd"); EndElem]
  = [IoOpen (s2l "file:///etc/passwd")].
Proof. vm_compute. reflexivity. Qed.

Lemma stdlib_et_expands :
  expands stdlib_et [Doctype None; EntityDecl (s2l "e") (GenInternal (s2l "EXPANDED"));
                     StartElem (s2l "r") []; EntityRef (s2l "e"); EndElem] = true /\
  parse stdlib_et [Doctype None; EntityDecl (s2l "e") (GenInternal (s2l "EXPANDED"));
                   StartElem (s2l "r") []; EntityRef (s2l "e"); EndElem]
  = Ok (Node (s2l "r") [] (Some (s2l "EXPANDED")) []).
Proof. vm_compute. split; reflexivity. Qed.

(* the defused reader never learns an entity, so it accepts no hostile event and expands nothing *)
Lemma defused_step st e st' : ents st = [] -> step defused st e = Ok st' ->
  ents st' = [] /\ expanded st' = expanded st /\ hostile e = false.
Proof.
  intros He H. destruct (step_inv _ _ _ _ H) as (_ & _ & [E|E] & [X|(n & v & _ & L)] & _); try discriminate.
  - rewrite E, X. repeat split; [exact He|].
    destruct e; try reflexivity; cbn [step defused on_entity on_external] in H; try discriminate.
    rewrite He in H. discriminate.
  - rewrite He in L. discriminate.
Qed.

Lemma defused_run_ok_benign evs st st' : ents st = [] -> fst (run_from defused st evs) = Ok st' ->
  expanded st' = expanded st /\ forallb (fun e => negb (hostile e)) evs = true.
Proof.
  intros He H.
  destruct (run_from_inv defused (fun s => ents s = [] /\ expanded s = expanded st) (fun e => negb (hostile e))) with (3 := H) as [[_ X] F]; auto.
  clear. intros s e s' [He Hx] H. destruct (defused_step _ _ _ He H) as (A & B & C). rewrite A, B, C. auto.
Qed.

Lemma parse_ok_run r evs t :
  parse r evs = Ok t -> exists st, fst (run_from r st0 evs) = Ok st /\ root_done st = Some t.
Proof.
  unfold parse. rewrite parse_io_split. cbn [fst]. unfold finish.
  destruct (fst (run_from r st0 evs)) as [st|x]; [|discriminate].
  destruct (root_done st) as [t'|] eqn:Hd; [|discriminate].
  intros H; inversion H; subst. exists st. split; [reflexivity|exact Hd].
Qed.

Lemma defused_ok_benign evs t :
  parse defused evs = Ok t -> forallb (fun e => negb (hostile e)) evs = true.
Proof.
  intros H. apply parse_ok_run in H as (st & Hr & _).
  exact (proj2 (defused_run_ok_benign evs st0 st eq_refl Hr)).
Qed.

(* the prolog, where XML allows a declaration: DOCTYPE, PIs, white space *)
Definition prolog_ev (e : ev) : bool :=
  match e with Doctype _ | PI => true | Text s => forallb is_ws s | _ => false end.

Lemma prolog_step r st e :
  prolog_ev e = true -> stack st = [] -> step r st e = Ok st.
Proof.
  destruct e; cbn; try discriminate; intros H Hs; try reflexivity.
  unfold text_event. rewrite Hs, H. reflexivity.
Qed.

Lemma prolog_run r pre rest st :
  forallb prolog_ev pre = true -> stack st = [] ->
  run_from r st (pre ++ rest) = run_from r st rest.
Proof.
  induction pre as [|e pre IH]; intros Hp Hs; [reflexivity|].
  cbn [forallb] in Hp. apply andb_true_iff in Hp as [He Hp].
  cbn [app run_from]. rewrite (prolog_step r st e He Hs). exact (IH Hp Hs).
Qed.

Definition wf_state (st : pstate) : Prop := root_done st <> None -> stack st = [].
Lemma wf_st0 : wf_state st0.
Proof. intros X. now elim X. Qed.

Lemma run_from_wf r evs st st' : wf_state st -> fst (run_from r st evs) = Ok st' -> wf_state st'.
Proof.
  intros Hw H. apply (run_from_inv r wf_state (fun _ => true)) with (3 := H); [|exact Hw].
  clear. unfold wf_state. intros st e st' Hw H. split; [|reflexivity].
  destruct (step_inv _ _ _ _ H) as (_ & _ & _ & _ & S).
  destruct e; try (destruct S as (D & E & _); rewrite D; now auto).
  - destruct S as (_ & D & _). congruence.
  - tauto.
Qed.

Lemma run_from_app r a b st :
  run_from r st (a ++ b) =
  match fst (run_from r st a) with
  | Ok st' => run_from r st' b
  | Err x => run_from r st a
  end.
Proof.
  revert st. induction a as [|e a IH]; intros st; [reflexivity|].
  cbn [app run_from]. destruct (step r st e) as [st1|x]; [apply IH|reflexivity].
Qed.

(* an accepted run accepts every prefix *)
Lemma run_ok_split r a b st st' : fst (run_from r st (a ++ b)) = Ok st' ->
  exists s1, fst (run_from r st a) = Ok s1 /\ fst (run_from r s1 b) = Ok st'.
Proof. rewrite run_from_app. destruct (fst (run_from r st a)) as [s1|x] eqn:E; [eauto|]. rewrite E. discriminate. Qed.

Definition is_elem_ev (e : ev) : bool := match e with StartElem _ _ | EndElem => true | _ => false end.

(* once the root element is closed, any further start or end tag is an error *)
Lemma done_no_more_elems r evs st st' : root_done st <> None -> stack st = [] ->
  fst (run_from r st evs) = Ok st' -> existsb is_elem_ev evs = false.
Proof.
  intros Hd Hs H. apply forallb_negb_existsb.
  apply (run_from_inv r (fun st => root_done st <> None /\ stack st = []) (fun e => negb (is_elem_ev e))) with (3 := H); [|now split].
  clear. intros st e st' [Hd Hs] H. destruct (step_inv _ _ _ _ H) as (_ & _ & _ & _ & S).
  destruct e; try (destruct S as (D & E & _); rewrite D; now auto).
  - destruct S as (D & _). contradiction.
  - destruct S as (D & _). rewrite Hs in D. discriminate.
Qed.

(* accepted input is balanced: its element depth returns to 0 *)
Lemma run_depth r evs :
  forall st st', fst (run_from r st evs) = Ok st' ->
    depth_after (List.length (stack st)) evs = Some (List.length (stack st')).
Proof.
  induction evs as [|e evs IH]; intros st st' H; cbn [run_from] in H.
  - inversion H; reflexivity.
  - destruct (step r st e) as [st1|x] eqn:Hs; [|discriminate].
    destruct (step_inv _ _ _ _ Hs) as (_ & _ & _ & _ & S). specialize (IH st1 st' H).
    destruct e; cbn [depth_after]; try (destruct S as (_ & _ & <-); exact IH).
    destruct S as (-> & _). exact IH.
Qed.

Lemma parse_ok_balanced r evs t : parse r evs = Ok t -> depth_after 0 evs = Some 0%nat.
Proof.
  intros Hp. apply parse_ok_run in Hp as (st & Hr & Hd).
  pose proof (run_depth r evs st0 st Hr) as H. cbn in H.
  assert (wf_state st) as Hw by exact (run_from_wf r evs st0 st wf_st0 Hr).
  rewrite (Hw ltac:(congruence)) in H. exact H.
Qed.

Lemma parse_ok_not_malformed r evs t : parse r evs = Ok t -> existsb is_malformed evs = false.
Proof.
  intros Hp. apply parse_ok_run in Hp as (st & Hr & _). apply forallb_negb_existsb.
  apply (run_from_inv r (fun _ => True) (fun e => negb (is_malformed e))) with (3 := Hr); [|exact I].
  intros s e s' _ H. split; [exact I|]. destruct (step_inv _ _ _ _ H) as (M & _). now destruct e.
Qed.

Lemma create_class_ok r sch cid evs o :
  create_class_from_xml_string r sch cid evs = Ok (Some o) ->
  exists t row, parse r evs = Ok t /\ find_class sch cid = Some row /\
                xtag t = c_qname row /\ o = harvest sch cid t.
Proof.
  unfold create_class_from_xml_string, create_class_from_element_tree.
  destruct (parse r evs) as [t|e]; [|discriminate].
  destruct (find_class sch cid) as [row|]; [|discriminate].
  destruct (str_eqb_spec (xtag t) (c_qname row)) as [Heq|]; [|discriminate].
  intros H; inversion H; subst. exists t, row. auto.
Qed.

Lemma soap_thingy_ok r exp evs s :
  parse_soap_enveloped_saml_thingy r exp evs = Ok (Part s) ->
  exists envl body, parse r evs = Ok envl /\ xtag envl = EnvelopeQ /\ In body (xkids envl) /\
                    xtag body = BodyQ /\ xkids body = [s] /\ In (xtag s) exp.
Proof.
  unfold parse_soap_enveloped_saml_thingy.
  destruct (parse r evs) as [envl|e]; [|discriminate].
  destruct (str_eqb_spec (xtag envl) EnvelopeQ) as [He|]; cbn [negb]; [|discriminate].
  destruct (xkids envl) as [|p ps] eqn:Hk; [discriminate|].
  destruct (first_body (p :: ps)) as [b|] eqn:Hb; [|discriminate].
  destruct (xkids b) as [|s' [|s2 rest]] eqn:Hkb; try discriminate.
  destruct (mem_str (xtag s') exp) eqn:Hm; [|discriminate].
  intros H; inversion H; subst s'. exists envl, b. rewrite Hk.
  assert (In b (p :: ps) /\ xtag b = BodyQ) as [Hin Hq].
  { clear Hk. revert Hb. generalize (p :: ps). induction l as [|x l IH]; cbn [first_body In]; [discriminate|].
    destruct (str_eqb_spec (xtag x) BodyQ) as [Hx|].
    - intros X; inversion X; subst. split; [now left|assumption].
    - intros X. destruct (IH X) as [A B]. split; [now right|exact B]. }
  repeat split; auto. apply mem_str_In. exact Hm.
Qed.

Lemma open_soap_ok r evs res :
  open_soap_envelope r evs = Ok res -> exists envl, parse r evs = Ok envl /\ xtag envl = EnvelopeQ.
Proof.
  unfold open_soap_envelope. destruct (parse r evs) as [envl|e]; [|discriminate].
  destruct (str_eqb_spec (xtag envl) EnvelopeQ) as [He|]; cbn [negb]; [|discriminate].
  intros _. exists envl. auto.
Qed.

Lemma sum_trees_app f a b : sum_trees f (a ++ b) = sum_trees f a + sum_trees f b.
Proof. unfold sum_trees. induction a as [|x a IH]; cbn; [reflexivity|]. rewrite IH. lia. Qed.
