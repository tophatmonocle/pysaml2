(* Proofs/IdentWorkers_lemmas.v — C18: identifiers issued by different processes *)
From PV Require Import Lib.Base Model.Codec Gen.IdentConsts Model.Ident Proofs.Ident_lemmas Model.IdentWorkers.
Open Scope N_scope.

Lemma get_nameid_otext c d u f sp nq cands t :
  str_eqb f NAMEID_FORMAT_EMAILADDRESS = false ->
  In t (otext (snd (get_nameid c d u f sp nq cands))) -> In t cands /\ lookup t d = None.
Proof.
  intros Hne H. destruct (get_nameid c d u f sp nq cands) as (d', x) eqn:G. cbn [snd] in H.
  destruct x as [|n|s|l|e]; cbn [otext] in H; try contradiction.
  destruct (issued_fresh c d u f sp nq cands d' n G Hne) as (t0 & Et & Hin & Hfr & _).
  rewrite Et in H. destruct H as [H|[]]. subst t0. split; assumption.
Qed.

(* whatever an operation issues new was drawn from the stream during that operation and was not a key before *)
Lemma issued_now_spec c d o t : In t (issued_now c d o) -> In t (op_cands o) /\ lookup t d = None.
Proof.
  destruct o; cbn [issued_now op_cands]; try contradiction.
  - cbn [step]. apply get_nameid_otext. exact (proj1 formats_distinct).
  - destruct (match_local_id d u sp nq) as [[n|]|e] eqn:M; try contradiction.
    cbn [step]. unfold persistent_nameid. rewrite M. apply get_nameid_otext. exact (proj1 (proj2 formats_distinct)).
Qed.

(* by induction over the history of ONE process: everything it issues new is an element of its own stream *)
Theorem issued_texts_in_stream c ops : forall d t, In t (issued_texts c d ops) -> In t (stream ops).
Proof.
  induction ops as [|o r IH]; intros d t H; cbn [issued_texts stream flat_map] in *; [contradiction|].
  apply in_app_or in H as [H|H]; apply in_or_app.
  - left. exact (proj1 (issued_now_spec c d o t H)).
  - right. exact (IH _ t H).
Qed.

(* the assumption about the random source, explicit: no digest occurs in the streams of two processes *)
Definition independent (w1 w2 : list op) : Prop := forall t, In t (stream w1) -> In t (stream w2) -> False.
Definition independent_all (ws : deployment) : Prop :=
  forall i j, i <> j -> independent (nth i ws []) (nth j ws []).

Theorem workers_fresh c1 c2 d1 d2 w1 w2 :
  independent w1 w2 -> forall t, In t (issued_texts c1 d1 w1) -> In t (issued_texts c2 d2 w2) -> False.
Proof.
  intros I t H1 H2. apply (I t); eapply issued_texts_in_stream; eassumption.
Qed.

(* Model/IdentWorkers.v mem is Lib/Base.v mem_str under another name (same body): mem_str_In applies to it *)
Lemma disjointb_intro a b : (forall t, In t a -> In t b -> False) -> disjointb a b = true.
Proof.
  intros H. unfold disjointb. apply forallb_forall. intros t Ha.
  destruct (mem t b) eqn:M; [|reflexivity]. apply mem_str_In in M. destruct (H t Ha M).
Qed.

Lemma disjointb_elim a b : disjointb a b = true -> forall t, In t a -> In t b -> False.
Proof.
  unfold disjointb. rewrite forallb_forall. intros H t Ha Hb. specialize (H t Ha).
  apply mem_str_In in Hb. change (mem_str t b) with (mem t b) in Hb. rewrite Hb in H. discriminate.
Qed.

Lemma independent_all_tail w ws : independent_all (w :: ws) -> independent_all ws.
Proof. intros I i j Hij. apply (I (S i) (S j)). congruence. Qed.

Lemma in_stream_mid pre o post t : In t (op_cands o) -> In t (stream (pre ++ o :: post)).
Proof.
  intros H. unfold stream. apply in_flat_map. exists o. split; [|assumption].
  apply in_or_app. right. left. reflexivity.
Qed.

