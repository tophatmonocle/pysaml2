(* C05Opts_lemmas: the effective value of allow_unsolicited for every spelling of the option,
   through Client.load / load_special / resolve (reused from property C02, Client_lemmas.resolve_spec) *)
From PV Require Import Lib.Base Model.Status Model.Response Model.Client Model.Endpoints Model.C05Opts
  Proofs.Response_lemmas Proofs.Client_lemmas Proofs.Endpoints_lemmas.
Open Scope Z_scope.

(* the coercion as the library performs it: exactly the strings true / false become booleans
   (load_special), None falls back to the default False (Base.__init__), anything else is kept
   and judged by its truth (non-empty string, non-zero int) *)
Definition coerced (s : spelling) : bool :=
  match s with
  | Absent => false
  | IntVal z => negb (z =? 0)
  | Val v => match norm v with CNone => false | v' => truthy v' end
  end.

Lemma assigned_last name v : forall rest, assigned name (List.app rest [(name, v)]) = Some v.
Proof.
  induction rest as [|[a w] rest IH]; cbn [List.app assigned].
  - now rewrite str_eqb_refl.
  - now rewrite IH.
Qed.

Lemma find_sp sec others : find_section (E "sp") ((E "sp", sec) :: others) = Some sec.
Proof. reflexivity. Qed.

(* an explicit value wins over whatever else the section holds *)
Lemma effective_val dc others rest v :
  effective_unsolicited dc others rest (Val v) = coerced (Val v).
Proof. cbn [effective_unsolicited coerced]. rewrite resolve_spec, find_sp. cbn [sp_section opt_value]. now rewrite assigned_last. Qed.

(* the value the client works with = the coercion of what the sp section says, for every
   configuration class and whatever the other role sections and the other sp arguments are *)
Lemma effective_coerced dc others rest s :
  assigned AU rest = None -> effective_unsolicited dc others rest s = coerced s.
Proof.
  intros Hr. destruct s as [|v|z]; [|apply effective_val|reflexivity].
  cbn [effective_unsolicited coerced]. rewrite resolve_spec, find_sp. cbn [sp_section opt_value]. now rewrite Hr.
Qed.

(* exactly which spellings mean NOT allowed *)
Definition means_refuse (s : spelling) : Prop :=
  s = Absent \/ s = Val CNone \/ s = Val (CBool false) \/ s = Val (CStr (E "false")) \/ s = Val (CStr []) \/ s = IntVal 0.

Lemma coerced_false_iff s : coerced s = false <-> means_refuse s.
Proof.
  unfold means_refuse. split.
  - destruct s as [|[|[|]|t]|z]; cbn [coerced norm]; intros H; auto 7.
    + discriminate.
    + destruct (str_eqb t (E "true")); [discriminate|].
      destruct (str_eqb t (E "false")) eqn:Ef; [apply str_eqb_eq in Ef; subst t; auto 7|]. destruct t; [auto 7|discriminate].
    + apply negb_false_iff, Z.eqb_eq in H. subst z. auto 7.
  - intros [H|[H|[H|[H|[H|H]]]]]; subst s; reflexivity.
Qed.

Lemma false_string_is_False dc others rest :
  effective_unsolicited dc others rest (Val (CStr (E "false"))) = effective_unsolicited dc others rest (Val (CBool false)).
Proof. now rewrite !effective_val. Qed.
Lemma true_string_is_True dc others rest :
  effective_unsolicited dc others rest (Val (CStr (E "true"))) = effective_unsolicited dc others rest (Val (CBool true)).
Proof. now rewrite !effective_val. Qed.
Lemma false_string_refuses dc others rest : effective_unsolicited dc others rest (Val (CStr (E "false"))) = false.
Proof. now rewrite effective_val. Qed.

Lemma ecfg_of_fields sc :
  allow_unsolicited (base (ecfg_of sc)) = effective sc /\ outstanding (base (ecfg_of sc)) = outstanding (base (s_call sc)) /\
  arriving (ecfg_of sc) = arriving (s_call sc) /\ acs_table (ecfg_of sc) = acs_table (s_call sc).
Proof. repeat split. Qed.

Lemma nth_error_run_spelled sc calls n :
  nth_error (run_spelled sc calls) n =
  match nth_error calls n with
  | Some (c, b, r) => Some (parse_authn_response {| base := with_unsolicited (effective sc) c; acs_table := acs_table (s_call sc); arriving := b |} r)
  | None => None
  end.
Proof.
  unfold run_spelled. rewrite nth_error_run_calls, nth_error_map.
  destruct (nth_error calls n) as [[[c b] r]|]; reflexivity.
Qed.
