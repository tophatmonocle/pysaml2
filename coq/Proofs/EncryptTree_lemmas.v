(* Proofs/EncryptTree_lemmas.v — C17, service-provider half on document trees
   (Model/Encrypt.v PART II): whatever the tool's policy, the configured keys and
   the fault schedule, opening EncryptedData nodes only ADDS assertions to what the
   parser sees; with the comparison of proposed_fix/C17-2 the assertions that are
   used after the second (non-verifying) loop are exactly the ones the verifying
   call saw, so every assertion read went through the plain-path checks
   (parse_t_stage_checked for one run of the stage, tree_checked_when for the whole run).
   Entity._parse_response is the skeleton parse_response_x around a stage: parse_response_is_x,
   its inversion accepted_x, and through it accepted_stage for the pipeline model of Model/Response.v. *)
From PV Require Import Lib.Base Model.Status Model.Response Model.Encrypt Proofs.Response_lemmas Proofs.EncryptSP_lemmas.
Open Scope Z_scope.

(* order-preserving embedding: l1 is l2 with some elements left out *)
Inductive subseq {A} : list A -> list A -> Prop :=
| ss_nil : forall l, subseq [] l
| ss_keep : forall x l1 l2, subseq l1 l2 -> subseq (x :: l1) (x :: l2)
| ss_skip : forall x l1 l2, subseq l1 l2 -> subseq l1 (x :: l2).

Lemma subseq_refl {A} (l : list A) : subseq l l.
Proof. induction l; constructor; assumption. Qed.

Lemma subseq_trans {A} (l1 l2 l3 : list A) : subseq l1 l2 -> subseq l2 l3 -> subseq l1 l3.
Proof.
  intros H12 H23. revert l1 H12. induction H23 as [l|x l2 l3 H IH|x l2 l3 H IH]; intros l1 H12.
  - inversion H12; subst. constructor.
  - inversion H12; subst; [constructor|constructor; now apply IH|apply ss_skip; now apply IH].
  - apply ss_skip. now apply IH.
Qed.

Lemma subseq_app_l {A} (p l1 l2 : list A) : subseq l1 l2 -> subseq l1 (p ++ l2).
Proof. intros H. induction p; [exact H|]. cbn. now apply ss_skip. Qed.

Lemma subseq_app {A} (a1 a2 b1 b2 : list A) : subseq a1 a2 -> subseq b1 b2 -> subseq (a1 ++ b1) (a2 ++ b2).
Proof.
  intros Ha Hb. induction Ha as [l|x l1 l2 H IH|x l1 l2 H IH]; cbn.
  - now apply subseq_app_l.
  - now constructor.
  - now apply ss_skip.
Qed.

Lemma subseq_length {A} (l1 l2 : list A) : subseq l1 l2 -> (List.length l1 <= List.length l2)%nat.
Proof. induction 1; cbn; lia. Qed.

Lemma subseq_same_length {A} (l1 l2 : list A) : subseq l1 l2 -> List.length l1 = List.length l2 -> l1 = l2.
Proof.
  induction 1 as [l|x l1 l2 H IH|x l1 l2 H IH]; cbn; intros HL.
  - destruct l; [reflexivity|discriminate].
  - f_equal. apply IH. lia.
  - apply subseq_length in H. lia.
Qed.

(* open_first recurses through open_list_with: the equations cbn does not give *)
Lemma open_first_enc keys pol k p :
  open_first keys pol (DEnc k p) = if mem_N k keys then Opened p else match pol with PFail => Stuck | PSkip => NoEnc end.
Proof. reflexivity. Qed.
Lemma open_first_asrt keys pol a d adv ext :
  open_first keys pol (DAsrt a d adv ext) =
  match open_list keys pol adv with
  | Opened adv' => Opened (DAsrt a true adv' ext)
  | Stuck => Stuck
  | NoEnc => match open_list keys pol ext with Opened ext' => Opened (DAsrt a true adv ext') | Stuck => Stuck | NoEnc => NoEnc end
  end.
Proof. reflexivity. Qed.
Lemma open_first_ea keys pol k :
  open_first keys pol (DEA k) = match open_list keys pol k with Opened k' => Opened (DEA k') | Stuck => Stuck | NoEnc => NoEnc end.
Proof. reflexivity. Qed.
Lemma open_first_other keys pol k :
  open_first keys pol (DOther k) = match open_list keys pol k with Opened k' => Opened (DOther k') | Stuck => Stuck | NoEnc => NoEnc end.
Proof. reflexivity. Qed.

Lemma open_list_cons keys pol x r :
  open_list keys pol (x :: r) =
  match open_first keys pol x with
  | Opened x' => Opened (x' :: r)
  | Stuck => Stuck
  | NoEnc => match open_list keys pol r with Opened r' => Opened (x :: r') | Stuck => Stuck | NoEnc => NoEnc end
  end.
Proof. reflexivity. Qed.

Definition as_of (l : list dtree) : list assertion := map v_a (asrts l).        (* Assertion children *)
Definition ea_as_of (l : list dtree) : list assertion := map v_a (ea_asrts l).  (* Assertions inside EncryptedAssertion children *)

Lemma as_of_app l1 l2 : as_of (l1 ++ l2) = as_of l1 ++ as_of l2.
Proof. unfold as_of, asrts. now rewrite flat_map_app, map_app. Qed.
Lemma as_of_cons x l : as_of (x :: l) = as_of [x] ++ as_of l.
Proof. exact (as_of_app [x] l). Qed.
Lemma ea_as_of_app l1 l2 : ea_as_of (l1 ++ l2) = ea_as_of l1 ++ ea_as_of l2.
Proof. unfold ea_as_of, ea_asrts, eas. now rewrite !flat_map_app, map_app. Qed.

Lemma open_first_shape keys pol x x' : open_first keys pol x = Opened x' ->
  match x with
  | DEnc _ p => x' = p
  | DAsrt a _ _ _ => exists adv' ext', x' = DAsrt a true adv' ext'
  | DEA k => exists k', x' = DEA k' /\ open_list keys pol k = Opened k'
  | DOther _ => exists k', x' = DOther k'
  end.
Proof.
  destruct x as [a d adv ext|k|k|key p].
  - rewrite open_first_asrt. destruct (open_list keys pol adv) as [adv'| |]; [intros H; injection H as <-; eauto|discriminate|].
    destruct (open_list keys pol ext) as [ext'| |]; [intros H; injection H as <-; eauto|discriminate|discriminate].
  - rewrite open_first_ea. destruct (open_list keys pol k) as [k'| |]; [intros H; injection H as <-; eauto|discriminate|discriminate].
  - rewrite open_first_other. destruct (open_list keys pol k) as [k'| |]; [intros H; injection H as <-; eauto|discriminate|discriminate].
  - rewrite open_first_enc. destruct (mem_N key keys); [intros H; now injection H as <-|destruct pol; discriminate].
Qed.

(* one successful tool run replaces exactly one child, and finds nothing in the children before it *)
Lemma open_list_split keys pol : forall l l', open_list keys pol l = Opened l' ->
  exists pre x x' post, l = pre ++ x :: post /\ l' = pre ++ x' :: post /\ open_first keys pol x = Opened x' /\
    Forall (fun y => open_first keys pol y = NoEnc) pre.
Proof.
  induction l as [|x r IH]; intros l' H; [discriminate|]. rewrite open_list_cons in H.
  destruct (open_first keys pol x) as [x'| |] eqn:Ex; [|discriminate|].
  - injection H as <-. exists [], x, x', r. auto.
  - destruct (open_list keys pol r) as [r'| |]; try discriminate. injection H as <-.
    destruct (IH r' eq_refl) as (pre & y & y' & post & -> & -> & Hy & Hpre). exists (x :: pre), y, y', post. auto.
Qed.

Lemma open_list_subseq {A} (f : list dtree -> list A) keys pol :
  (forall l1 l2, f (l1 ++ l2) = f l1 ++ f l2) ->
  (forall x x', open_first keys pol x = Opened x' -> subseq (f [x]) (f [x'])) ->
  forall l l', open_list keys pol l = Opened l' -> subseq (f l) (f l').
Proof.
  intros Happ Hone l l' H. apply open_list_split in H as (pre & x & x' & post & -> & -> & Hx & _).
  change (x :: post) with ([x] ++ post). change (x' :: post) with ([x'] ++ post). rewrite !Happ. apply subseq_app; [apply subseq_refl|].
  apply subseq_app; [now apply Hone|apply subseq_refl].
Qed.

Lemma open_list_as keys pol : forall l l', open_list keys pol l = Opened l' -> subseq (as_of l) (as_of l').
Proof.
  apply open_list_subseq; [exact as_of_app|]. intros x x' Hx. pose proof (open_first_shape _ _ _ _ Hx) as S.
  destruct x as [a d adv ext|k|k|key p]; [destruct S as (adv' & ext' & ->)|destruct S as (k' & -> & _)|destruct S as (k' & ->)|constructor];
    apply subseq_refl.
Qed.

Lemma open_list_ea_as keys pol : forall l l', open_list keys pol l = Opened l' -> subseq (ea_as_of l) (ea_as_of l').
Proof.
  apply open_list_subseq; [exact ea_as_of_app|]. intros x x' Hx. pose proof (open_first_shape _ _ _ _ Hx) as S.
  destruct x as [a d adv ext|k|k|key p]; [destruct S as (adv' & ext' & ->)|destruct S as (k' & -> & Hk)|destruct S as (k' & ->)|constructor];
    try apply subseq_refl.
  unfold ea_as_of, ea_asrts. cbn [eas flat_map app]. rewrite !app_nil_r. exact (open_list_as _ _ _ _ Hk).
Qed.

Lemma dec_loop_grows cond keys pol : forall fuel fs root root' fs',
  dec_loop fuel cond keys pol fs root = Some (root', fs') ->
  subseq (as_of root) (as_of root') /\ subseq (ea_as_of root) (ea_as_of root').
Proof.
  induction fuel as [|f IH]; intros fs root root' fs' H; [discriminate|]. cbn [dec_loop] in H.
  destruct (negb (cond root)); [injection H as <- <-; split; apply subseq_refl|].
  destruct (pop fs) as [fault fs1]. destruct fault.
  - injection H as <- <-; split; apply subseq_refl.
  - destruct (open_list keys pol root) as [r1| |] eqn:Eo; try (injection H as <- <-; split; apply subseq_refl).
    destruct (IH _ _ _ _ H) as [A B]. split.
    + eapply subseq_trans; [exact (open_list_as _ _ _ _ Eo)|exact A].
    + eapply subseq_trans; [exact (open_list_ea_as _ _ _ _ Eo)|exact B].
Qed.

Lemma as_of_no_asrt l : (forall x, In x l -> is_asrt x = false) -> as_of l = [].
Proof.
  induction l as [|x l IH]; intros H; [reflexivity|]. rewrite as_of_cons, IH; [|intros y Hy; apply H; now right].
  rewrite app_nil_r. pose proof (H x (or_introl eq_refl)) as Hx. destruct x; try reflexivity. discriminate.
Qed.

Lemma as_of_reser_filter l : as_of (filter is_asrt (map reser l)) = as_of l.
Proof.
  induction l as [|x l IH]; [reflexivity|]. rewrite (as_of_cons x l), <- IH. cbn [map filter].
  destruct x; cbn [reser is_asrt]; [exact (as_of_cons _ _)|reflexivity..].
Qed.

Lemma as_of_reserialize root : as_of (reserialize root) = as_of root.
Proof.
  unfold reserialize. rewrite !as_of_app, as_of_reser_filter.
  rewrite (as_of_no_asrt (filter is_ea (map reser root))), (as_of_no_asrt (filter _ root)), !app_nil_r; [reflexivity| |].
  - intros x Hx. apply filter_In in Hx as [_ Hx]. destruct (is_asrt x); [discriminate|reflexivity].
  - intros x Hx. apply filter_In in Hx as [_ Hx]. destruct x; try reflexivity; discriminate.
Qed.

Definition view_not_bad (v : asrt_view) : Prop := forall e, sig_now v <> Some (Err e).

Lemma view_not_bad_eq v : view_not_bad v = sig_not_bad (as_checked v).
Proof. reflexivity. Qed.

Lemma verify_views_as l : verify_views l = verify_decrypted (map as_checked l).
Proof. induction l as [|v l IH]; [reflexivity|]. cbn [verify_views map verify_decrypted as_checked a_sig]. now rewrite IH. Qed.

Lemma verify_views_ok l : verify_views l = Ok tt <-> Forall view_not_bad l.
Proof. rewrite verify_views_as, verify_decrypted_ok, Forall_map. split; apply Forall_impl; intros v; now rewrite view_not_bad_eq. Qed.

(* as_checked v is the element as the plain path sees it: its signature looked at on the current text *)
Lemma check_as_checked c irt req s v :
  view_not_bad v -> check_assertion c irt req true s (v_a v) = check_assertion c irt req false s (as_checked v).
Proof.
  intros H. unfold check_assertion, as_checked. cbn [a_sig a_authn a_conditions a_has_subject a_confirmations a_name_id].
  unfold authn_statement_ok, condition_ok, get_subject. cbn [a_sig a_authn a_conditions a_has_subject a_confirmations a_name_id].
  unfold view_not_bad, sig_now in *. destruct (a_sig (v_a v)) as [r|]; [|reflexivity].
  destruct (v_dirty v); [exfalso; exact (H _ eq_refl)|]. destruct r as [[]|e]; [reflexivity|exfalso; exact (H _ eq_refl)].
Qed.

Lemma check_list_as_checked c irt req push : forall l s,
  Forall view_not_bad l ->
  check_assertions c irt req true push s (map v_a l) = check_assertions c irt req false push s (map as_checked l).
Proof.
  induction l as [|v l IH]; intros s H; [reflexivity|]. inversion H as [|x y Hx Hy]; subst.
  cbn [map check_assertions]. rewrite (check_as_checked c irt req s v Hx).
  destruct (check_assertion c irt req false s (as_checked v)); [|reflexivity]. cbn [as_checked a_id]. now apply IH.
Qed.

(* [checked_view c irt req v]: the signature of v (if any) verified on the text it was looked at in, and the
   plain-path function _assertion(…, verified=False) accepts the element *)
Definition checked_view (c : cfg) (irt : option str) (req : bool) (v : asrt_view) : Prop :=
  view_not_bad v /\ exists sa sa', check_assertion c irt req false sa (as_checked v) = Ok sa'.

Lemma check_views_all c irt req push l s s' :
  check_assertions c irt req false push s (map as_checked l) = Ok s' ->
  Forall (checked_view c irt req) l /\ acc s' = acc s ++ (if push then ids_of l else []).
Proof.
  intros H. split.
  - pose proof (check_assertions_false_sig _ _ _ _ _ _ _ H) as F1. pose proof (check_assertions_all _ _ _ _ _ _ _ _ H) as F2.
    rewrite Forall_map in F1, F2. rewrite Forall_forall in *. intros v Hv. split; [rewrite view_not_bad_eq; exact (F1 v Hv)|exact (F2 v Hv)].
  - destruct (check_assertions_acc _ _ _ _ _ _ _ _ H) as [A _]. rewrite A, map_map. reflexivity.
Qed.

Lemma ids_of_map l : ids_of l = map a_id (map v_a l).
Proof. unfold ids_of. now rewrite map_map. Qed.

Lemma acc_after_failure_views c irt req l s : Forall view_not_bad l ->
  exists l1, acc (acc_after_failure c irt req true s (map v_a l)) = acc s ++ ids_of l1 /\ Forall (checked_view c irt req) l1.
Proof.
  intros H. destruct (acc_after_failure_prefix c irt req true (map v_a l) s) as (m1 & m2 & E & A & F).
  apply map_eq_app in E as (l1 & l2 & -> & <- & _). exists l1. rewrite ids_of_map. split; [exact A|].
  apply Forall_app in H as [H1 _]. rewrite Forall_map in F. rewrite Forall_forall in *. intros v Hv. split; [exact (H1 v Hv)|].
  destruct (F v Hv) as (sa & sa' & Hc). rewrite (check_as_checked _ _ _ _ _ (H1 v Hv)) in Hc. now exists sa, sa'.
Qed.

(* what the stage returns, and what a failed stage leaves in self.assertions, went through the checks;
   [Q] is an invariant of the fault schedule *)
Definition stage_checked (Q : list bool -> Prop) (c : cfg) (irt : option str) (req : bool) (s : st) (o : stage_out) : Prop :=
  Q (so_faults o) /\
  (forall s', so_res o = Ok s' -> exists l, acc s' = acc s ++ ids_of l /\ Forall (checked_view c irt req) l) /\
  (exists l, acc (so_residue o) = acc s ++ ids_of l /\ Forall (checked_view c irt req) l).

Lemma stage_checked_same (Q : list bool -> Prop) c irt req s o : so_residue o = s -> Q (so_faults o) ->
  (forall s', so_res o = Ok s' -> exists l, acc s' = acc s ++ ids_of l /\ Forall (checked_view c irt req) l) ->
  stage_checked Q c irt req s o.
Proof.
  intros <- HQ HR. split; [exact HQ|]. split; [exact HR|]. exists []. cbn. rewrite app_nil_r. split; [reflexivity|constructor].
Qed.

(* the hypothesis: whenever the comparison of proposed_fix/C17-2 does not refuse, the second loop has left the
   response-level assertions the verifying call saw, and the plain ones that were checked before decryption *)
Lemma parse_t_stage_checked (Q : list bool -> Prop) tc c irt req s root again fs :
  Q fs ->
  (forall t1 fs1, dec_loop (fuel_for (reserialize root) fs) find_encrypt_data (t_keys tc) (t_pol tc) fs (reserialize root) = Some (t1, fs1) ->
     Q fs1 /\
     forall t2 fs2, dec_loop (fuel_for t1 fs1) cond2 (t_keys tc) (t_pol tc) fs1 t1 = Some (t2, fs2) ->
       Q fs2 /\
       (t_fixed tc && negb (nlist_eqb (ids_of (ea_asrts t2)) (ids_of (ea_asrts t1)) && nlist_eqb (ids_of (asrts t2)) (ids_of (asrts root))) = false ->
        ea_as_of t2 = ea_as_of t1 /\ ids_of (asrts t2) = ids_of (asrts root))) ->
  stage_checked Q c irt req s (parse_t tc c irt req s root again fs).
Proof.
  intros Q0 Hloops. unfold parse_t. set (plain0 := asrts root).
  assert (forall e ag fs', Q fs' ->
            stage_checked Q c irt req s {| so_res := Err e; so_residue := s; so_root := root; so_again := ag; so_faults := fs' |}) as Fail
    by (intros e ag fs' HQ; apply stage_checked_same; [reflexivity|exact HQ|discriminate]).
  destruct (negb ((List.length plain0 =? 1)%nat || (List.length (eas root) =? 1)%nat || again)); [now apply Fail|].
  destruct (check_assertions c irt req false false s (map as_checked plain0)) as [s1|] eqn:E1; [|now apply Fail].
  destruct (check_views_all _ _ _ _ _ _ _ E1) as [FP A1]. rewrite app_nil_r in A1.
  destruct (negb (find_encrypt_data root)).
  { apply stage_checked_same; [reflexivity|exact Q0|]. intros s' H. injection H as <-. exists plain0. cbn [push_all acc].
    now rewrite A1, ids_of_map. }
  destruct (dec_loop (fuel_for (reserialize root) fs) find_encrypt_data (t_keys tc) (t_pol tc) fs (reserialize root)) as [[t1 fs1]|];
    [|now apply Fail].
  destruct (Hloops _ _ eq_refl) as [Q1 Hloop2].
  destruct (verify_views (ea_asrts t1)) as [[]|] eqn:EV; [|now apply Fail]. apply verify_views_ok in EV.
  destruct (dec_loop (fuel_for t1 fs1) cond2 (t_keys tc) (t_pol tc) fs1 t1) as [[t2 fs2]|]; [|now apply Fail].
  destruct (Hloop2 _ _ eq_refl) as [Q2 Hsame].
  destruct (t_fixed tc && negb (nlist_eqb (ids_of (ea_asrts t2)) (ids_of (ea_asrts t1)) && nlist_eqb (ids_of (asrts t2)) (ids_of plain0))) eqn:EQ;
    [now apply Fail|]. destruct (Hsame EQ) as [SAME EP].
  destruct (advice_pass (ea_asrts t2 ++ asrts t2)); [|now apply Fail].
  fold (ea_as_of t2). rewrite SAME. unfold ea_as_of.
  destruct (check_assertions c irt req true true s1 (map v_a (ea_asrts t1))) as [s2|] eqn:E2.
  - apply stage_checked_same; [reflexivity|exact Q2|]. intros s' H. injection H as <-.
    rewrite (check_list_as_checked _ _ _ _ _ _ EV) in E2. destruct (check_views_all _ _ _ _ _ _ _ E2) as [FV A2].
    exists (ea_asrts t1 ++ plain0). split; [|apply Forall_app; split; assumption].
    cbn [push_all acc]. rewrite A2, A1, <- ids_of_map, EP. unfold ids_of. now rewrite map_app, <- app_assoc.
  - split; [exact Q2|]. split; [discriminate|]. cbn [so_residue acc].
    destruct (acc_after_failure_views c irt req (ea_asrts t1) s1 EV) as (l1 & A & F).
    exists l1. rewrite A, A1. split; [reflexivity|exact F].
Qed.

Lemma parse_t_checked tc c irt req s root again fs :
  t_fixed tc = true ->
  (forall s', so_res (parse_t tc c irt req s root again fs) = Ok s' ->
     exists l, acc s' = acc s ++ ids_of l /\ Forall (checked_view c irt req) l) /\
  (exists l, acc (so_residue (parse_t tc c irt req s root again fs)) = acc s ++ ids_of l /\ Forall (checked_view c irt req) l).
Proof.
  intros Hfix. refine (proj2 (parse_t_stage_checked (fun _ => True) tc c irt req s root again fs I _)).
  intros t1 fs1 _. split; [exact I|]. intros t2 fs2 L2. split; [exact I|]. rewrite Hfix. cbn [andb]. intros EQ.
  apply negb_false_iff, andb_true_iff in EQ as [EW EP]. apply str_eqb_eq in EW. apply str_eqb_eq in EP. split; [|exact EP].
  (* the loop only adds assertions, and the identifier lists have the same length *)
  destruct (dec_loop_grows _ _ _ _ _ _ _ _ L2) as [_ GW]. symmetry. apply subseq_same_length; [exact GW|].
  apply (f_equal (@List.length N)) in EW. rewrite !ids_of_map, !map_length in EW. unfold ea_as_of. now rewrite !map_length.
Qed.

Lemma verify_is_x {X} c req s r (x : X) :
  verify_x (fun s (_ : X) => (parse_assertion c req s r, x)) c s r x = (verify c req s r, x).
Proof.
  unfold verify, verify_x, authn_verify. destruct (_ && _ && _); [reflexivity|].
  destruct (verify_core (verify_in_of c r)) as [[[]|]|]; try reflexivity. now destruct (parse_assertion c req s r).
Qed.

Lemma parse_response_is_x c r :
  parse_response c r =
  parse_response_x (fun req s (_ : unit) => (parse_assertion c req s r, tt)) (fun req s _ => parse_assertion_residue c req s r) c r tt.
Proof.
  rewrite parse_response_eq. unfold parse_response_x, verify_retry. cbv zeta. fold (stage1 c r).
  destruct (stage1 c r) as [[s b]|]; [|reflexivity]. destruct (negb (r_valid_instance r)); [reflexivity|].
  rewrite !verify_is_x. destruct (verify c true s r) as [x|e]; [reflexivity|].
  destruct (is_signature_error e); [|reflexivity]. destruct (was c); [reflexivity|].
  now destruct (verify c false (parse_assertion_residue c true s r) r).
Qed.

Lemma verify_x_ok {X} (stage : st -> X -> result st * X) c s r (x : X) s' x' :
  verify_x stage c s r x = (Ok (Some s'), x') -> stage s x = (Ok s', x').
Proof.
  unfold verify_x.
  destruct (_ && _ && _); [discriminate|].
  destruct (verify_core (verify_in_of c r)) as [[[]|]|e]; try discriminate.
  destruct (stage s x) as [[s1|e1] x1]; intros H; [|discriminate]. injection H as <- <-. reflexivity.
Qed.

Lemma verify_x_err {X} (stage : st -> X -> result st * X) c s r (x : X) e x' :
  verify_x stage c s r x = (Err e, x') -> x' = x \/ exists e', stage s x = (Err e', x').
Proof.
  unfold verify_x.
  destruct (_ && _ && _); [intros H; injection H as _ <-; now left|].
  destruct (verify_core (verify_in_of c r)) as [[[]|]|e0]; try (intros H; injection H as _ <-; now left); try discriminate.
  destruct (stage s x) as [[s1|e1] x1]; intros H; [discriminate|]. injection H as _ <-. right. now exists e1.
Qed.

Lemma accepted_x {X} (stage : bool -> st -> X -> result st * X) residue c r (x0 : X) o :
  parse_response_x stage residue c r x0 = Ok o ->
  exists rq s0, loads c rq r = Ok s0 /\
    ((exists s' x', stage true s0 x0 = (Ok s', x') /\ o_assertions o = acc s' /\ o_name_id o = nid s') \/
     (exists x1 s' x', (x1 = x0 \/ exists e, stage true s0 x0 = (Err e, x1)) /\ was c = false /\
        stage false (residue true s0 x0) x1 = (Ok s', x') /\ o_assertions o = acc s' /\ o_name_id o = nid s')).
Proof.
  unfold parse_response_x. cbv zeta. fold (stage1 c r). intros H.
  destruct (stage1 c r) as [[s0 b]|] eqn:S1; [|discriminate]. apply stage1_ok in S1 as [HL _].
  exists b, s0. split; [exact HL|].
  destruct (negb (r_valid_instance r)); [discriminate|].
  destruct (verify_x (stage true) c s0 r x0) as [[[s'|]|e] x1] eqn:V1.
  - left. apply verify_x_ok in V1.
    match type of H with (if ?x then _ else _) = _ => destruct x; [discriminate|] end. injection H as <-. now exists s', x1.
  - discriminate.
  - destruct (is_signature_error e); [|discriminate]. destruct (was c) eqn:Wa; [discriminate|].
    destruct (verify_x (stage false) c (residue true s0 x0) r x1) as [[[s'|]|e2] x2] eqn:V2; try discriminate.
    right. apply verify_x_ok in V2. apply verify_x_err in V1.
    match type of H with (if ?x then _ else _) = _ => destruct x; [discriminate|] end. injection H as <-.
    exists x1, s', x2. auto.
Qed.

(* Model.Response.parse_response, inverted through the skeleton: the assertion stage that produced the outcome *)
Lemma accepted_stage c r o : parse_response c r = Ok o ->
  exists req s s', parse_assertion c req s r = Ok s' /\
    incl (acc s) (map a_id (decrypted_prefix (r_encrypted r))) /\ nid s = None /\
    o_assertions o = acc s' /\ o_name_id o = nid s'.
Proof.
  rewrite parse_response_is_x. intros H. apply accepted_x in H as (rq & s0 & HL & H).
  destruct (loads_ok _ _ _ _ HL) as (cf & -> & _).
  destruct H as [(s' & x' & Hs & Ho)|(x1 & s' & x' & _ & _ & Hs & Ho)]; injection Hs as Hs _.
  - exists true, (st0 cf), s'. repeat split; try tauto. intros x [].
  - exists false, (parse_assertion_residue c true (st0 cf) r), s'. rewrite residue_nid. repeat split; try tauto.
    exact (residue_acc_incl c true (st0 cf) r).
Qed.

Lemma checked_ids c irt req l : Forall (checked_view c irt req) l ->
  Forall (fun n => exists req v, a_id (v_a v) = n /\ checked_view c irt req v) (ids_of l).
Proof. intros F. apply Forall_map. eapply Forall_impl; [|exact F]. intros v Hv. now exists req, v. Qed.

(* every assertion the application reads went through the plain-path checks, its signature verified, provided
   every run of the stage is [stage_checked] under an invariant [Q] of the fault schedule *)
Lemma tree_checked_when (Q : list bool -> Prop) tc c r root fs o :
  Q fs ->
  (forall req s root again fs, Q fs -> stage_checked Q c (r_irt r) req s (parse_t tc c (r_irt r) req s root again fs)) ->
  parse_response_t tc c r root fs = Ok o ->
  Forall (fun n => exists req v, a_id (v_a v) = n /\ checked_view c (r_irt r) req v) (o_assertions o).
Proof.
  intros Q0 HP H. unfold parse_response_t in H. apply accepted_x in H as (rq & s0 & HL & H).
  destruct (loads_fields _ _ _ _ HL) as (_ & _ & A0).
  destruct (HP true s0 root false fs Q0) as (F0 & P0 & (lr & AR & FR)).
  destruct H as [(s' & x' & Hs & -> & _)|([[fs1 root1] again1] & s' & x' & Hx1 & _ & Hs & -> & _)].
  - unfold stage_t in Hs. injection Hs as Hs _. destruct (P0 _ Hs) as (l & -> & F). rewrite A0. exact (checked_ids _ _ _ _ F).
  - assert (Q fs1) as Q1.
    { destruct Hx1 as [Hx1|(e & He)]; [now injection Hx1 as -> _ _|]. unfold stage_t in He. injection He as _ <- _ _. exact F0. }
    unfold stage_t in Hs. injection Hs as Hs _.
    destruct (HP false (residue_t tc c (r_irt r) true s0 (fs, root, false)) root1 again1 fs1 Q1) as (_ & P & _).
    destruct (P _ Hs) as (l & -> & F). unfold residue_t. rewrite AR, A0. cbn [app].
    apply Forall_app. split; [exact (checked_ids _ _ _ _ FR)|exact (checked_ids _ _ _ _ F)].
Qed.
