(* Proofs/CertSelect_lemmas.v — which certificates a signature is checked under (Model/CertSelect.v): what
   md_certs serves, the loop over the candidates, and the verdict of check_signature as a function of the chosen list. *)
From PV Require Import Lib.Base Model.Sigver Model.CertSelect Proofs.Sigver_lemmas Proofs.Dedup.
Open Scope N_scope.

Lemma memN_In x l : memN x l = true <-> In x l.
Proof. exact (gmem_In N.eqb N.eqb_eq x l). Qed.

Lemma extract_certs_In use r : forall res x,
  In x (extract_certs use r res) <-> In x res \/ exists kd, In kd r /\ use_matches use kd = true /\ In x (kd_certs kd).
Proof. exact (gextract_In N.eqb N.eqb_eq kd_use kd_certs use r). Qed.

Lemma use_matches_iff use kd : use_matches use kd = true <-> kd_use kd = Some use \/ kd_use kd = None.
Proof.
  unfold use_matches. destruct (kd_use kd) as [u|]; [rewrite str_eqb_eq|]; split; auto.
  - intros ->. now left.
  - intros [H|H]; [now injection H|discriminate].
Qed.

(* MetaData.certs serves exactly: certificates of key descriptors of THAT entity
   (the first entry with that id) whose use equals the requested one or is absent *)
Lemma md_certs_spec m eid use l :
  md_certs m eid use = Some l ->
  exists i e, eid = Some i /\ find_entity m i = Some e /\
    forall x, In x l <-> exists r kd, In r e /\ In kd r /\ use_matches use kd = true /\ In x (kd_certs kd).
Proof.
  unfold md_certs. destruct eid as [i|]; [|discriminate]. destruct (find_entity m i) as [e|] eqn:F; [|discriminate].
  intros H. injection H as <-. exists i, e. split; [reflexivity|]. split; [exact F|].
  exact (gextract_flat_In N.eqb N.eqb_eq kd_use kd_certs use e).
Qed.

(* ---- the loop over candidate certificates succeeds iff one of them holds the signer's key ---- *)
Lemma tool_for_success signer cert : reports_success (tool_for signer cert) = N.eqb cert signer.
Proof. unfold tool_for, reports_success. cbn. destruct (N.eqb cert signer); reflexivity. Qed.

Lemma validate_tool_for signer cert :
  validate_signature (tool_for signer cert) = if N.eqb cert signer then Ok true else Err XmlsecError.
Proof. unfold tool_for. destruct (N.eqb cert signer); reflexivity. Qed.

Lemma cert_loop_tool_for signer certs : cert_loop (map (tool_for signer) certs) = Ok (memN signer certs).
Proof.
  rewrite (cert_loop_decided (tool_for signer) (fun c => N.eqb c signer)) by apply validate_tool_for.
  f_equal. apply existsb_ext. intros c. apply N.eqb_sym.
Qed.

Lemma runs_tool_for signer certs ovc :
  check_signature_runs false (map (tool_for signer) certs) ovc true =
  if memN signer certs then Ok tt else Err (s2l "SignatureError").
Proof. unfold check_signature_runs. rewrite cert_loop_tool_for. now destruct (memN signer certs). Qed.

Lemma check_signature_spec mp m issuer only_md embedded signer :
  check_signature mp m issuer only_md embedded signer =
  match candidate_certs mp m issuer only_md embedded with
  | Err e => Err e
  | Ok certs => if memN signer certs then Ok tt else Err (s2l "SignatureError")
  end.
Proof.
  unfold check_signature. destruct (candidate_certs mp m issuer only_md embedded); [apply runs_tool_for|reflexivity].
Qed.

(* ---- the verdict of _check_signature as a function of the chosen certificate list; [from] is the answer
   of metadata.certs (whichever model of it), so that every variant of the selection shares these facts ---- *)
Definition chosen_of (mp : bool) (from : option (list N)) (only_md : bool) (embedded : list N) : list N :=
  let from_md := if mp then match from with Some l => l | None => [] end else [] in
  if nilb from_md && negb only_md then embedded else from_md.

Definition verdict_of_keys (ks : list N) (s : N) : result unit :=
  match ks with [] => Err (s2l "MissingKey") | _ => if memN s ks then Ok tt else Err (s2l "SignatureError") end.

Lemma verdict_runs ks s :
  match (match ks with [] => Err (s2l "MissingKey") | _ => Ok ks end) with
  | Err e => Err e
  | Ok certs => check_signature_runs false (map (tool_for s) certs) false true
  end = verdict_of_keys ks s.
Proof. destruct ks; [reflexivity|apply runs_tool_for]. Qed.

Lemma check_signature_verdict mp m issuer only_md embedded signer :
  check_signature mp m issuer only_md embedded signer =
  verdict_of_keys (chosen_of mp (md_certs m issuer SIGNING) only_md embedded) signer.
Proof. exact (verdict_runs _ signer). Qed.

Lemma check_signature_before_fix_verdict mp m issuer only_md embedded signer :
  check_signature_before_fix mp m issuer only_md embedded signer =
  verdict_of_keys (chosen_of mp (md_certs_before_fix m issuer SIGNING) only_md embedded) signer.
Proof. exact (verdict_runs _ signer). Qed.

Lemma verdict_of_keys_ok ks s : verdict_of_keys ks s = Ok tt <-> In s ks.
Proof.
  unfold verdict_of_keys. rewrite <- memN_In. destruct ks; [split; discriminate|].
  destruct (memN s (n :: ks)); split; congruence.
Qed.

(* default setting (only_use_keys_in_metadata on): accepted iff the key is in the metadata answer *)
Lemma verdict_default mp from embedded s :
  verdict_of_keys (chosen_of mp from true embedded) s = Ok tt <-> mp = true /\ exists l, from = Some l /\ In s l.
Proof.
  rewrite verdict_of_keys_ok. unfold chosen_of. rewrite andb_false_r. destruct mp; [|split; [intros []|now intros [? _]]].
  destruct from as [l|].
  - split; [intros H; split; [reflexivity|now exists l]|]. intros (_ & l' & E & H). now injection E as ->.
  - split; [intros []|]. intros (_ & l' & E & _). discriminate.
Qed.

(* either setting: the key comes from the metadata answer, or (setting off) from the embedded certificates *)
Lemma verdict_cases mp from only_md embedded s :
  verdict_of_keys (chosen_of mp from only_md embedded) s = Ok tt ->
  (mp = true /\ exists l, from = Some l /\ In s l) \/ (only_md = false /\ In s embedded).
Proof.
  rewrite verdict_of_keys_ok. unfold chosen_of. cbv zeta.
  destruct (nilb (if mp then match from with Some l => l | None => [] end else []) && negb only_md) eqn:E.
  - apply andb_true_iff in E as [_ Ho]. apply negb_true_iff in Ho. now right.
  - intros H. left. destruct mp; [|destruct H]. split; [reflexivity|]. destruct from as [l|]; [now exists l|destruct H].
Qed.

Lemma check_signature_default mp m issuer embedded s :
  check_signature mp m issuer true embedded s = Ok tt <->
  mp = true /\ exists l, md_certs m issuer SIGNING = Some l /\ In s l.
Proof. rewrite check_signature_verdict. apply verdict_default. Qed.

(* [k] is a certificate of a key descriptor, for that use or use-less, of the entity the store serves for [i] *)
Lemma md_certs_In m i use k :
  (exists l, md_certs m (Some i) use = Some l /\ In k l) <->
  exists e r kd, find_entity m i = Some e /\ In r e /\ In kd r /\
    (kd_use kd = Some use \/ kd_use kd = None) /\ In k (kd_certs kd).
Proof.
  split.
  - intros (l & Hm & Hk). destruct (md_certs_spec _ _ _ _ Hm) as (i' & e & Hi & F & S). injection Hi as <-.
    destruct (proj1 (S k) Hk) as (r & kd & Hr & Hkd & Hu & Hc). apply use_matches_iff in Hu. now exists e, r, kd.
  - intros (e & r & kd & F & Hr & Hkd & Hu & Hc). unfold md_certs. rewrite F. eexists. split; [reflexivity|].
    apply in_flat_map. exists r. split; [exact Hr|]. apply extract_certs_In. right. exists kd.
    now rewrite use_matches_iff.
Qed.
