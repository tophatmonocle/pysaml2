(* Proofs/MdStoreLoad_lemmas.v — loads on one long-lived store (Model/MdStoreLoad.v): when an operation's check
   passes, what a load does to the store, and where the entries of a history's final store come from. *)
From PV Require Import Lib.Base Model.Sigver Proofs.Sigver_lemmas Model.MdStoreLoad.
Open Scope N_scope.

Lemma check_source_ok signed has_cert r b :
  check_source signed has_cert r = Ok b ->
  signed && has_cert = false \/ reports_success r = true.
Proof.
  unfold check_source. destruct has_cert; [|intros _; left; now rewrite andb_false_r].
  destruct signed; [|intros _; now left].
  destruct (validate_signature r) as [v|e] eqn:Hv; [|discriminate].
  apply validate_signature_true in Hv as [_ Hs]. intros _. now right.
Qed.

(* an operation whose check passes did not have to verify, or its tool run reported success *)
Lemma op_succeeds_cases o :
  op_succeeds o = true -> op_must_verify o = false \/ reports_success (op_tool o) = true.
Proof.
  unfold op_succeeds. destruct o as [[[[k d] sg] hc] r]. cbn [op_check op_must_verify op_tool].
  destruct (check_source sg hc r) as [b|e] eqn:Hc; [|discriminate]. intros _. exact (check_source_ok _ _ _ _ Hc).
Qed.

Lemma op_fails o : op_must_verify o = true -> reports_success (op_tool o) = false -> op_succeeds o = false.
Proof.
  intros Hm Hr. destruct (op_succeeds o) eqn:Ho; [|reflexivity].
  apply op_succeeds_cases in Ho as [H|H]; congruence.
Qed.

Lemma load_fst o s : fst (load o s) = if op_succeeds o then set_key (op_key o) (op_doc o) s else s.
Proof. unfold load, op_succeeds. now destruct (op_check o). Qed.

Lemma run_history_app ops1 : forall ops2 s, run_history (ops1 ++ ops2) s = run_history ops2 (run_history ops1 s).
Proof. induction ops1 as [|o ops1 IH]; intros ops2 s; [reflexivity|]. cbn. apply IH. Qed.

Lemma set_key_In k d s k' d' : In (k', d') (set_key k d s) -> (k', d') = (k, d) \/ In (k', d') s.
Proof.
  induction s as [|[k0 d0] s IH]; cbn.
  - intros [H|[]]; left; now symmetry.
  - destruct (N.eqb k k0).
    + intros [H|H]; [left; now symmetry|right; now right].
    + intros [H|H]; [right; now left|]. destruct (IH H) as [E|E]; [now left|right; now right].
Qed.

(* provenance: whatever the store holds after a history was there at the start
   or was put there by an operation whose check passed *)
Lemma run_history_provenance ops : forall s k d,
  In (k, d) (run_history ops s) ->
  In (k, d) s \/ exists o, In o ops /\ op_key o = k /\ op_doc o = d /\ op_succeeds o = true.
Proof.
  induction ops as [|o ops IH]; intros s k d H; [now left|].
  cbn [run_history] in H. apply IH in H as [H|(o' & Hin & Hk & Hd & Hs)].
  - rewrite load_fst in H. destruct (op_succeeds o) eqn:Ho; [|now left].
    apply set_key_In in H as [E|H]; [|now left].
    inversion E; subst. right. exists o. repeat split; [now left|exact Ho].
  - right. exists o'. repeat split; [now right|exact Hk|exact Hd|exact Hs].
Qed.
