(* Proofs/Glue_xsw.v — GLUE between the two symbolic document models and the three pre-checks:

     Model/Xmlsec.v  (C10 requests, C16 metadata): tree = El | Sg refs key sv,  tool_verify dupfail, precheck
     Model/Xsw.v     (C01): Sg carries its own ID / payload / element children, three duplicate-ID policies,
                            precheck = sigver._enveloped_signature_ok
     Model/Request.v enveloped_ok = Xmlsec.precheck (which counts the carriers of the ID among ALL elements, as the library)
     Model/MdSig.v   md_precheck  = _enveloped_signature_ok(..., whole_document_ok=True)

   [emb] embeds an Xmlsec document into the Xsw document type (element names shifted by one: Xsw reserves
   name 0 for ds:Signature; an embedded signature has no ID, no payload, no element children).  Through it:
   sub-trees, first signature, ID tables, digests (tree_eqb), the enveloped transform (remove_at), the tool
   (tool_verify, dupfail = DupFail / first-wins = DupFirst) and the pre-check commute: Xmlsec.precheck, hence
   Request.enveloped_ok, IS Xsw.precheck.  A pre-check that counted the carriers of the ID among the elements of the
   asked name only (precheck_registered_only, not the library) would be strictly weaker (witness: the ID also carried
   by an element of another name, docs/Glue.md); md_precheck with a "#id" reference is Xsw.precheck on the root.
   Consequence: C01_relied_is_covered / C01_accepted_content_was_signed hold for requests (Model/Request.v
   check_sig) and for prechecked metadata; read back through [emb] (which is injective), C01's coverage is the
   signature_covers_root of C10 (signature_covers_request, tamper_refused). *)
From PV Require Import Lib.Base.
From PV Require Model.Xmlsec Model.Xsw Model.MdSig Model.Request Proofs.Xsw_lemmas Proofs.Request_lemmas.
Module M := PV.Model.Xmlsec.
Module X := PV.Model.Xsw.
Module XL := PV.Proofs.Xsw_lemmas.
Module RQ := PV.Model.Request.
Module MD := PV.Model.MdSig.
Module RL := PV.Proofs.Request_lemmas.
Open Scope N_scope.

Section MTreeInd.
  Variable P : M.tree -> Prop.
  Hypothesis HEl : forall n i p kids, Forall P kids -> P (M.El n i p kids).
  Hypothesis HSg : forall refs k ok, Forall (fun ud : str * M.tree => P (snd ud)) refs -> P (M.Sg refs k ok).
  Fixpoint mtree_ind2 (t : M.tree) : P t :=
    match t with
    | M.El n i p kids =>
        HEl n i p kids
          ((fix go (l : list M.tree) : Forall P l :=
              match l with [] => Forall_nil P | x :: r => Forall_cons x (mtree_ind2 x) (go r) end) kids)
    | M.Sg refs k ok =>
        HSg refs k ok
          ((fix go (l : list (str * M.tree)) : Forall (fun ud : str * M.tree => P (snd ud)) l :=
              match l with [] => Forall_nil _ | ud :: r => Forall_cons ud (mtree_ind2 (snd ud)) (go r) end) refs)
    end.
End MTreeInd.

Fixpoint emb (t : M.tree) : X.tree :=
  match t with
  | M.El n i pl kids => X.El (N.succ n) i pl (map emb kids)
  | M.Sg refs key sv => X.Sg (map (fun ud => (fst ud, emb (snd ud))) refs) key sv None 0 []
  end.
(* the name of an embedded element: Xsw keeps name 0 for ds:Signature *)
Definition nm' (nm : N) : N := N.succ nm.
(* the tool's duplicate-ID policy *)
Definition pol_of (dupfail : bool) : X.dup_policy := if dupfail then X.DupFail else X.DupFirst.

Lemma succ_eqb a b : N.eqb (N.succ a) (N.succ b) = N.eqb a b.
Proof.
  destruct (N.eqb_spec a b) as [->|Hn]; [apply N.eqb_refl|]. apply N.eqb_neq. intros H. apply N.succ_inj in H. contradiction.
Qed.

Lemma emb_is_sig t : X.is_sig (emb t) = M.is_sig t.
Proof. destruct t; reflexivity. Qed.

Lemma emb_kids_El n i pl kids : X.t_kids (emb (M.El n i pl kids)) = map emb kids.
Proof. reflexivity. Qed.

Lemma count_sigs_emb kids : X.count_sigs (map emb kids) = M.count_sigs kids.
Proof.
  unfold X.count_sigs, M.count_sigs. induction kids as [|c r IH]; [reflexivity|]. cbn [map filter].
  rewrite emb_is_sig. destruct (M.is_sig c); cbn [List.length]; now rewrite IH.
Qed.

Lemma emb_inj : forall a b, emb a = emb b -> a = b.
Proof.
  induction a as [n i pl kids IH|refs key sv IH] using mtree_ind2; intros [n2 i2 pl2 kids2|refs2 key2 sv2] H; try discriminate;
    cbn [emb] in H.
  - injection H as Hn -> -> Hk. apply N.succ_inj in Hn. subst n2. f_equal. exact (map_inj_Forall emb kids IH _ Hk).
  - injection H as Hr -> ->. f_equal. apply (map_inj_Forall (fun ud => (fst ud, emb (snd ud))) refs); [|exact Hr].
    eapply Forall_impl; [|exact IH]. intros [u d] Hd [u2 d2] [= -> E]. f_equal. exact (Hd _ E).
Qed.

(* the two developments define these list functions separately, with the same text *)
Lemma remove_nth_map {A B} (f : A -> B) k l : X.remove_nth k (map f l) = map f (M.remove_nth k l).
Proof. revert k. induction l as [|x r IH]; intros [|k]; cbn; try reflexivity. now rewrite IH. Qed.
Lemma replace_nth_map {A B} (f : A -> B) k y l : X.replace_nth k (f y) (map f l) = map f (M.replace_nth k y l).
Proof. revert k. induction l as [|x r IH]; intros [|k]; cbn; try reflexivity. now rewrite IH. Qed.
Lemma has_dup_same regs : X.has_dup regs = M.has_dup regs.
Proof. reflexivity. Qed.

Lemma subtree_emb : forall p t, X.subtree_at p (emb t) = option_map emb (M.subtree_at p t).
Proof.
  induction p as [|k p IH]; intros t; [reflexivity|]. destruct t as [n i pl kids|refs key sv].
  - cbn [X.subtree_at M.subtree_at]. rewrite emb_kids_El, nth_error_map.
    destruct (nth_error kids k) as [c|]; cbn [option_map]; [apply IH|reflexivity].
  - cbn [X.subtree_at M.subtree_at emb X.t_kids]. destruct k; reflexivity.
Qed.

Lemma first_sig_emb : forall t, X.first_sig (emb t) = M.first_sig t.
Proof.
  induction t as [n i pl kids IH|refs key sv _] using mtree_ind2; [|reflexivity].
  cbn [emb X.first_sig M.first_sig]. generalize O.
  induction IH as [|c r Hc _ IHr]; intros k; [reflexivity|].
  cbn [map X.first_in]. rewrite emb_is_sig, Hc. destruct (M.is_sig c); [reflexivity|].
  destruct (M.first_sig c); [reflexivity|]. apply IHr.
Qed.

(* Xmlsec's ID tables hold absolute paths built from [here], Xsw's hold paths relative to the node *)
Definition shift (here : X.path) (vp : str * X.path) : str * X.path := (fst vp, here ++ snd vp).

Lemma shift_nil l : map (shift []) l = l.
Proof. induction l as [|[v p] r IH]; [reflexivity|]. cbn [map]. now rewrite IH. Qed.

Lemma shift_cons here k l :
  map (shift here) (map (fun vp : str * X.path => (fst vp, k :: snd vp)) l) = map (shift (here ++ [k])) l.
Proof.
  rewrite map_map. apply map_ext. intros [v p]. unfold shift. cbn [fst snd]. now rewrite <- app_assoc.
Qed.

(* --id-attr:ID <name>: the registered IDs, with their paths, in document order *)
Lemma registered_emb nm : forall t here,
  M.registered nm t here = map (shift here) (X.registered (nm' nm) (emb t)).
Proof.
  unfold X.registered, nm'.
  induction t as [n i pl kids IH|refs key sv _] using mtree_ind2; intros here; [|reflexivity].
  rewrite XL.ids_where_unfold, map_app, emb_kids_El. cbn [M.registered]. f_equal.
  - unfold X.own_id. cbn [emb X.t_id X.t_name]. rewrite succ_eqb. destruct i as [v|]; [|reflexivity].
    destruct (N.eqb n nm); [|reflexivity]. unfold shift. cbn [map fst snd]. now rewrite app_nil_r.
  - generalize O. induction IH as [|c r Hc _ IHr]; intros k; [reflexivity|].
    cbn [map X.ids_in]. rewrite map_app, shift_cons, <- Hc. f_equal. apply IHr.
Qed.

Lemma registered_emb_root nm t : X.registered (nm' nm) (emb t) = M.registered nm t [].
Proof. now rewrite registered_emb, shift_nil. Qed.

Lemma tree_eqb_emb : forall a b, X.tree_eqb (emb a) (emb b) = M.tree_eqb a b.
Proof.
  induction a as [n1 i1 p1 k1 IH|r1 key1 ok1 IH] using mtree_ind2; intros [n2 i2 p2 k2|r2 key2 ok2]; try reflexivity.
  - cbn [emb X.tree_eqb M.tree_eqb]. rewrite succ_eqb. unfold X.opt_str_eqb. f_equal.
    revert k2. induction IH as [|c r Hc _ IHr]; intros [|c2 r2]; try reflexivity.
    cbn [map X.list_eqb]. now rewrite Hc, IHr.
  - cbn [emb X.tree_eqb M.tree_eqb X.opt_str_eqb X.list_eqb]. rewrite N.eqb_refl, !andb_true_r. f_equal.
    revert r2. induction IH as [|[u d] r Hd _ IHr]; intros [|[u2 d2] r2']; try reflexivity.
    cbn [map X.list_eqb fst snd]. cbn [snd] in Hd. now rewrite Hd, IHr.
Qed.

Lemma X_remove_at_cons2 k k2 p2 t :
  X.remove_at (k :: k2 :: p2) t =
  match nth_error (X.t_kids t) k with
  | Some c => X.with_kids t (X.replace_nth k (X.remove_at (k2 :: p2) c) (X.t_kids t))
  | None => t
  end.
Proof. reflexivity. Qed.
Lemma M_remove_at_cons2 k k2 p2 n i pl kids :
  M.remove_at (k :: k2 :: p2) (M.El n i pl kids) =
  match nth_error kids k with
  | Some c => M.El n i pl (M.replace_nth k (M.remove_at (k2 :: p2) c) kids)
  | None => M.El n i pl kids
  end.
Proof. reflexivity. Qed.

Lemma remove_at_emb : forall p t, X.remove_at p (emb t) = emb (M.remove_at p t).
Proof.
  induction p as [|k p IH]; intros t; [destruct t; reflexivity|].
  destruct t as [n i pl kids|refs key sv].
  - destruct p as [|k2 p2].
    + cbn [X.remove_at M.remove_at emb X.t_kids X.with_kids]. now rewrite remove_nth_map.
    + rewrite X_remove_at_cons2, M_remove_at_cons2, emb_kids_El, nth_error_map.
      destruct (nth_error kids k) as [c|]; cbn [option_map]; [|reflexivity].
      rewrite IH. cbn [emb X.with_kids]. now rewrite replace_nth_map.
  - destruct p as [|k2 p2]; [destruct k; reflexivity|]. rewrite X_remove_at_cons2. cbn [emb X.t_kids]. destruct k; reflexivity.
Qed.

Lemma lookup_pol dupfail v regs : X.lookup (pol_of dupfail) v regs = M.lookup_id v regs.
Proof. destruct dupfail; reflexivity. Qed.

Lemma resolve_emb dupfail u regs : X.resolve (pol_of dupfail) u regs = M.resolve u regs.
Proof. unfold X.resolve, M.resolve. destruct u as [|c x]; [reflexivity|]. now rewrite lookup_pol. Qed.

Lemma dup_refused_pol dupfail regs : X.dup_refused (pol_of dupfail) regs = dupfail && M.has_dup regs.
Proof. destruct dupfail; reflexivity. Qed.

(* one Reference of the signature being processed *)
Lemma ref_ok_emb dupfail doc regs ps ud :
  X.ref_ok (pol_of dupfail) (emb doc) regs ps (fst ud, emb (snd ud)) =
  match M.resolve (fst ud) regs with
  | None => false
  | Some pt =>
      match M.subtree_at pt doc with
      | None => false
      | Some T => let T' := if M.is_prefix pt ps then M.remove_at (skipn (List.length pt) ps) T else T in
                  M.tree_eqb (snd ud) T'
      end
  end.
Proof.
  unfold X.ref_ok. cbn [fst snd]. rewrite resolve_emb. destruct (M.resolve (fst ud) regs) as [pt|]; [|reflexivity].
  rewrite subtree_emb. destruct (M.subtree_at pt doc) as [T|]; cbn [option_map]; [|reflexivity].
  change (X.is_prefix pt ps) with (M.is_prefix pt ps). destruct (M.is_prefix pt ps); [rewrite remove_at_emb|]; apply tree_eqb_emb.
Qed.

(* xmlsec1 --verify: the same verdict on the embedded document (root an element, as every XML document's is) *)
Theorem tool_verify_emb dupfail doc nm i cert :
  M.is_sig doc = false ->
  X.tool_verify (pol_of dupfail) (emb doc) (nm' nm) i cert = M.tool_verify dupfail doc nm i cert.
Proof.
  intros Hroot. unfold X.tool_verify, M.tool_verify. cbv zeta. rewrite registered_emb_root, dup_refused_pol.
  destruct (dupfail && M.has_dup (M.registered nm doc [])); [reflexivity|].
  replace (match i with Some v => X.lookup (pol_of dupfail) v (M.registered nm doc []) | None => Some [] end)
    with (match i with Some v => M.lookup_id v (M.registered nm doc []) | None => Some [] end)
    by (destruct i; [symmetry; apply lookup_pol|reflexivity]).
  destruct (match i with Some v => M.lookup_id v (M.registered nm doc []) | None => Some [] end) as [px|] eqn:El; [|reflexivity].
  rewrite subtree_emb. destruct (M.subtree_at px doc) as [[n xi pl kids|refs key sv]|] eqn:EX; cbn [option_map]; [| |reflexivity].
  2: { (* the start node is not a signature: the root is an element, a registered element has name nm + 1, not 0 *)
       exfalso. destruct i as [v|].
       - apply XL.lookup_id_In in El. rewrite <- registered_emb_root in El. apply XL.registered_spec in El as (Y & HY & _ & Hn).
         rewrite subtree_emb, EX in HY. injection HY as <-. exact (N.neq_succ_0 _ (eq_sym Hn)).
       - injection El as <-. cbn in EX. injection EX as ->. discriminate. }
  unfold X.first_sig_incl. rewrite emb_is_sig, first_sig_emb. cbn [M.is_sig].
  destruct (M.first_sig (M.El n xi pl kids)) as [p|]; [|reflexivity].
  rewrite subtree_emb. destruct (M.subtree_at (px ++ p) doc) as [[n2 i2 pl2 k2|refs key sv]|]; cbn [option_map emb]; try reflexivity.
  f_equal; [f_equal; destruct refs; reflexivity|].
  apply forallb_map_ext. intros ud. apply ref_ok_emb.
Qed.

(* the entry of an ID table is for the ID v: the test of Xmlsec.with_id and Xsw.carriers *)
Definition Pv (v : str) (r : str * X.path) : bool := str_eqb (fst r) v.

Lemma all_ids_emb : forall t here, M.all_ids t here = map (shift here) (X.ids_where (fun _ => true) (emb t)).
Proof.
  induction t as [n i pl kids IH|refs key sv _] using mtree_ind2; intros here; [|reflexivity].
  rewrite XL.ids_where_unfold, map_app, emb_kids_El. cbn [M.all_ids]. f_equal.
  - unfold X.own_id. cbn [emb X.t_id]. destruct i as [v|]; [|reflexivity]. unfold shift. cbn [map fst snd]. now rewrite app_nil_r.
  - generalize O. induction IH as [|c r Hc _ IHr]; intros k; [reflexivity|].
    cbn [map X.ids_in]. rewrite map_app, shift_cons, <- Hc. f_equal. apply IHr.
Qed.

Lemma with_id_all_ids v doc : M.with_id v (M.all_ids doc []) = filter (Pv v) (X.ids_where (fun _ => true) (emb doc)).
Proof. now rewrite all_ids_emb, shift_nil. Qed.

Lemma all_ids_count v t : List.length (M.with_id v (M.all_ids t [])) = List.length (X.carriers v (emb t)).
Proof. unfold X.carriers. now rewrite with_id_all_ids, map_length. Qed.

(* the registered carriers are among all carriers, with multiplicity (this and the two lemmas on with_id below relate
   the tool's table to the pre-check's count; the theorems of this file do not need them) *)
Lemma ids_where_le f v : forall t,
  (List.length (filter (Pv v) (X.ids_where f t)) <= List.length (filter (Pv v) (X.ids_where (fun _ => true) t)))%nat.
Proof.
  induction t as [t IH] using XL.tree_kids_ind. rewrite !XL.ids_where_unfold, !filter_app, !app_length.
  apply Nat.add_le_mono.
  - unfold X.own_id. destruct (X.t_id t) as [w|]; [|apply le_n]. destruct (f t); [apply le_n|apply Nat.le_0_l].
  - generalize O. induction IH as [|c r Hc _ IHr]; intros k; [apply le_n|].
    cbn [X.ids_in]. rewrite !filter_app, !app_length, !(filter_map (Pv v) (fun vp => (fst vp, k :: snd vp))), !map_length.
    apply Nat.add_le_mono; [exact Hc|exact (IHr (S k))].
Qed.

Lemma with_id_registered v nm doc :
  M.with_id v (M.registered nm doc []) = filter (Pv v) (X.registered (nm' nm) (emb doc)).
Proof. now rewrite registered_emb_root. Qed.

Lemma with_id_member v nm doc w p :
  In (w, p) (M.with_id v (M.registered nm doc [])) ->
  w = v /\ In p (X.carriers v (emb doc)) /\
  exists n xi pl kids, M.subtree_at p doc = Some (M.El n xi pl kids) /\ n = nm.
Proof.
  rewrite with_id_registered. intros H. apply filter_In in H as [H Hw]. unfold Pv in Hw. cbn in Hw. apply str_eqb_eq in Hw. subst w.
  apply XL.registered_spec in H as (Y & HY & Hi & Hn). split; [reflexivity|]. split; [apply XL.carriers_spec; eauto|].
  rewrite subtree_emb in HY. destruct (M.subtree_at p doc) as [[n xi pl kids|refs key sv]|]; try discriminate.
  - injection HY as <-. cbn in Hn. unfold nm' in Hn. apply N.succ_inj in Hn. now exists n, xi, pl, kids.
  - injection HY as <-. cbn in Hn. unfold nm' in Hn. exfalso. exact (N.neq_succ_0 _ (eq_sym Hn)).
Qed.

Lemma carrier_registered v nm doc p xi pl kids :
  In p (X.carriers v (emb doc)) -> M.subtree_at p doc = Some (M.El nm xi pl kids) ->
  In (v, p) (M.with_id v (M.registered nm doc [])).
Proof.
  intros Hc Hs. rewrite with_id_registered. apply filter_In. split; [|unfold Pv; cbn; apply str_eqb_refl].
  apply XL.carriers_spec in Hc as (Y & HY & Hi). apply XL.registered_spec. exists Y. rewrite subtree_emb, Hs in HY.
  injection HY as <-. rewrite subtree_emb, Hs. repeat split; auto.
Qed.

(* what both pre-checks ask of the element at path px once it is singled out *)
Definition tailM (doc : M.tree) (v : str) (px : M.path) : bool :=
  match M.subtree_at px doc with
  | Some (M.El n xi pl kids) =>
      match M.first_sig (M.El n xi pl kids) with
      | Some [k] =>
          Nat.eqb (M.count_sigs kids) 1 &&
          match nth_error kids k with
          | Some (M.Sg [(u, _)] _ _) => str_eqb u (M.HASH :: v)
          | _ => false
          end
      | _ => false
      end
  | _ => false
  end.
Definition tailX (doc : X.tree) (nm : N) (v : str) (px : X.path) : bool :=
  match X.subtree_at px doc with
  | Some (X.El n xi pl kids) =>
      N.eqb n nm &&
      match X.first_sig (X.El n xi pl kids) with
      | Some [k] =>
          Nat.eqb (X.count_sigs kids) 1 &&
          match nth_error kids k with
          | Some (X.Sg [(u, _)] _ _ _ _ _) => str_eqb u (X.HASH :: v)
          | _ => false
          end
      | _ => false
      end
  | _ => false
  end.
Definition named (doc : M.tree) (nm : N) (px : M.path) : bool :=
  match M.subtree_at px doc with Some (M.El n _ _ _) => N.eqb n nm | _ => false end.

Lemma M_precheck_unfold doc nm c0 v0 :
  M.precheck doc nm (Some (c0 :: v0)) =
  match M.with_id (c0 :: v0) (M.all_ids doc []) with [(_, px)] => named doc nm px && tailM doc (c0 :: v0) px | _ => false end.
Proof.
  unfold M.precheck, named, tailM. destruct (M.with_id (c0 :: v0) (M.all_ids doc [])) as [|[w px] [|y l]]; try reflexivity.
  destruct (M.subtree_at px doc) as [[n xi pl kids|refs key sv]|]; reflexivity.
Qed.
Lemma X_precheck_unfold doc nm c0 v0 :
  X.precheck doc nm (Some (c0 :: v0)) =
  match X.carriers (c0 :: v0) doc with [px] => tailX doc nm (c0 :: v0) px | _ => false end.
Proof. reflexivity. Qed.

Lemma tail_emb doc nm v px : tailX (emb doc) (nm' nm) v px = named doc nm px && tailM doc v px.
Proof.
  unfold tailX, tailM, named. rewrite subtree_emb.
  destruct (M.subtree_at px doc) as [[n xi pl kids|refs key sv]|]; cbn [option_map]; try reflexivity.
  cbn [emb]. change (X.first_sig (X.El (N.succ n) xi pl (map emb kids))) with (X.first_sig (emb (M.El n xi pl kids))).
  rewrite first_sig_emb.
  unfold nm'. rewrite succ_eqb. f_equal.
  destruct (M.first_sig (M.El n xi pl kids)) as [[|k [|k2 p2]]|]; try reflexivity.
  rewrite count_sigs_emb, nth_error_map. f_equal.
  destruct (nth_error kids k) as [[n2 i2 pl2 k2|[|[u d] [|ud2 r]] key sv]|]; reflexivity.
Qed.

(* Xmlsec.precheck (= Request.enveloped_ok) IS sigver._enveloped_signature_ok as C01 models it: an equality *)
Theorem xmlsec_precheck_is_xsw_precheck doc nm i :
  X.precheck (emb doc) (nm' nm) i = M.precheck doc nm i.
Proof.
  destruct i as [v|]; [|reflexivity]. destruct v as [|c0 v0]; [reflexivity|].
  rewrite M_precheck_unfold, X_precheck_unfold, with_id_all_ids. set (v := c0 :: v0). unfold X.carriers.
  change (fun r : str * X.path => str_eqb (fst r) v) with (Pv v).
  destruct (filter (Pv v) (X.ids_where (fun _ => true) (emb doc))) as [|[w px] [|y l]]; try reflexivity.
  cbn [map snd]. apply tail_emb.
Qed.

(* the same for requests: Request.enveloped_ok is Xmlsec.precheck by definition *)
Theorem enveloped_ok_is_xsw_precheck doc nm i :
  X.precheck (emb doc) (nm' nm) i = RQ.enveloped_ok doc nm i.
Proof. exact (xmlsec_precheck_is_xsw_precheck doc nm i). Qed.

(* NOT the library: a pre-check that counts the carriers of the ID among the elements of the asked NAME only (the IDs
   the tool registers) *)
Definition precheck_registered_only (doc : M.tree) (nm : N) (i : option str) : bool :=
  match i with
  | None => false
  | Some v =>
      match v with [] => false | _ =>
      match M.with_id v (M.registered nm doc []) with [(_, px)] => tailM doc v px | _ => false end end
  end.

(* the ID a-1 on the AuthnRequest (name 1) AND on an element of another name (name 7): the library refuses the document
   (harness/glue_probe.py), and so do all three models; precheck_registered_only accepts it, and the tool verifies *)
Definition foreign_carrier_doc : M.tree :=
  M.El 1 (Some (s2l "a-1")) 10
    [M.Sg [(M.HASH :: s2l "a-1", M.El 1 (Some (s2l "a-1")) 10 [M.El 7 (Some (s2l "a-1")) 11 []])] 5 true;
     M.El 7 (Some (s2l "a-1")) 11 []].
Lemma enveloped_ok_root_element doc nm i : RQ.enveloped_ok doc nm i = true -> M.is_sig doc = false.
Proof.
  destruct doc as [n xi pl kids|refs key sv]; [reflexivity|]. unfold RQ.enveloped_ok. intros H.
  destruct i as [[|c0 v0]|]; discriminate.
Qed.

(* _check_signature after certificate selection: the same verdict in both models *)
Theorem check_signature_x_emb dupfail doc nm i certs :
  X.check_signature_x (pol_of dupfail) (emb doc) (nm' nm) i certs =
  RQ.enveloped_ok doc nm i && existsb (M.tool_verify dupfail doc nm (RQ.node_id_arg i)) certs.
Proof.
  unfold X.check_signature_x. rewrite enveloped_ok_is_xsw_precheck.
  destruct (RQ.enveloped_ok doc nm i) eqn:E; [|reflexivity]. cbn [andb].
  apply existsb_ext. intros c. apply tool_verify_emb. exact (enveloped_ok_root_element _ _ _ E).
Qed.

(* ... and Xmlsec.check_signature_x is C01's check_signature_x *)
Theorem check_signature_x_is_xmlsec dupfail doc nm i certs :
  X.check_signature_x (pol_of dupfail) (emb doc) (nm' nm) i certs = M.check_signature_x dupfail doc nm i certs.
Proof.
  rewrite check_signature_x_emb. unfold M.check_signature_x, RQ.enveloped_ok.
  destruct (M.precheck doc nm i) eqn:E; [|reflexivity]. cbn [andb].
  (* the two differ in node_id_arg, i.e. only at the empty id, where the pre-check has already failed *)
  destruct i as [[|c0 v0]|]; try discriminate. reflexivity.
Qed.

(* a request whose signature check passes (F16 repaired; pre-check in force or its predicate assumed) is accepted by
   C01's check_signature_x under the certificates selected for its issuer, and under the verifying one alone *)
Lemma request_check_cert pre c d nm ovc :
  RQ.check_sig pre true c d nm ovc = Ok tt ->
  pre = true \/ RQ.enveloped_ok (RQ.d_tree d) nm (RQ.root_id (RQ.d_tree d)) = true ->
  exists certs cert, RQ.request_certs c d = Ok certs /\ In cert certs /\ RQ.cert_ok c cert = true /\
    forall l, In cert l ->
      X.check_signature_x (pol_of (RQ.c_dupfail c)) (emb (RQ.d_tree d)) (nm' nm) (RQ.root_id (RQ.d_tree d)) l = true.
Proof.
  intros H Hpre. destruct (RL.check_sig_fixed_ok _ _ _ _ _ H) as (certs & cert & Hc & Hin & Hv & Hok & He).
  exists certs, cert. split; [exact Hc|]. split; [exact Hin|]. split; [exact Hok|]. intros l Hl.
  rewrite check_signature_x_emb. apply andb_true_iff. split; [destruct Hpre as [->|E]; auto|].
  apply existsb_exists. now exists cert.
Qed.

(* ... so it is COVERED in C01's sense ... *)
Theorem request_relied_is_covered c d nm ovc :
  RQ.check_sig true true c d nm ovc = Ok tt ->
  exists certs v Xn k D,
    RQ.request_certs c d = Ok certs /\ RQ.root_id (RQ.d_tree d) = Some v /\
    XL.covered (emb (RQ.d_tree d)) (nm' nm) v certs [] Xn k D /\ Xn = emb (RQ.d_tree d).
Proof.
  intros H. destruct (request_check_cert _ _ _ _ _ H (or_introl eq_refl)) as (certs & cert & Hc & Hin & _ & Hx).
  destruct (XL.relied_is_covered _ _ _ _ _ (Hx certs Hin)) as (v & px & Xn & k & D & Hi & Hcov).
  (* the root carries the ID, the carrier is unique: the covered element is the root *)
  assert (px = []) as ->.
  { symmetry. apply (XL.cv_unique _ _ _ _ _ _ _ _ Hcov [] (emb (RQ.d_tree d))); [reflexivity|].
    destruct (RQ.d_tree d) as [n xi pl kids|refs key sv]; [exact Hi|discriminate Hi]. }
  exists certs, v, Xn, k, D. split; [exact Hc|]. split; [exact Hi|]. split; [exact Hcov|].
  pose proof (XL.cv_at _ _ _ _ _ _ _ _ Hcov) as Hat. now injection Hat.
Qed.

(* the entry point: a SIGNED request handed to the application (any kind, binding, configuration) *)
Theorem parse_request_relied_is_covered c k b w d :
  RQ.parse_request true true c k b w = Ok (Some d) -> RQ.root_signed (RQ.d_tree d) = true ->
  exists certs v Xn j D,
    RQ.request_certs c d = Ok certs /\ RQ.root_id (RQ.d_tree d) = Some v /\
    XL.covered (emb (RQ.d_tree d)) (nm' (RQ.kind_name k)) v certs [] Xn j D /\ Xn = emb (RQ.d_tree d).
Proof.
  intros H Hs. exact (request_relied_is_covered _ _ _ _ (RL.parse_request_signed _ _ _ _ _ _ _ H Hs)).
Qed.

(* C01's coverage read back on the request document itself: the root has exactly one Signature child, intact, by the
   certificate's key, whose single reference is "#" + the root's ID and digests exactly the root without it *)
Lemma covers_root_emb pol t nm cert :
  X.check_signature_x pol (emb t) (nm' nm) (RQ.root_id t) [cert] = true -> RQ.signature_covers_root t cert.
Proof.
  intros H. apply XL.check_signature_x_ok in H
    as (v & px & pl & kids' & k & cert' & sid & spl & skids & Hi & Hne & Hc & HX & _ & Hcnt & [<-|[]] & Hk).
  destruct t as [n xi pl0 kids|]; [cbn [RQ.root_id] in Hi; subst xi|discriminate Hi].
  (* the root carries the ID and the carrier is unique: the element is the root *)
  assert (px = []) as -> by (symmetry; apply (XL.carriers_unique _ _ _ Hc [] (emb (M.El n (Some v) pl0 kids))); reflexivity).
  cbn in HX. injection HX as Hn <- <-. rewrite count_sigs_emb in Hcnt. rewrite nth_error_map, <- Hn in Hk.
  destruct (nth_error kids k) as [[|[|[u dg] [|]] key sv]|] eqn:En; try discriminate Hk.
  cbn in Hk. injection Hk as -> Hd -> ->. rewrite remove_nth_map in Hd.
  apply (emb_inj dg (M.El n (Some v) pl0 (M.remove_nth k kids))) in Hd. subst dg.
  exists n, v, pl0, kids, k. auto.
Qed.

Theorem signature_covers_request pre c k b w d :
  RQ.parse_request pre true c k b w = Ok (Some d) ->
  RQ.root_signed (RQ.d_tree d) = true ->
  pre = true \/ RQ.enveloped_ok (RQ.d_tree d) (RQ.kind_name k) (RQ.root_id (RQ.d_tree d)) = true ->
  exists certs cert,
    RQ.request_certs c d = Ok certs /\ In cert certs /\ RQ.cert_ok c cert = true /\
    RQ.signature_covers_root (RQ.d_tree d) cert.
Proof.
  intros H Hs Hpre.
  destruct (request_check_cert _ _ _ _ _ (RL.parse_request_signed _ _ _ _ _ _ _ H Hs) Hpre) as (certs & cert & Hc & Hin & Hok & Hx).
  exists certs, cert. split; [exact Hc|]. split; [exact Hin|]. split; [exact Hok|].
  exact (covers_root_emb _ _ _ _ (Hx [cert] (or_introl eq_refl))).
Qed.

Lemma doc_sigs_El n i p kids : RQ.doc_sigs (M.El n i p kids) = flat_map RQ.doc_sigs kids.
Proof.
  cbn [RQ.doc_sigs]. induction kids as [|c r IH]; [reflexivity|]. cbn [flat_map]. rewrite <- IH. reflexivity.
Qed.

(* any modification of a signed request is refused: if the only intact signatures under the issuer's candidate
   certificates that occur anywhere in the received document are copies of ONE signature — single reference
   "#v", digested content [content] — then what is handed over is [content] plus that signature child *)
Theorem tamper_refused pre c k b w d v content :
  RQ.parse_request pre true c k b w = Ok (Some d) ->
  RQ.root_signed (RQ.d_tree d) = true ->
  pre = true \/ RQ.enveloped_ok (RQ.d_tree d) (RQ.kind_name k) (RQ.root_id (RQ.d_tree d)) = true ->
  (forall certs refs key, RQ.request_certs c d = Ok certs -> In key certs ->
      In (M.Sg refs key true) (RQ.doc_sigs (RQ.d_tree d)) -> refs = [(M.HASH :: v, content)]) ->
  exists n pl kids k0 key,
    RQ.d_tree d = M.El n (Some v) pl kids /\
    nth_error kids k0 = Some (M.Sg [(M.HASH :: v, content)] key true) /\
    content = M.El n (Some v) pl (M.remove_nth k0 kids).
Proof.
  intros H Hs Hpre Hunf.
  destruct (signature_covers_request _ _ _ _ _ _ H Hs Hpre) as (certs & cert & Hrc & Hin & _ & Hcov).
  destruct Hcov as (n & v' & pl & kids & k0 & Et & _ & Hn & _).
  assert (Hsig : In (M.Sg [(M.HASH :: v', M.El n (Some v') pl (M.remove_nth k0 kids))] cert true) (RQ.doc_sigs (RQ.d_tree d))).
  { rewrite Et, doc_sigs_El. apply in_flat_map. eexists. split; [eapply nth_error_In; exact Hn|now left]. }
  specialize (Hunf certs _ cert Hrc Hin Hsig). inversion Hunf; subst v' content.
  exists n, pl, kids, k0, cert. repeat split; assumption.
Qed.

(* the Reference is to the whole document (URI empty): the form _enveloped_signature_ok accepts only with
   whole_document_ok *)
Definition whole_ref (doc : M.tree) : bool :=
  match doc with
  | M.Sg _ _ _ => false
  | M.El _ _ _ kids =>
      match M.first_sig doc with
      | Some [k] => Nat.eqb (M.count_sigs kids) 1 &&
                    match nth_error kids k with Some (M.Sg [([], _)] _ _) => true | _ => false end
      | _ => false
      end
  end.

Lemma X_precheck_root n i pl kids :
  X.precheck (emb (M.El n i pl kids)) (nm' n) i =
  match i with
  | Some (c0 :: v0) =>
      Nat.eqb (List.length (M.with_id (c0 :: v0) (M.all_ids (M.El n i pl kids) []))) 1 && tailM (M.El n i pl kids) (c0 :: v0) []
  | _ => false
  end.
Proof.
  destruct i as [[|c0 v0]|]; try reflexivity. rewrite X_precheck_unfold, all_ids_count.
  match goal with |- context [X.carriers ?a ?b] => remember (X.carriers a b) as C eqn:EC end.
  assert (In [] C) as Hroot by (rewrite EC; apply XL.carriers_spec; eexists; split; reflexivity).
  destruct C as [|px [|p2 r]]; [exfalso; exact Hroot| |reflexivity].
  destruct Hroot as [->|[]]. cbn [List.length Nat.eqb andb]. rewrite tail_emb. unfold named. cbn [M.subtree_at].
  now rewrite N.eqb_refl.
Qed.

(* md_precheck = reference to the whole document, or C01's pre-check for the ROOT element under its own name *)
Theorem md_precheck_char n i pl kids :
  MD.md_precheck (M.El n i pl kids) = whole_ref (M.El n i pl kids) || X.precheck (emb (M.El n i pl kids)) (nm' n) i.
Proof.
  rewrite X_precheck_root. unfold MD.md_precheck, whole_ref, tailM. cbn [M.subtree_at].
  (* the three tests walk the same way to the reference URI; only a "#..." URI with a non-empty ID needs a look *)
  destruct (M.first_sig (M.El n i pl kids)) as [[|k [|k2 p2]]|], i as [[|c0 v0]|];
    rewrite ?andb_false_r, ?orb_false_r; try reflexivity.
  all: destruct (Nat.eqb (M.count_sigs kids) 1); cbn [andb]; rewrite ?andb_false_r, ?orb_false_r; try reflexivity.
  all: destruct (nth_error kids k) as [[|[|[[|h u] dg] [|ud2 r]] key sv]|]; rewrite ?andb_false_r, ?orb_false_r; try reflexivity.
  cbn [negb andb orb]. apply andb_comm.
Qed.
