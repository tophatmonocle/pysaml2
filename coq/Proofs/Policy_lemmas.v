(* Proofs/Policy_lemmas.v — what the release path of Model/Policy.v guarantees, for every identity, compiled
   policy, SP declaration, regex matcher and attribute map.  In order: facts about the dicts and about
   _match / _filter_values / Policy.get; [answer], the way setup_assertion and its relatives end; the hand-written
   table [documented_ec] with the checker [tables_equiv] that compares it with the regenerated one, and what the
   category rules entitle an SP to ([entitles]); then, for a matcher and an attribute map (Section Release), the
   filters, the property [permitted] and the outcomes of the entry points. *)
From PV Require Import Lib.Base Gen.EntityCat Model.Policy.
Open Scope N_scope.

Lemma lookup_In {V} (k : str) (d : dict V) v : lookup k d = Some v -> In (k, v) d.
Proof.
  induction d as [|[k' v'] r IH]; cbn [lookup]; [discriminate|].
  destruct (str_eqb_spec k' k) as [->|_]; intros H.
  - injection H as ->. left; reflexivity.
  - right; exact (IH H).
Qed.

Lemma has_key_In {V} (k : str) (d : dict V) : has_key k d = true <-> exists v, In (k, v) d.
Proof.
  unfold has_key. split.
  - destruct (lookup k d) eqn:E; [|discriminate]. intros _. eexists; apply lookup_In; exact E.
  - intros [v H]. induction d as [|[k' v'] r IH]; [destruct H|]. cbn [lookup]. destruct H as [H|H].
    + injection H as -> _. rewrite str_eqb_refl. reflexivity.
    + destruct (str_eqb k' k); [reflexivity|exact (IH H)].
Qed.

Lemma dset_In {V} (k : str) (v : V) (d : dict V) n w :
  In (n, w) (dset k v d) -> (n = k /\ w = v) \/ In (n, w) d.
Proof.
  induction d as [|[k' v'] r IH]; cbn [dset In].
  - intros [H|[]]. injection H as <- <-. left; split; reflexivity.
  - destruct (str_eqb_spec k' k) as [->|_]; cbn [In].
    + intros [H|H]; [injection H as <- <-; left; split; reflexivity|right; right; exact H].
    + intros [H|H]; [right; left; exact H|].
      destruct (IH H) as [Hl|Hr]; [left; exact Hl|right; right; exact Hr].
Qed.

Lemma filter_map_flat_map {A B} (f : A -> option B) (l : list A) :
  filter_map f l = flat_map (fun x => match f x with Some y => [y] | None => [] end) l.
Proof. induction l as [|x r IH]; cbn [filter_map flat_map]; [reflexivity|]. rewrite IH. destruct (f x); reflexivity. Qed.

Lemma filter_map_In {A B} (f : A -> option B) (l : list A) y :
  In y (filter_map f l) <-> exists x, In x l /\ f x = Some y.
Proof.
  rewrite filter_map_flat_map, in_flat_map. split; intros [x [Hx H]]; exists x; (split; [exact Hx|]).
  - destruct (f x) as [z|]; [destruct H as [->|[]]; reflexivity|destruct H].
  - rewrite H. left; reflexivity.
Qed.

Lemma dedup_In x l : In x (dedup l) <-> In x l.
Proof.
  induction l as [|y r IH]; cbn [dedup In]; [reflexivity|].
  destruct (mem_str y r) eqn:E; cbn [In]; rewrite IH; [|reflexivity].
  apply mem_str_In in E. split; [right; assumption|intros [<-|H]; assumption].
Qed.

Lemma nonempty_app {A} (x y : list A) : x ++ y <> [] -> nonempty x || nonempty y = true.
Proof. intros H. destruct x; [destruct y; [exfalso; apply H; reflexivity|reflexivity]|reflexivity]. Qed.

Lemma lookup_names_only k l (x : option (list str)) : lookup k (names_only l) = Some x -> In k l.
Proof.
  unfold names_only. induction l as [|y r IH]; cbn [map lookup]; [discriminate|].
  destruct (str_eqb_spec y k) as [E|_]; [left; exact E|intros H; right; exact (IH H)].
Qed.

(* res[k].extend(new), or res[k] = new *)
Lemma res_extend_In k new res n vs :
  In (n, vs) (res_extend k new res) ->
  In (n, vs) res \/ n = k /\ (vs = new \/ exists old, In (k, old) res /\ vs = old ++ new).
Proof.
  unfold res_extend. destruct (lookup k res) as [old|] eqn:Eo; intros H; apply dset_In in H as [[-> ->]|H].
  - right. split; [reflexivity|]. right. exists old. split; [apply lookup_In; exact Eo|reflexivity].
  - left; exact H.
  - right. split; [reflexivity|left; reflexivity].
  - left; exact H.
Qed.

Lemma narrow_sub self filtered e : In e (narrow self filtered) -> In e filtered.
Proof.
  unfold narrow. intros H. apply filter_map_In in H as [[k w] [_ Hf]]. cbn [fst] in Hf.
  destruct (lookup k filtered) as [v|] eqn:El; [|discriminate]. injection Hf as <-.
  apply lookup_In; exact El.
Qed.

Lemma lower_c_idem c : lower_c (lower_c c) = lower_c c.
Proof.
  unfold lower_c.
  destruct ((65 <=? c) && (c <=? 90)) eqn:E; [|rewrite E; reflexivity].
  apply andb_true_iff in E as [E1 E2]. apply N.leb_le in E1, E2.
  destruct ((65 <=? c + 32) && (c + 32 <=? 90)) eqn:F; [|reflexivity].
  apply andb_true_iff in F as [_ F2]. apply N.leb_le in F2. lia.
Qed.

Lemma lower_idem s : lower (lower s) = lower s.
Proof. unfold lower. rewrite map_map. apply map_ext. exact lower_c_idem. Qed.

Lemma find_ci_spec {V} la (d : dict V) k :
  find_ci la d = Some k -> has_key k d = true /\ lower k = la.
Proof.
  induction d as [|[k' v'] r IH]; cbn [find_ci]; [discriminate|].
  destruct (str_eqb_spec (lower k') la) as [E|_]; intros H.
  - injection H as <-. split; [|exact E]. apply has_key_In. exists v'. left; reflexivity.
  - destruct (IH H) as [Hk Hl]. split; [|exact Hl].
    apply has_key_In in Hk as [v Hv]. apply has_key_In. exists v. right; exact Hv.
Qed.

Lemma py_match_spec {V} attr (a : dict V) k :
  py_match attr a = Some k -> has_key k a = true /\ lower k = lower attr.
Proof.
  unfold py_match. destruct (has_key attr a) eqn:E1.
  - intros [= <-]. split; [exact E1|reflexivity].
  - destruct (has_key (lower attr) a) eqn:E2.
    + intros [= <-]. split; [exact E2|apply lower_idem].
    + apply find_ci_spec.
Qed.

Lemma filter_values_ok vals vlist must r :
  filter_values vals vlist must = Ok r ->
  incl r vals /\ (vlist = [] \/ incl r vlist).
Proof.
  unfold filter_values. destruct vlist as [|x vl].
  - intros [= <-]. split; [apply incl_refl|left; reflexivity].
  - set (res := filter (fun v => mem_str v vals) (x :: vl)).
    assert (Hres : incl res vals /\ incl res (x :: vl)).
    { split; intros v Hv; apply filter_In in Hv as [Hv1 Hv2]; [apply mem_str_In; exact Hv2|exact Hv1]. }
    intros H. assert (r = res) as ->.
    { destruct must; [destruct res; [discriminate|]|]; injection H as <-; reflexivity. }
    split; [apply Hres|right; apply Hres].
Qed.

(* only a demand ([must]) that finds none of its values raises *)
Lemma filter_values_err vals vlist must e :
  filter_values vals vlist must = Err e -> must = true /\ e = MissingValue.
Proof.
  unfold filter_values. destruct vlist; [discriminate|].
  destruct must; [|discriminate]. destruct (filter _ _); [|discriminate].
  intros [= <-]. split; reflexivity.
Qed.

(* nothing configured, None[attribute], or the value of the entry of sp, else of the default entry *)
Lemma pget_inv {A} (sel : spec -> option A) p sp r :
  pget sel p sp = r ->
  r = Ok None \/ r = Err TypeError \/
  exists R who s, p = Some R /\ (who = sp \/ who = DEFAULT) /\ lookup who R = Some (Some s) /\ r = Ok (sel s).
Proof.
  unfold pget. destruct p as [[|x R]|]; try (intros <-; left; reflexivity). set (R0 := x :: R).
  assert (Hd : match lookup DEFAULT R0 with
               | None => Ok None | Some None => Err TypeError | Some (Some s) => Ok (sel s)
               end = r ->
               r = Ok None \/ r = Err TypeError \/
               exists R who s, Some R0 = Some R /\ (who = sp \/ who = DEFAULT) /\
                               lookup who R = Some (Some s) /\ r = Ok (sel s)).
  { destruct (lookup DEFAULT R0) as [[s|]|] eqn:Ed; intros <-; [|right; left; reflexivity|left; reflexivity].
    right; right. exists R0, DEFAULT, s. repeat split; [right; reflexivity|exact Ed]. }
  destruct (lookup sp R0) as [[s|]|] eqn:Esp; [|intros <-; right; left; reflexivity|exact Hd].
  destruct (sel s) as [w|] eqn:Es; [|exact Hd].
  intros <-. right; right. exists R0, sp, s. rewrite Es. repeat split; [left; reflexivity|exact Esp].
Qed.

(* the shape of get_attribute_restrictions, get_fail_on_missing_requested and get_entity_categories *)
Lemma getter_err {A B} (sel : spec -> option A) (g : option A -> B) p sp e :
  (do v <- pget sel p sp; Ok (g v)) = Err e -> e = TypeError.
Proof.
  intros H. apply bind_Err in H as [H|(v & _ & [=])].
  destruct (pget_inv _ _ _ _ H) as [[=]|[[= <-]|(R & who & s & _ & _ & _ & [=])]]. reflexivity.
Qed.

Lemma TypeError_not_MissingValue : TypeError <> MissingValue.
Proof. cbv. discriminate. Qed.

(* how Server.setup_assertion and its relatives end: the filtered dict is asserted, MissingValue is answered
   by [on_missing], any other exception leaves the function *)
Definition answer (r : result ava) (on_missing : outcome) : outcome :=
  match r with
  | Ok a => Asserted a
  | Err e => if str_eqb e MissingValue then on_missing else Raised e
  end.

Definition asserted_or_raised (r : result ava) : outcome :=
  match r with Ok a => Asserted a | Err e => Raised e end.

Lemma answer_cases (P : outcome -> Prop) r o :
  (forall a, r = Ok a -> P (Asserted a)) -> (r = Err MissingValue -> P o) ->
  (forall e, r = Err e -> e <> MissingValue -> P (Raised e)) -> P (answer r o).
Proof.
  intros H1 H2 H3. unfold answer. destruct r as [a|e]; [exact (H1 a eq_refl)|].
  destruct (str_eqb_spec e MissingValue) as [->|Hne]; [exact (H2 eq_refl)|exact (H3 e eq_refl Hne)].
Qed.

Lemma answer_missing o : answer (Err MissingValue) o = o.
Proof. unfold answer. rewrite str_eqb_refl. reflexivity. Qed.

Lemma answer_ext r o1 o2 : r <> Err MissingValue -> answer r o1 = answer r o2.
Proof.
  intros H. destruct r as [a|e]; [reflexivity|]. unfold answer.
  destruct (str_eqb_spec e MissingValue) as [->|_]; [destruct (H eq_refl)|reflexivity].
Qed.

Definition set_eqb (a b : list str) : bool :=
  forallb (fun x => mem_str x b) a && forallb (fun x => mem_str x a) b.

Definition row_in (r : ec_rawkey * (list str * bool)) (m : ecmap) : bool :=
  existsb (fun r' => rawkey_eqb (fst r) (fst r') && set_eqb (fst (snd r)) (fst (snd r')) &&
                     Bool.eqb (snd (snd r)) (snd (snd r'))) m.

Definition ecmap_equiv (m1 m2 : ecmap) : bool :=
  forallb (fun r => row_in r m2) m1 && forallb (fun r => row_in r m1) m2.

Definition tables_equiv (t1 t2 : list (str * ecmap)) : bool :=
  forallb (fun e => match lookup (fst e) t2 with Some m => ecmap_equiv (snd e) m | None => false end) t1 &&
  forallb (fun e => is_some (lookup (fst e) t1)) t2.

Lemma rawkey_eqb_eq a b : rawkey_eqb a b = true -> a = b.
Proof.
  destruct a as [ba la], b as [bb lb]. unfold rawkey_eqb. cbn [fst snd].
  intros H. apply andb_true_iff in H as [H1 H2]. apply Bool.eqb_prop in H1. subst bb. f_equal.
  revert lb H2. induction la as [|x la IH]; intros [|y lb] H2; simpl in H2; try discriminate; [reflexivity|].
  apply andb_true_iff in H2 as [Hx Hr]. apply str_eqb_eq in Hx. subst y. f_equal. apply IH. exact Hr.
Qed.

(* the half of row_in that is used: same key, the names of r among those of r', same only-required flag *)
Definition row_equiv (r r' : ec_rawkey * (list str * bool)) : Prop :=
  fst r = fst r' /\ incl (fst (snd r)) (fst (snd r')) /\ snd (snd r) = snd (snd r').

Lemma row_in_equiv r m : row_in r m = true -> exists r', In r' m /\ row_equiv r r'.
Proof.
  unfold row_in. intros H. apply existsb_exists in H as (r' & Hr' & H).
  apply andb_true_iff in H as [H H3]. apply andb_true_iff in H as [H1 H2].
  exists r'. split; [exact Hr'|]. split; [exact (rawkey_eqb_eq _ _ H1)|]. split; [|exact (Bool.eqb_prop _ _ H3)].
  unfold set_eqb in H2. apply andb_true_iff in H2 as [H2 _]. rewrite forallb_forall in H2.
  intros x Hx. apply mem_str_In. exact (H2 x Hx).
Qed.

Lemma tables_equiv_row (t1 t2 : list (str * ecmap)) n m row :
  tables_equiv t1 t2 = true -> In (n, m) t1 -> In row m ->
  exists dm row', lookup n t2 = Some dm /\ In row' dm /\ row_equiv row row'.
Proof.
  intros T Hin Hrow. unfold tables_equiv in T.
  apply andb_true_iff in T as [T _]. rewrite forallb_forall in T. specialize (T _ Hin). cbn [fst snd] in T.
  destruct (lookup n t2) as [dm|]; [|discriminate].
  unfold ecmap_equiv in T. apply andb_true_iff in T as [T _]. rewrite forallb_forall in T.
  destruct (row_in_equiv _ _ (T _ Hrow)) as (row' & Hr' & He).
  exists dm, row'. split; [reflexivity|]. split; assumption.
Qed.

Definition compiled_tables : list (str * ecmap) := map (fun e => (fst e, compile_module (snd e))) ec_modules.
(* hand-written: what each entity category entitles an SP to (lower-cased names,
   only-if-required flag), per module.  Not generated. *)
Definition documented_ec : list (str * ecmap) := [
  ((s2l "at_egov_pvp2"), [
     ((true, [(s2l "http://www.ref.gv.at/ns/names/agiz/pvp/egovtoken")]),
      ([(s2l "pvp-version"); (s2l "pvp-principal-name"); (s2l "pvp-givenname"); (s2l "pvp-birthdate"); (s2l "pvp-userid"); (s2l "pvp-gid"); (s2l "pvp-bpk"); (s2l "pvp-mail"); (s2l "pvp-tel"); (s2l "pvp-participant-id"); (s2l "pvp-participant-okz"); (s2l "pvp-ou-okz"); (s2l "pvp-ou"); (s2l "pvp-ou-gv-ou-id"); (s2l "pvp-function"); (s2l "pvp-roles")], false));
     ((true, [(s2l "http://www.ref.gv.at/ns/names/agiz/pvp/egovtoken-charge")]),
      ([(s2l "pvp-invoice-recpt-id"); (s2l "pvp-cost-center-id"); (s2l "pvp-charge-code")], false))]);
  ((s2l "edugain"), [
     ((true, [([]:str)]),
      ([(s2l "edupersontargetedid")], false));
     ((true, [(s2l "http://www.geant.net/uri/dataprotection-code-of-conduct/v1")]),
      ([(s2l "edupersonprincipalname"); (s2l "edupersonscopedaffiliation"); (s2l "edupersonaffiliation"); (s2l "mail"); (s2l "displayname"); (s2l "cn"); (s2l "schachomeorganization")], true))]);
  ((s2l "incommon"), [
     ((true, [([]:str)]),
      ([(s2l "edupersontargetedid")], false));
     ((true, [(s2l "http://id.incommon.org/category/research-and-scholarship")]),
      ([(s2l "edupersonprincipalname"); (s2l "edupersonscopedaffiliation"); (s2l "mail"); (s2l "givenname"); (s2l "sn"); (s2l "displayname")], false))]);
  ((s2l "refeds"), [
     ((true, [([]:str)]),
      ([(s2l "edupersontargetedid")], false));
     ((true, [(s2l "http://refeds.org/category/research-and-scholarship")]),
      ([(s2l "edupersonprincipalname"); (s2l "edupersonscopedaffiliation"); (s2l "mail"); (s2l "givenname"); (s2l "sn"); (s2l "displayname")], false))]);
  ((s2l "swamid"), [
     ((true, [([]:str)]),
      ([(s2l "edupersontargetedid")], false));
     ((true, [(s2l "http://www.swamid.se/category/sfs-1993-1153")]),
      ([(s2l "noredupersonnin"); (s2l "edupersonassurance")], false));
     ((false, [(s2l "http://www.swamid.se/category/research-and-education"); (s2l "http://www.swamid.se/category/eu-adequate-protection")]),
      ([(s2l "givenname"); (s2l "displayname"); (s2l "sn"); (s2l "cn"); (s2l "c"); (s2l "o"); (s2l "co"); (s2l "noreduorgacronym"); (s2l "schachomeorganization"); (s2l "schachomeorganizationtype"); (s2l "edupersonprincipalname"); (s2l "edupersonscopedaffiliation"); (s2l "mail"); (s2l "edupersonassurance")], false));
     ((false, [(s2l "http://www.swamid.se/category/research-and-education"); (s2l "http://www.swamid.se/category/nren-service")]),
      ([(s2l "givenname"); (s2l "displayname"); (s2l "sn"); (s2l "cn"); (s2l "c"); (s2l "o"); (s2l "co"); (s2l "noreduorgacronym"); (s2l "schachomeorganization"); (s2l "schachomeorganizationtype"); (s2l "edupersonprincipalname"); (s2l "edupersonscopedaffiliation"); (s2l "mail"); (s2l "edupersonassurance")], false));
     ((false, [(s2l "http://www.swamid.se/category/research-and-education"); (s2l "http://www.swamid.se/category/hei-service")]),
      ([(s2l "givenname"); (s2l "displayname"); (s2l "sn"); (s2l "cn"); (s2l "c"); (s2l "o"); (s2l "co"); (s2l "noreduorgacronym"); (s2l "schachomeorganization"); (s2l "schachomeorganizationtype"); (s2l "edupersonprincipalname"); (s2l "edupersonscopedaffiliation"); (s2l "mail"); (s2l "edupersonassurance")], false));
     ((true, [(s2l "http://refeds.org/category/research-and-scholarship")]),
      ([(s2l "edupersontargetedid"); (s2l "edupersonprincipalname"); (s2l "mail"); (s2l "displayname"); (s2l "givenname"); (s2l "sn"); (s2l "edupersonscopedaffiliation")], false))])
].

Lemma ec_tables_as_documented : tables_equiv compiled_tables documented_ec = true.
Proof. vm_compute. reflexivity. Qed.

(* the module has a row under the empty-string key (released to every SP) that names something *)
Definition has_always_row (m : ecmap) : bool :=
  existsb (fun r => rawkey_eqb (fst r) (true, [[]]) && nonempty (fst (snd r))) m.

(* the key of a row is met by the SP's categories: the empty string key always, a string key when it is
   one of the categories, a tuple key when all its members are *)
Definition key_met (ecs : list str) (key : ec_rawkey) : Prop :=
  match key with
  | (true, [k]) => k = [] \/ In k ecs
  | (true, _) => False
  | (false, ks) => forall k, In k ks -> In k ecs
  end.

(* row entitles an SP with categories ecs, whose REQUIRED attributes have the lower-cased friendly
   names req, to the (lower-cased) attribute name a *)
Definition entitles (ecs req : list str) (row : ec_rawkey * (list str * bool)) (a : str) : Prop :=
  In a (fst (snd row)) /\ key_met ecs (fst row) /\
  (fst row = (true, [[]]) \/ (snd (snd row) = true -> In a req)).

Lemma ec_attrs_In ecs req row a : In a (ec_attrs ecs req row) <-> entitles ecs req row a.
Proof.
  destruct row as [[b ks] [atlist onr]]. unfold ec_attrs, entitles. cbn [fst snd].
  set (sel := if onr then filter (fun x => mem_str x req) atlist else atlist).
  assert (Hsel : In a sel <-> In a atlist /\ (onr = true -> In a req)).
  { unfold sel. destruct onr; [rewrite filter_In, mem_str_In; intuition|intuition discriminate]. }
  (* a row other than the always-released one: its names go out when the test [c] of its key succeeds *)
  assert (Hrow : forall (c : bool) (met : Prop), (c = true <-> met) -> (b, ks) <> (true, [[]]) ->
            (In a (if c then sel else []) <->
             In a atlist /\ met /\ ((b, ks) = (true, [[]]) \/ (onr = true -> In a req)))).
  { intros c met Hc Hk. destruct c; [rewrite Hsel; intuition|].
    split; [intros []|]. intros [_ [H _]]. apply Hc in H. discriminate. }
  destruct b.
  - destruct ks as [|k [|k2 ks']].
    + split; [intros []|intros [_ [[] _]]].
    + destruct k as [|c k'].
      * split; [intros H; split; [exact H|split; left; reflexivity]|intros [H _]; exact H].
      * apply Hrow; [|discriminate]. rewrite mem_str_In.
        split; [intros H; right; exact H|intros [H|H]; [discriminate|exact H]].
    + destruct k; (split; [intros []|intros [_ [[] _]]]).
  - apply Hrow; [|discriminate]. rewrite forallb_forall. split; intros H k Hk; apply mem_str_In, H, Hk.
Qed.

Lemma entitles_mono ecs req req' row a : incl req req' -> entitles ecs req row a -> entitles ecs req' row a.
Proof.
  intros Hi (H1 & H2 & H3). split; [exact H1|]. split; [exact H2|].
  destruct H3 as [H3|H3]; [left; exact H3|right; intros Ho; exact (Hi _ (H3 Ho))].
Qed.

Lemma post_ec_spec maps md rq a :
  In a (post_entity_categories maps md rq) <->
  exists m em row, md = Some m /\ In em maps /\ In row em /\ entitles (m_ecs m) (req_friendly rq) row a.
Proof.
  unfold post_entity_categories. destruct md as [m|].
  - rewrite in_flat_map. split.
    + intros (em & Hem & H). apply in_flat_map in H as (row & Hrow & H). apply ec_attrs_In in H.
      exists m, em, row. split; [reflexivity|]. split; [exact Hem|]. split; [exact Hrow|exact H].
    + intros (m' & em & row & [= <-] & Hem & Hrow & H). exists em. split; [exact Hem|].
      apply in_flat_map. exists row. split; [exact Hrow|]. apply ec_attrs_In; exact H.
  - split; [intros []|intros (m & em & row & [=] & _)].
Qed.

Lemma get_ec_empty_mono p sp md rq :
  get_entity_categories p sp md rq = Ok [] -> get_entity_categories p sp md [] = Ok [].
Proof.
  unfold get_entity_categories. destruct (pget s_ec p sp) as [[maps|]|e]; cbn [bind]; [|tauto|tauto].
  intros [= H]. f_equal.
  destruct (post_entity_categories maps md []) as [|x l] eqn:E; [reflexivity|].
  assert (Hin : In x (post_entity_categories maps md rq)).
  { assert (Hx : In x (post_entity_categories maps md [])) by (rewrite E; left; reflexivity).
    apply post_ec_spec in Hx as (m & em & row & H1 & H2 & H3 & H4). apply post_ec_spec.
    exists m, em, row. split; [exact H1|]. split; [exact H2|]. split; [exact H3|].
    revert H4. apply entitles_mono. intros y []. }
  rewrite H in Hin. destruct Hin.
Qed.

Lemma entitles_transfer ecs req r r' a : row_equiv r r' -> entitles ecs req r a -> entitles ecs req r' a.
Proof.
  intros (Hk & Hs & Hb) (H1 & H2 & H3). unfold entitles. rewrite <- Hk, <- Hb.
  split; [exact (Hs _ H1)|]. split; assumption.
Qed.

Lemma compile_ec_In names : forall maps em, compile_ec names = Ok maps -> In em maps ->
  exists n m, In n names /\ lookup n ec_modules = Some m /\ em = compile_module m.
Proof.
  induction names as [|n r IH]; intros maps em; cbn [compile_ec].
  - intros [= <-] [].
  - destruct (lookup n ec_modules) as [m|] eqn:El; [|discriminate].
    intros H. apply bind_Ok in H as (rest & Hr & [= <-]). intros [Hin|Hin].
    + exists n, m. split; [left; reflexivity|]. split; [exact El|symmetry; exact Hin].
    + destruct (IH rest em Hr Hin) as (n' & m' & H1 & H2 & H3).
      exists n', m'. split; [right; exact H1|]. split; assumption.
Qed.

(* which module names a compiled policy uses for sp: those of its own entry when that has the key,
   else those of the default entry *)
Definition configured_categories (raw : rawpolicy) (sp : str) (names : list str) : Prop :=
  exists R who rs, raw = Some R /\ (who = sp \/ who = DEFAULT) /\ lookup who R = Some (Some rs) /\ r_ec rs = Some names.

Lemma compile_entries_lookup who : forall R R' s',
  compile_entries R = Ok R' -> lookup who R' = Some (Some s') ->
  exists rs, lookup who R = Some (Some rs) /\ compile_spec rs = Ok s'.
Proof.
  induction R as [|[w [rs|]] R IH]; intros R' s'; cbn [compile_entries].
  - intros [= <-]. discriminate.
  - intros H. apply bind_Ok in H as (cs & Ec & H). apply bind_Ok in H as (R1 & Er & [= <-]). cbn [lookup].
    destruct (str_eqb w who); [intros [= <-]; exists rs; split; [reflexivity|exact Ec]|exact (IH _ _ Er)].
  - intros H. apply bind_Ok in H as (R1 & Er & [= <-]). cbn [lookup].
    destruct (str_eqb w who); [discriminate|exact (IH _ _ Er)].
Qed.

Lemma compile_spec_ec rs s' maps :
  compile_spec rs = Ok s' -> s_ec s' = Some maps -> exists names, r_ec rs = Some names /\ compile_ec names = Ok maps.
Proof.
  unfold compile_spec. intros H. apply bind_Ok in H as (ec & Hec & [= <-]). cbn [s_ec]. intros ->.
  destruct (r_ec rs) as [names|]; [|discriminate].
  apply bind_Ok in Hec as (m & Hm & [= <-]). exists names. split; [reflexivity|exact Hm].
Qed.

Lemma pget_ec_configured raw p sp maps :
  compile raw = Ok p -> pget s_ec p sp = Ok (Some maps) ->
  exists names, configured_categories raw sp names /\ compile_ec names = Ok maps.
Proof.
  intros Hc Hp. destruct (pget_inv _ _ _ _ Hp) as [[=]|[[=]|(R' & who & s' & -> & Hw & Hl & [= Hs])]].
  symmetry in Hs.
  unfold compile in Hc. destruct raw as [[|x R]|]; try discriminate.
  apply bind_Ok in Hc as (R1 & Hc & [= ->]).
  destruct (compile_entries_lookup who _ _ _ Hc Hl) as (rs & Hl0 & Hcs).
  destruct (compile_spec_ec _ _ _ Hcs Hs) as (names & Hn & Hm).
  exists names. split; [|exact Hm]. exists (x :: R), who, rs. repeat split; assumption.
Qed.

(* the category clause against the documented table, for a policy compiled from its configuration *)
Lemma get_ec_documented raw p sp md rq allow a :
  compile raw = Ok p -> get_entity_categories p sp md rq = Ok allow -> In a allow ->
  exists names m n dm row, configured_categories raw sp names /\ md = Some m /\ In n names /\
    lookup n documented_ec = Some dm /\ In row dm /\ entitles (m_ecs m) (req_friendly rq) row a.
Proof.
  intros Hc H Hin. unfold get_entity_categories in H. apply bind_Ok in H as ([maps|] & Hp & [= <-]); [|destruct Hin].
  destruct (pget_ec_configured _ _ _ _ Hc Hp) as (names & Hconf & Hm).
  apply post_ec_spec in Hin as (m & em & row & Hmd & Hem & Hrow & He).
  destruct (compile_ec_In _ _ _ Hm Hem) as (n & rm & Hn & Hl & ->).
  (* the compiled row has its like in the documented table *)
  destruct (tables_equiv_row _ _ n (compile_module rm) row ec_tables_as_documented) as (dm & row' & Hd & Hr' & Heq);
    [apply lookup_In in Hl; exact (in_map (fun e => (fst e, compile_module (snd e))) _ _ Hl)|exact Hrow|].
  exists names, m, n, dm, row'. split; [exact Hconf|]. split; [exact Hmd|]. split; [exact Hn|]. split; [exact Hd|].
  split; [exact Hr'|exact (entitles_transfer _ _ _ _ _ Heq He)].
Qed.

Section Release.
  Variable matches : str -> str -> bool.
  Variable lname : str -> str -> option str.

  Definition values_match (rr : option (list str)) (vs : list str) : Prop :=
    forall rxs, rr = Some rxs -> forall v, In v vs -> exists rx, In rx rxs /\ matches rx v = true.

  Lemma flat_filter_In rxs vals v :
    In v (flat_map (fun rx => filter (matches rx) vals) rxs) <->
    In v vals /\ exists rx, In rx rxs /\ matches rx v = true.
  Proof.
    rewrite in_flat_map. split.
    - intros [rx [Hr Hv]]. apply filter_In in Hv as [Hv Hm]. split; [exact Hv|exists rx; split; assumption].
    - intros [Hv [rx [Hr Hm]]]. exists rx. split; [exact Hr|]. apply filter_In. split; assumption.
  Qed.

  Lemma favs_entry_spec rest e n vs :
    favs_entry matches rest e = Some (n, vs) ->
    n = fst e /\ incl vs (snd e) /\
    exists rr, lookup (lower n) rest = Some rr /\ values_match rr vs.
  Proof.
    unfold favs_entry. destruct (lookup (lower (fst e)) rest) as [[rxs|]|] eqn:El; [| |discriminate].
    - destruct (flat_map (fun rx => filter (matches rx) (snd e)) rxs) as [|x rv] eqn:Ef; [discriminate|].
      intros [= <- <-].
      assert (Hall : forall v, In v (dedup (x :: rv)) -> In v (snd e) /\ exists rx, In rx rxs /\ matches rx v = true).
      { intros v Hv. apply flat_filter_In. rewrite Ef. apply dedup_In; exact Hv. }
      split; [reflexivity|]. split; [intros v Hv; apply Hall; exact Hv|].
      exists (Some rxs). split; [exact El|]. intros rxs' [= <-] v Hv. apply Hall; exact Hv.
    - intros [= ->]. cbn [fst snd] in *. split; [reflexivity|]. split; [apply incl_refl|].
      exists None. split; [exact El|]. intros rxs [=].
  Qed.

  (* a non-empty restriction: the (lower-cased) name is one of its keys and the values match *)
  Lemma favs_restricted a r n vs :
    r <> [] -> In (n, vs) (favs matches a (Some r)) ->
    exists rr, lookup (lower n) r = Some rr /\ values_match rr vs.
  Proof.
    intros Hne. unfold favs. destruct r as [|r0 r]; [congruence|].
    intros H. apply filter_map_In in H as [e [_ Hf]].
    apply favs_entry_spec in Hf as [_ [_ Hf]]. exact Hf.
  Qed.

  (* the entry (n, vs) of a result is covered by declarations of ds, for the ava a *)
  Definition covered (ds : list decl) (a : ava) (n : str) (vs : list str) : Prop :=
    (exists d, In d ds /\ match_attr_name lname d a = Some n) /\
    (exists ivs, lookup n a = Some ivs /\ incl vs ivs) /\
    (forall v, In v vs -> exists d, In d ds /\ match_attr_name lname d a = Some n /\
                                   (decl_values d = [] \/ In v (decl_values d))).

  Definition res_inv (ds : list decl) (a res : ava) : Prop :=
    forall n vs, In (n, vs) res -> covered ds a n vs.

  Lemma covered_app ds a n v1 v2 : covered ds a n v1 -> covered ds a n v2 -> covered ds a n (v1 ++ v2).
  Proof.
    intros (H1 & (ivs & Hl & Hi) & H3) (_ & (ivs' & Hl' & Hi') & H3'). split; [exact H1|]. split.
    - exists ivs. split; [exact Hl|]. rewrite Hl in Hl'. injection Hl' as <-. apply incl_app; assumption.
    - intros v Hv. apply in_app_or in Hv as [Hv|Hv]; [apply H3|apply H3']; exact Hv.
  Qed.

  Lemma apply_avr_inv ds a res d fn must res' :
    In d ds -> match_attr_name lname d a = Some fn -> res_inv ds a res ->
    apply_avr d fn a res must = Ok res' -> res_inv ds a res'.
  Proof.
    intros Hd Hm Hinv H. unfold apply_avr in H.
    destruct (lookup fn a) as [vals|] eqn:El; [|discriminate].
    apply bind_Ok in H as (fv & Ef & H). apply bind_Ok in H as (u & _ & [= <-]).
    apply filter_values_ok in Ef as [Hfv1 Hfv2].
    assert (Hnew : covered ds a fn fv).
    { split; [exists d; split; assumption|]. split; [exists vals; split; assumption|].
      intros v Hv. exists d. split; [exact Hd|]. split; [exact Hm|].
      destruct Hfv2 as [He|Hi]; [left; exact He|right; apply Hi; exact Hv]. }
    intros n vs Hin. apply res_extend_In in Hin as [Hin|[-> [->|(old & Ho & ->)]]].
    - exact (Hinv _ _ Hin).
    - exact Hnew.
    - exact (covered_app _ _ _ _ _ (Hinv _ _ Ho) Hnew).
  Qed.

  Lemma foa_loop_inv all must fail ds a : forall res res',
    incl ds all -> res_inv all a res -> foa_loop lname must fail ds a res = Ok res' -> res_inv all a res'.
  Proof.
    induction ds as [|d r IH]; intros res res' Hincl Hinv; cbn [foa_loop].
    - intros [= <-]; exact Hinv.
    - assert (Hd : In d all) by (apply Hincl; left; reflexivity).
      assert (Hr : incl r all) by (intros x Hx; apply Hincl; right; exact Hx).
      assert (Hskip : (if must && fail then Err MissingValue else foa_loop lname must fail r a res) = Ok res' ->
                      res_inv all a res').
      { destruct (must && fail); [discriminate|]. apply IH; assumption. }
      destruct (match_attr_name lname d a) as [[|c fn]|] eqn:Em; [exact Hskip| |exact Hskip].
      intros H. apply bind_Ok in H as (res1 & Ea & H).
      exact (IH _ _ Hr (apply_avr_inv _ _ _ _ _ _ _ Hd Em Hinv Ea) H).
  Qed.

  Lemma filter_on_attributes_inv a rq op fail res :
    filter_on_attributes lname a rq op fail = Ok res -> res_inv (rq ++ op) a res.
  Proof.
    unfold filter_on_attributes. intros H. apply bind_Ok in H as (res1 & E1 & E2).
    eapply foa_loop_inv; [| |exact E2].
    - apply incl_appr, incl_refl.
    - eapply foa_loop_inv; [| |exact E1]; [apply incl_appl, incl_refl|intros n vs []].
  Qed.

  (* what "matched by a declaration" means, without reference to the matching code *)
  Definition decl_names (d : decl) (n : str) : Prop :=
    lower n = lower (d_name d) \/ exists ln, local_name lname d = Some ln /\ lower n = lower ln.

  Lemma match_attr_name_spec d a n :
    match_attr_name lname d a = Some n -> has_key n a = true /\ decl_names d n.
  Proof.
    intros H.
    assert (Hc : py_match (d_name d) a = Some n \/
                 exists ln, local_name lname d = Some ln /\ py_match ln a = Some n).
    { revert H. unfold match_attr_name.
      destruct (local_name lname d) as [[|c l]|]; cbn [truthy]; try (intros H; left; exact H).
      destruct (py_match (c :: l) a) as [[|c' fn]|] eqn:Ep; cbn [truthy]; try (intros H; left; exact H).
      intros [= <-]. right. exists (c :: l). split; [reflexivity|exact Ep]. }
    destruct Hc as [Hc|(ln & El & Hc)]; apply py_match_spec in Hc as [H1 H2]; (split; [exact H1|]).
    - left; exact H2.
    - right. exists ln. split; assumption.
  Qed.

  (* the loops raise nothing but MissingValue, for a demand that is not met: a matched name is a key of the
     dict, so the KeyError of _apply_attr_value_restrictions cannot occur *)
  Lemma foa_loop_err must fail ds a : forall res e,
    foa_loop lname must fail ds a res = Err e -> must = true /\ e = MissingValue.
  Proof.
    induction ds as [|d r IH]; intros res e; cbn [foa_loop]; [discriminate|].
    assert (Hskip : (if must && fail then Err MissingValue else foa_loop lname must fail r a res) = Err e ->
                    must = true /\ e = MissingValue).
    { destruct must; cbn [andb]; [destruct fail; [intros [= <-]; split; reflexivity|]|]; apply IH. }
    destruct (match_attr_name lname d a) as [[|c fn]|] eqn:Em; [exact Hskip| |exact Hskip].
    intros H. apply bind_Err in H as [H|(res1 & _ & H)]; [|exact (IH _ _ H)].
    apply match_attr_name_spec in Em as [Hk _]. unfold has_key in Hk. unfold apply_avr in H.
    destruct (lookup (c :: fn) a) as [vals|]; [|discriminate].
    apply bind_Err in H as [H|(fv & _ & H)]; [apply filter_values_err in H as [[=] _]|].
    apply bind_Err in H as [H|(u & _ & [=])]. exact (filter_values_err _ _ _ _ H).
  Qed.

  (* filter_on_attributes: only a REQUIRED declaration that cannot be met raises *)
  Lemma filter_on_attributes_err a rq op fail e :
    filter_on_attributes lname a rq op fail = Err e -> e = MissingValue /\ rq <> [].
  Proof.
    unfold filter_on_attributes. intros H. apply bind_Err in H as [H|(res & _ & H)].
    - split; [exact (proj2 (foa_loop_err _ _ _ _ _ _ H))|]. intros ->. discriminate H.
    - apply foa_loop_err in H as [[=] _].
  Qed.

  Definition within_identity (identity a : ava) : Prop :=
    forall n vs, In (n, vs) a -> exists ivs, In (n, ivs) identity /\ incl vs ivs.

  Definition within_restrictions (p : cpolicy) (sp : str) (a : ava) : Prop :=
    forall r, get_attribute_restrictions p sp = Ok (Some r) -> r <> [] ->
      forall n vs, In (n, vs) a -> exists rr, lookup (lower n) r = Some rr /\ values_match rr vs.

  Definition within_categories (p : cpolicy) (sp : str) (md : option mdview) (rq : list decl) (a : ava) : Prop :=
    forall allow, get_entity_categories p sp md rq = Ok allow -> allow <> [] ->
      forall n vs, In (n, vs) a -> In (lower n) allow.

  Definition within_declarations (p : cpolicy) (sp : str) (md : option mdview) (rq op : list decl) (a : ava) : Prop :=
    get_entity_categories p sp md rq = Ok [] -> rq ++ op <> [] ->
      forall n vs, In (n, vs) a ->
        (exists d, In d (rq ++ op) /\ decl_names d n) /\
        (forall v, In v vs -> exists d, In d (rq ++ op) /\ decl_names d n /\ (decl_values d = [] \/ In v (decl_values d))).

  (* what the policy p permits to release to sp (declaring rq/op, seen through md) out of identity *)
  Definition permitted_for (p : cpolicy) (sp : str) (md : option mdview) (rq op : list decl) (identity a : ava) : Prop :=
    within_identity identity a /\ within_restrictions p sp a /\
    within_categories p sp md rq a /\ within_declarations p sp md rq op a.

  (* the SP's declarations as the store reports them *)
  Definition declared (md : option mdview) : list decl * list decl :=
    match md with
    | Some m => match m_req m with Some x => x | None => ([], []) end
    | None => ([], [])
    end.

  Definition permitted (p : cpolicy) (sp : str) (md : option mdview) (identity a : ava) : Prop :=
    permitted_for p sp md (fst (declared md)) (snd (declared md)) identity a.

  Lemma within_identity_refl a : within_identity a a.
  Proof. intros n vs H. exists vs. split; [exact H|apply incl_refl]. Qed.

  Lemma within_identity_trans a b c : within_identity a b -> within_identity b c -> within_identity a c.
  Proof.
    intros Hab Hbc n vs H. destruct (Hbc _ _ H) as (vs1 & H1 & Hi1). destruct (Hab _ _ H1) as (vs0 & H0 & Hi0).
    exists vs0. split; [exact H0|]. intros v Hv. exact (Hi0 _ (Hi1 _ Hv)).
  Qed.

  (* any restriction (also None / empty): what is left was there, with at most its values *)
  Lemma favs_within a rest : within_identity a (favs matches a rest).
  Proof.
    unfold favs. destruct rest as [[|r0 r]|]; try apply within_identity_refl.
    intros n vs H. apply filter_map_In in H as [[k w] [Hi Hf]].
    apply favs_entry_spec in Hf as [-> [Hincl _]]. exists w. split; [exact Hi|exact Hincl].
  Qed.

  Lemma foa_within a rq op fail res : filter_on_attributes lname a rq op fail = Ok res -> within_identity a res.
  Proof.
    intros H n vs Hin. destruct (filter_on_attributes_inv _ _ _ _ _ H _ _ Hin) as (_ & (ivs & Hl & Hi) & _).
    exists ivs. split; [apply lookup_In; exact Hl|exact Hi].
  Qed.

  Lemma permitted_for_incl p sp md rq op identity a a' :
    (forall e, In e a' -> In e a) -> permitted_for p sp md rq op identity a -> permitted_for p sp md rq op identity a'.
  Proof.
    intros Hsub [H1 [H2 [H3 H4]]]. split; [|split; [|split]].
    - intros n vs Hin; apply H1, Hsub, Hin.
    - intros r Hr Hne n vs Hin; eapply H2; [exact Hr|exact Hne|apply Hsub, Hin].
    - intros allow Ha Hne n vs Hin; eapply H3; [exact Ha|exact Hne|apply Hsub, Hin].
    - intros Hec Hne n vs Hin. exact (H4 Hec Hne n vs (Hsub _ Hin)).
  Qed.

  (* Policy.filter is two stages: the category allowance, else the SP's declarations, else nothing;
     then the attribute restrictions *)
  Lemma pfilter_inv p a sp md rq op out :
    pfilter matches lname p a sp md rq op = Ok out ->
    exists ecr cur ar, get_entity_categories p sp md rq = Ok ecr /\ get_attribute_restrictions p sp = Ok ar /\
      out = favs matches cur ar /\
      match ecr with
      | _ :: _ => cur = favs matches a (Some (names_only ecr))
      | [] => if nonempty rq || nonempty op
              then exists fail, filter_on_attributes lname a rq op fail = Ok cur
              else cur = a
      end.
  Proof.
    unfold pfilter. intros H. apply bind_Ok in H as (ecr & Hec & H). apply bind_Ok in H as (a1 & H1 & H).
    apply bind_Ok in H as (ar & Har & [= <-]). exists ecr, (match a1 with Some x => x | None => a end), ar.
    split; [exact Hec|]. split; [exact Har|]. split; [reflexivity|].
    destruct ecr as [|e0 ecr]; [|injection H1 as <-; reflexivity].
    destruct (nonempty rq || nonempty op); [|injection H1 as <-; reflexivity].
    apply bind_Ok in H1 as (fail & _ & H1). apply bind_Ok in H1 as (r & Hr & [= <-]). exists fail; exact Hr.
  Qed.

  (* Policy.filter *)
  Lemma pfilter_permitted p a sp md rq op out :
    pfilter matches lname p a sp md rq op = Ok out -> permitted_for p sp md rq op a out.
  Proof.
    intros H. destruct (pfilter_inv _ _ _ _ _ _ _ H) as (ecr & cur & ar & Hec & Har & -> & Hcur).
    split; [|split; [|split]].
    - apply (within_identity_trans _ cur); [|apply favs_within].
      destruct ecr; [|subst cur; apply favs_within].
      destruct (nonempty rq || nonempty op); [|subst cur; apply within_identity_refl].
      destruct Hcur as [fail Hf]. exact (foa_within _ _ _ _ _ Hf).
    - intros r Hr Hne n vs Hin. rewrite Har in Hr. injection Hr as ->. exact (favs_restricted _ _ _ _ Hne Hin).
    - intros allow Ha Hne n vs Hin. rewrite Hec in Ha. injection Ha as ->.
      destruct allow as [|e0 ecr]; [destruct (Hne eq_refl)|]. subst cur.
      apply favs_within in Hin as (vs0 & Hi & _).
      apply favs_restricted in Hi as (rr & Hl & _); [|discriminate]. exact (lookup_names_only _ _ _ Hl).
    - intros Hec0 Hne n vs Hin. rewrite Hec in Hec0. injection Hec0 as ->.
      rewrite (nonempty_app _ _ Hne) in Hcur. destruct Hcur as [fail Hf]. apply filter_on_attributes_inv in Hf.
      apply favs_within in Hin as (vs0 & Hi & Hs). destruct (Hf _ _ Hi) as ((d & Hd & Hm) & _ & Hc). split.
      + exists d. split; [exact Hd|exact (proj2 (match_attr_name_spec _ _ _ Hm))].
      + intros v Hv. destruct (Hc v (Hs v Hv)) as (d' & Hd' & Hm' & Hvals). exists d'.
        split; [exact Hd'|]. split; [exact (proj2 (match_attr_name_spec _ _ _ Hm'))|exact Hvals].
  Qed.

  (* an exception of Policy.filter: TypeError of a getter, or MissingValue of filter_on_attributes when no
     category allowance applied *)
  Lemma pfilter_err p a sp md rq op e :
    pfilter matches lname p a sp md rq op = Err e ->
    e = TypeError \/ e = MissingValue /\ get_entity_categories p sp md rq = Ok [] /\ rq <> [].
  Proof.
    unfold pfilter. intros H.
    apply bind_Err in H as [H|(ecr & Hec & H)]; [left; exact (getter_err _ _ _ _ _ H)|].
    apply bind_Err in H as [H|(a1 & _ & H)].
    - destruct ecr; [|discriminate]. destruct (nonempty rq || nonempty op); [|discriminate].
      apply bind_Err in H as [H|(fail & _ & H)]; [left; exact (getter_err _ _ _ _ _ H)|].
      apply bind_Err in H as [H|(r & _ & [=])]. apply filter_on_attributes_err in H as [-> Hrq].
      right. split; [reflexivity|]. split; [exact Hec|exact Hrq].
    - apply bind_Err in H as [H|(ar & _ & [=])]. left. exact (getter_err _ _ _ _ _ H).
  Qed.

  (* Policy.restrict in terms of the SP's declarations as the store reports them *)
  Lemma restrict_with_declared be p a sp md :
    restrict_with matches lname be p a sp md =
    if be then pfilter matches lname p a sp md [] (fst (declared md) ++ snd (declared md))
    else pfilter matches lname p a sp md (fst (declared md)) (snd (declared md)).
  Proof.
    unfold restrict_with, declared.
    destruct md as [m|]; [destruct (m_req m) as [[rq op]|]|]; destruct be; reflexivity.
  Qed.

  (* Assertion.apply_policy: the answer of Policy.restrict narrowed; an exception is one of restrict *)
  Lemma apply_policy_with_Ok be p a sp md out :
    apply_policy_with matches lname be p a sp md = Ok out <->
    exists f, restrict_with matches lname be p a sp md = Ok f /\ out = narrow a f.
  Proof.
    unfold apply_policy_with. rewrite bind_Ok.
    split; intros (f & Hf & H); exists f; (split; [exact Hf|congruence]).
  Qed.

  Lemma apply_policy_with_Err be p a sp md e :
    apply_policy_with matches lname be p a sp md = Err e <-> restrict_with matches lname be p a sp md = Err e.
  Proof.
    unfold apply_policy_with. rewrite bind_Err.
    split; [intros [H|(f & _ & [=])]; exact H|intros H; left; exact H].
  Qed.

  Lemma apply_policy_Err p a sp md e :
    apply_policy matches lname p a sp md = Err e <-> restrict matches lname p a sp md = Err e.
  Proof. apply apply_policy_with_Err. Qed.

  Lemma setup_assertion_eq p identity sp md b :
    setup_assertion matches lname p identity sp md b =
    answer (apply_policy matches lname p identity sp md)
           (if b then asserted_or_raised (apply_policy_with matches lname true p identity sp md) else ErrorResponse).
  Proof. reflexivity. Qed.

  Lemma setup_assertion_before_fix_eq p identity sp md b :
    setup_assertion_before_fix matches lname p identity sp md b =
    answer (apply_policy matches lname p identity sp md) (if b then Asserted identity else ErrorResponse).
  Proof. reflexivity. Qed.

  Lemma apply_policy_permitted p identity sp md out :
    apply_policy matches lname p identity sp md = Ok out -> permitted p sp md identity out.
  Proof.
    intros H. apply apply_policy_with_Ok in H as (f & Hf & ->). rewrite restrict_with_declared in Hf.
    exact (permitted_for_incl _ _ _ _ _ _ _ _ (narrow_sub identity f) (pfilter_permitted _ _ _ _ _ _ _ Hf)).
  Qed.

  Definition outcome_ok (p : cpolicy) (sp : str) (md : option mdview) (identity : ava) (o : outcome) : Prop :=
    match o with
    | Asserted a => permitted p sp md identity a
    | ErrorResponse => True
    | Raised _ => True
    end.

  Lemma permitted_nil p sp md rq op identity : permitted_for p sp md rq op identity [].
  Proof.
    split; [|split; [|split]].
    - intros n vs [].
    - intros r _ _ n vs [].
    - intros allow _ _ n vs [].
    - intros _ _ n vs [].
  Qed.

  (* no "aa" policy configured: no policy object is applied at all *)
  Lemma attribute_response_no_policy identity sp md :
    attribute_response matches lname None identity sp md = Asserted identity.
  Proof. destruct identity; reflexivity. Qed.

  (* the code before proposed_fix/C07-1: the only way out of the permitted set is the swallowed MissingValue *)
  Lemma authn_response_before_fix_characterised p identity sp md a :
    authn_response_before_fix matches lname p identity sp md = Asserted a ->
    permitted p sp md identity a \/
    (restrict matches lname p identity sp md = Err MissingValue /\ a = identity).
  Proof.
    unfold authn_response_before_fix. rewrite setup_assertion_before_fix_eq. apply answer_cases.
    - intros x E [= <-]. left. exact (apply_policy_permitted _ _ _ _ _ E).
    - intros E [= <-]. right. split; [apply apply_policy_Err; exact E|reflexivity].
    - intros e _ _ [=].
  Qed.

  Lemma authn_response_before_fix_partial p identity sp md :
    restrict matches lname p identity sp md <> Err MissingValue ->
    outcome_ok p sp md identity (authn_response_before_fix matches lname p identity sp md).
  Proof.
    intros Hno. destruct (authn_response_before_fix matches lname p identity sp md) as [a| |e] eqn:E; cbn; try exact I.
    apply authn_response_before_fix_characterised in E as [H|[H _]]; [exact H|contradiction].
  Qed.

  (* wishes never raise MissingValue *)
  Lemma best_effort_never_missing p a sp md :
    restrict_with matches lname true p a sp md <> Err MissingValue.
  Proof.
    rewrite restrict_with_declared. intros H.
    apply pfilter_err in H as [H|(_ & _ & Hrq)]; [exact (TypeError_not_MissingValue (eq_sym H))|exact (Hrq eq_refl)].
  Qed.

  Lemma best_effort_permitted p identity sp md out :
    restrict matches lname p identity sp md = Err MissingValue ->
    apply_policy_with matches lname true p identity sp md = Ok out ->
    permitted p sp md identity out.
  Proof.
    intros Hr H. apply apply_policy_with_Ok in H as (f & Hf & ->). rewrite restrict_with_declared in Hf.
    destruct (permitted_for_incl _ _ _ _ _ _ _ _ (narrow_sub identity f) (pfilter_permitted _ _ _ _ _ _ _ Hf))
      as (H1 & H2 & _ & H4).
    unfold restrict in Hr. rewrite restrict_with_declared in Hr.
    apply pfilter_err in Hr as [Hr|(_ & Hr & _)]; [destruct (TypeError_not_MissingValue (eq_sym Hr))|].
    split; [exact H1|]. split; [exact H2|]. split.
    - intros allow Ha Hne. rewrite Hr in Ha. injection Ha as <-. destruct (Hne eq_refl).
    - intros _. exact (H4 (get_ec_empty_mono _ _ _ _ Hr)).
  Qed.

  (* Server.setup_assertion, both values of best_effort *)
  Lemma setup_assertion_every_outcome p identity sp md b :
    outcome_ok p sp md identity (setup_assertion matches lname p identity sp md b).
  Proof.
    rewrite setup_assertion_eq. apply answer_cases.
    - intros a E. exact (apply_policy_permitted _ _ _ _ _ E).
    - intros E. destruct b; [|exact I]. apply apply_policy_Err in E.
      destruct (apply_policy_with matches lname true p identity sp md) as [a|e'] eqn:E2; [|exact I].
      exact (best_effort_permitted _ _ _ _ _ E E2).
    - intros e _ _. exact I.
  Qed.
End Release.
