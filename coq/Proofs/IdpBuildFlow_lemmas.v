(* Proofs/IdpBuildFlow_lemmas.v — C08, the pipeline: the message the IdP builds
   (any sign_response x sign_assertion x encrypt_assertion setting that meets
   the SP's signature requirements) is accepted by the SP pipeline of
   Model/Response.v and every value the application reads is the asserted one
   ([roundtrip_ok]); at the end [documented_built]: C02's rule `documented` on the built
   message is [requirements_met] (the only lemma that needs C02_lemmas, required there). *)
From Coq Require Import ZifyBool.
From PV Require Import Lib.Base Model.Status Model.Response Model.Sigver Model.CertSelect Model.IdpBuild
     Gen.AttrMaps Gen.StatusTable Proofs.CertSelect_lemmas.
Open Scope Z_scope.

(* an SP that loaded the IdP's generated metadata verifies the IdP's signatures *)
Lemma verdict_ok k i :
  k_md k = generated_idp_md (i_entity_id i) (i_key i) -> strip (i_entity_id i) = i_entity_id i ->
  verdict k i = Ok tt.
Proof.
  intros Hm Hs. unfold verdict. rewrite check_signature_spec, Hm, Hs. unfold candidate_certs, md_certs, generated_idp_md.
  cbn [find_entity]. rewrite str_eqb_refl. cbn [flat_map extract_certs app].
  replace (use_matches SIGNING {| kd_use := Some SIGNING; kd_certs := [i_key i] |}) with true by reflexivity.
  cbn [kd_certs add_new memN existsb app nilb negb andb orb]. cbn [memN existsb]. rewrite N.eqb_refl. reflexivity.
Qed.

(* the relay state the SP hands back: the one stored with the request, when it keeps track of requests *)
Definition expected_cf (c : cfg) (a : args) : option str :=
  if asynch c then lookup_str (g_irt a) (outstanding c) else None.

(* the hypotheses of the round trip *)
Record setting (i : idp) (m : sp_md) (s : sp) (a : args) : Prop := {
  (* configured from each other's generated metadata *)
  st_md : k_md (s_keys s) = generated_idp_md (i_entity_id i) (i_key i);
  st_idp_id : strip (i_entity_id i) = i_entity_id i;
  st_sp_id : strip (g_sp a) = g_sp a;
  st_me : entity_id (s_cfg s) = g_sp a;
  st_enc : forall c, w_enc (sign_encrypt i m a) = Some c -> memN c (k_dec (s_keys s)) = true;
  (* the response answers a request of this SP and is sent to its endpoint *)
  st_dest : g_destination a <> [];
  st_regex : dest_regex_set (s_cfg s) = false;
  st_addrs : asynch (s_cfg s) = true -> exists addrs, return_addrs (s_cfg s) = Some addrs /\ mem_str (g_destination a) addrs = true;
  st_conv : conv_info (s_cfg s) = None;
  st_test : test_mode (s_cfg s) = false;
  st_solicited : asynch (s_cfg s) = true -> allow_unsolicited (s_cfg s) = false ->
                 exists cf, lookup_str (g_irt a) (outstanding (s_cfg s)) = Some cf;
  (* it carries an authentication statement and is really built *)
  st_authn : has_authn a = true;
  st_built : build_fails (sign_encrypt i m a) a = false;
  (* delivered inside the validity window *)
  st_slack : 0 <= slack (s_cfg s);
  st_life : 0 <= lifetime i;
  st_pos : 0 < i_now i + lifetime i;
  st_not_early : i_now i <= now (s_cfg s) + slack (s_cfg s);
  st_not_late : now (s_cfg s) <= i_now i + lifetime i + slack (s_cfg s);
  st_fresh : now (s_cfg s) <= i_now i + 86400 + slack (s_cfg s);
  st_session : forall sn, g_session_nooa a = Some sn -> 0 < sn /\ now (s_cfg s) <= sn + slack (s_cfg s)
}.

(* the SP's signature requirements, in terms of what the IdP was asked to sign (C02's rule) *)
Definition requirements_met (c : cfg) (w : wire) : bool :=
  implb (wrs c) (w_rsig w) && implb (was c) (w_asig w) && implb (waors c) (w_rsig w || w_asig w).

Definition expected_view (i : idp) (s : sp) (a : args) : app_view :=
  {| v_name_id := Some (g_name_id a);
     v_ava := list_to_local (s_acs s) (s_allow_unknown s) (p_attributes (build_payload i a));
     v_irt := Some (g_irt a);
     v_issuer := i_entity_id i;
     v_authn := read_authn (build_payload i a);
     v_nooa := match g_session_nooa a with Some sn => sn | None => i_now i + lifetime i end;
     v_came_from := expected_cf (s_cfg s) a |}.

(* [final_state] before the assertion's id is pushed onto acc *)
Definition after_checks (i : idp) (a : args) (s : st) : st :=
  {| came_from := came_from s; not_on_or_after := i_now i + lifetime i;
     session_nooa := match g_session_nooa a with Some sn => sn | None => session_nooa s end;
     nid := Some (n_text (g_name_id a)); acc := acc s |}.

Lemma vooa_le c t : now c <= t + slack c -> validate_on_or_after c (Some t) = Ok (Some t).
Proof. intros H. unfold validate_on_or_after. destruct (now c >? t + slack c) eqn:E; [lia|reflexivity]. Qed.
Lemma vb_le c t : t <= now c + slack c -> validate_before c (Some t) = Ok tt.
Proof. intros H. unfold validate_before. destruct (t >? now c + slack c) eqn:E; [lia|reflexivity]. Qed.

Section Checks.
  Variables (i : idp) (m : sp_md) (s : sp) (a : args).
  Hypothesis H : setting i m s a.
  Local Notation c := (s_cfg s).
  Local Notation k := (s_keys s).

  Lemma vooa_ok : validate_on_or_after c (Some (i_now i + lifetime i)) = Ok (Some (i_now i + lifetime i)).
  Proof. exact (vooa_le c _ (st_not_late _ _ _ _ H)). Qed.
  Lemma vb_ok : validate_before c (Some (i_now i)) = Ok tt.
  Proof. exact (vb_le c _ (st_not_early _ _ _ _ H)). Qed.

  Lemma built_sig b : a_sig (built_assertion i a k b) = if b then Some (Ok tt) else None.
  Proof.
    unfold built_assertion. cbn [a_sig]. destruct b; [|reflexivity].
    now rewrite (verdict_ok k i (st_md _ _ _ _ H) (st_idp_id _ _ _ _ H)).
  Qed.

  (* an answer to no outstanding request only reaches an SP that allows unsolicited ones *)
  Lemma unsolicited_allowed :
    asynch c = true -> lookup_str (g_irt a) (outstanding c) = None -> allow_unsolicited c = true.
  Proof.
    intros Ea El. destruct (allow_unsolicited c) eqn:Eu; [reflexivity|].
    destruct (st_solicited _ _ _ _ H Ea Eu) as [cf Hc]. congruence.
  Qed.

  Lemma solicited_ok :
    asynch c && negb (allow_unsolicited c) && match expected_cf c a with None => true | Some _ => false end = false.
  Proof.
    unfold expected_cf. destruct (asynch c) eqn:Ea; [|reflexivity].
    destruct (lookup_str (g_irt a) (outstanding c)) eqn:El; [apply andb_false_r|].
    now rewrite (unsolicited_allowed Ea El).
  Qed.

  (* the state after the authentication statement: SessionNotOnOrAfter recorded when there is one *)
  Definition with_session (st0 : st) : st := match g_session_nooa a with Some sn => set_snooa st0 sn | None => st0 end.

  Lemma authn_ok b st0 : authn_statement_ok c st0 (built_assertion i a k b) = Ok (with_session st0).
  Proof.
    unfold authn_statement_ok, built_assertion, with_session. cbn [a_authn]. rewrite (st_authn _ _ _ _ H).
    destruct (g_session_nooa a) as [sn|] eqn:E; [|reflexivity].
    destruct (st_session _ _ _ _ H sn E) as [_ Hs]. now rewrite (vooa_le c sn Hs).
  Qed.

  Lemma condition_built b st0 :
    condition_ok c st0 (built_assertion i a k b) = Ok (true, set_nooa st0 (i_now i + lifetime i)).
  Proof.
    unfold condition_ok, built_assertion. cbn [a_conditions k_empty k_nb k_nooa k_audiences k_unknown_condition].
    rewrite (st_test _ _ _ _ H : test_mode c = false).
    unfold later_than. pose proof (st_life _ _ _ _ H).
    destruct (i_now i + lifetime i >=? i_now i) eqn:E; [|lia]. cbn [negb].
    rewrite vooa_ok, vb_ok.
    unfold for_me. cbn [k_audiences forallb mem_str existsb].
    rewrite (st_me _ _ _ _ H : entity_id c = g_sp a), (st_sp_id _ _ _ _ H), str_eqb_refl. reflexivity.
  Qed.

  Lemma subject_built b st0 : came_from st0 = expected_cf c a ->
    get_subject c (Some (g_irt a)) st0 (built_assertion i a k b) =
      Ok ([{| c_method := Bearer;
              c_data := Some {| d_address := None; d_address_valid := true; d_nooa := Some (i_now i + lifetime i); d_nb := None;
                                d_irt := Some (g_irt a); d_recipient := Some (g_destination a) |} |}], st0).
  Proof.
    intros Hcf. unfold get_subject, built_assertion. cbn [a_has_subject a_confirmations negb].
    unfold verify_attesting_entity. rewrite (st_conv _ _ _ _ H : conv_info c = None). cbn [existsb c_data d_address orb negb].
    cbn [subject_loop c_method c_data]. unfold bearer_confirmed. cbn [d_address d_nooa d_nb d_irt d_recipient].
    rewrite vooa_ok. cbn [validate_before later_than negb].
    unfold names_other_request. cbn [d_irt]. rewrite str_eqb_refl. cbn [negb]. rewrite andb_false_r.
    (* with came_from = expected_cf the solicitation branch leaves the state as it is *)
    rewrite Hcf. unfold expected_cf.
    destruct (asynch c) eqn:Ea; [destruct (lookup_str (g_irt a) (outstanding c)) eqn:El; [|rewrite (unsolicited_allowed Ea El)]|].
    all: cbn [andb].
    all: unfold verify_recipient; rewrite (st_conv _ _ _ _ H : conv_info c = None); reflexivity.
  Qed.

  (* the whole of AuthnResponse._assertion on the built assertion *)
  Lemma check_built b req verified st0 : came_from st0 = expected_cf c a ->
    check_assertion c (Some (g_irt a)) req verified st0 (built_assertion i a k b) =
      if negb b && req then Err SignatureError else Ok (after_checks i a st0).
  Proof.
    intros Hcf. unfold check_assertion.
    assert (came_from (set_nooa (with_session st0) (i_now i + lifetime i)) = expected_cf c a) as Hcf'
      by (unfold with_session; destruct (g_session_nooa a); exact Hcf).
    rewrite built_sig, authn_ok, condition_built, (subject_built _ _ Hcf'), Hcf', solicited_ok.
    replace (Ok _) with (Ok (after_checks i a st0))
      by (unfold after_checks, with_session; cbn [built_assertion a_name_id]; destruct (g_session_nooa a); reflexivity).
    destruct b; [destruct verified|destruct req]; reflexivity.
  Qed.
End Checks.

Definition final_state (i : idp) (a : args) (s0 : st) : st :=
  {| came_from := came_from s0; not_on_or_after := i_now i + lifetime i;
     session_nooa := match g_session_nooa a with Some sn => sn | None => session_nooa s0 end;
     nid := Some (n_text (g_name_id a)); acc := acc s0 ++ [1%N] |}.

Lemma status_success : status_ok (Some success_status) = Ok tt.
Proof. unfold status_ok, status_ok_with, status_ok_gen, success_status. cbn [st_code]. unfold is_success. now rewrite str_eqb_refl. Qed.

Section Flow.
  Variables (i : idp) (m : sp_md) (s : sp) (a : args).
  Hypothesis H : setting i m s a.
  Local Notation c := (s_cfg s).
  Local Notation k := (s_keys s).
  Local Notation w := (sign_encrypt i m a).
  Local Notation r := (built_view (sign_encrypt i m a) i a (s_keys s)).

  Lemma opens cert : w_enc w = Some cert -> memN cert (k_dec k) = true.
  Proof. apply (st_enc _ _ _ _ H). Qed.

  Lemma parse_assertion_built req st0 : came_from st0 = expected_cf c a ->
    parse_assertion c req st0 r = if negb (w_asig w) && req then Err SignatureError else Ok (final_state i a st0).
  Proof.
    intros Hcf. unfold parse_assertion, built_view. cbn [r_assertions r_encrypted r_irt].
    destruct (w_enc w) as [cert|] eqn:Ee.
    - cbn [List.length Nat.eqb orb negb check_assertions]. rewrite (opens cert Ee). cbn [decrypted_prefix e_opens e_inner].
      assert (verify_decrypted [built_assertion i a k (w_asig w)] = Ok tt) as ->.
      { cbn [verify_decrypted]. rewrite (built_sig i m s a H). now destruct (w_asig w). }
      cbn [check_assertions]. rewrite (check_built i m s a H (w_asig w) req true st0 Hcf).
      destruct (negb (w_asig w) && req); [reflexivity|].
      unfold push_all, push_acc, after_checks, final_state. cbn [came_from not_on_or_after session_nooa nid acc map]. now rewrite app_nil_r.
    - cbn [List.length Nat.eqb orb negb check_assertions]. rewrite (check_built i m s a H (w_asig w) req false st0 Hcf).
      destruct (negb (w_asig w) && req); [reflexivity|].
      unfold push_all, after_checks, final_state. cbn [came_from not_on_or_after session_nooa nid acc map]. cbn [built_assertion a_id]. reflexivity.
  Qed.

  Lemma residue_built st0 : w_asig w = false -> parse_assertion_residue c true st0 r = st0.
  Proof.
    intros Hs. unfold parse_assertion_residue, built_view. cbn [r_assertions r_encrypted r_irt]. rewrite Hs.
    destruct (w_enc w) as [cert|] eqn:Ee; [|reflexivity].
    cbn [check_assertions]. rewrite (opens cert Ee). destruct st0; reflexivity.
  Qed.

  Lemma verify_built req st0 : came_from st0 = expected_cf c a ->
    verify c req st0 r = if negb (w_asig w) && req then Err SignatureError else Ok (Some (final_state i a st0)).
  Proof.
    intros Hcf. unfold verify, authn_verify, verify_core, verify_in_of.
    cbn [id_mismatch version ver_lt2 asynchop dest_ok issue_ok status].
    assert (r_destination r = Some (g_destination a)) as ->.
    { unfold built_view. cbn [r_destination]. pose proof (st_dest _ _ _ _ H). destruct (g_destination a); [congruence|reflexivity]. }
    change (r_version r) with (Some V20). change (r_status r) with (Some success_status).
    rewrite (st_regex _ _ _ _ H : dest_regex_set c = false), status_success, (parse_assertion_built req st0 Hcf).
    assert (issue_instant_ok c (r_issue_instant r) = true) as ->.
    { unfold issue_instant_ok, built_view. cbn [r_issue_instant].
      pose proof (st_not_early _ _ _ _ H). pose proof (st_fresh _ _ _ _ H). pose proof (st_slack _ _ _ _ H).
      apply andb_true_iff. split; [apply Z.leb_le|apply Z.ltb_lt]; lia. }
    (* an SP that keeps track of requests has return addresses, the destination among them *)
    destruct (asynch c) eqn:Ea; [destruct (st_addrs _ _ _ _ H Ea) as (addrs & -> & ->)|];
      destruct (negb (w_asig w) && req); reflexivity.
  Qed.

  Definition init_state : st :=
    {| came_from := expected_cf c a; not_on_or_after := 0; session_nooa := 0; nid := None; acc := [] |}.

  Lemma loads_rest_built : loads_rest c r = Ok init_state.
  Proof.
    unfold loads_rest, built_view. cbn [r_valid_instance r_irt r_assertions]. unfold init_state, expected_cf.
    destruct (asynch c) eqn:Ea; [|reflexivity].
    destruct (lookup_str (g_irt a) (outstanding c)) as [cf|] eqn:El.
    - assert (assertions_name_irt (Some (g_irt a)) match w_enc w with Some _ => [] | None => [built_assertion i a k (w_asig w)] end = Some true) as ->.
      { destruct (w_enc w); [reflexivity|]. cbn [assertions_name_irt built_assertion a_has_subject a_confirmations negb confs_name_irt c_data d_irt].
        now rewrite str_eqb_refl. }
      reflexivity.
    - now rewrite (unsolicited_allowed i m s a H Ea El).
  Qed.

  Lemma loads_built req : loads c req r = if negb (w_rsig w) && req then Err SignatureError else Ok init_state.
  Proof.
    unfold loads, response_sig_stage. unfold built_view at 1. cbn [r_sig].
    destruct (w_rsig w).
    - rewrite (verdict_ok k i (st_md _ _ _ _ H) (st_idp_id _ _ _ _ H)). cbn [negb andb]. apply loads_rest_built.
    - destruct req; [reflexivity|]. cbn [negb andb]. apply loads_rest_built.
  Qed.

  Theorem parse_response_built : requirements_met c w = true ->
    parse_response c r =
      Ok {| o_assertions := [1%N]; o_name_id := Some (n_text (g_name_id a)); o_came_from := expected_cf c a;
            o_nooa := match g_session_nooa a with Some sn => sn | None => i_now i + lifetime i end;
            o_irt := Some (g_irt a) |}.
  Proof.
    unfold requirements_met. intros Hreq.
    apply andb_true_iff in Hreq as [Hreq R3]. apply andb_true_iff in Hreq as [R1 R2].
    unfold parse_response. rewrite !loads_built. cbn [andb negb].
    replace (r_valid_instance r) with true by reflexivity. cbn [negb].
    assert (came_from init_state = expected_cf c a) as Hcf by reflexivity.
    assert ((if session_nooa (final_state i a init_state) >? 0 then session_nooa (final_state i a init_state)
             else not_on_or_after (final_state i a init_state)) =
            match g_session_nooa a with Some sn => sn | None => i_now i + lifetime i end) as Hn.
    { unfold final_state, init_state. cbn [session_nooa not_on_or_after].
      destruct (g_session_nooa a) as [sn|] eqn:Es; [|reflexivity].
      destruct (st_session _ _ _ _ H sn Es) as [Hp _]. destruct (sn >? 0) eqn:E; [reflexivity|lia]. }
    (* no response signature: loads is tried again without the requirement *)
    destruct (w_rsig w) eqn:Er; cbn [negb andb orb implb] in *;
      [|replace (is_sigver_error SignatureError) with true by reflexivity; destruct (wrs c); [discriminate|]].
    all: rewrite (verify_built true init_state Hcf).
    all: destruct (w_asig w) eqn:Ea; cbn [negb andb orb implb] in *.
    1, 3: rewrite ?andb_false_r, Hn; reflexivity.
    (* no assertion signature: verify is tried again, on the state the failed attempt left *)
    all: replace (is_signature_error SignatureError) with true by reflexivity; destruct (was c); [discriminate|].
    all: rewrite (residue_built init_state Ea), (verify_built false init_state Hcf), Ea; cbn [negb andb].
    - rewrite andb_false_r, Hn. reflexivity.
    - destruct (waors c); [discriminate|]. cbn [andb]. rewrite Hn. reflexivity.
  Qed.

  Theorem roundtrip_ok : requirements_met c w = true -> roundtrip i m s a = Ok (expected_view i s a).
  Proof.
    intros Hreq. unfold roundtrip, roundtrip_with. rewrite (st_built _ _ _ _ H : build_fails w a = false).
    unfold read. rewrite (parse_response_built Hreq).
    cbn [o_assertions o_name_id o_irt o_nooa o_came_from]. unfold expected_view.
    rewrite (st_idp_id _ _ _ _ H). reflexivity.
  Qed.
End Flow.

From PV Require Import Proofs.Response_lemmas Proofs.Rel_lemmas Proofs.C02_lemmas.

(* the requirement predicate is C02's documented rule on the built message *)
Lemma documented_built i m s a : setting i m s a ->
  documented (s_cfg s) (built_view (sign_encrypt i m a) i a (s_keys s)) = requirements_met (s_cfg s) (sign_encrypt i m a).
Proof.
  intros H. unfold documented, requirements_met, all_sigok, all_present, processed, built_view.
  cbn [r_sig r_assertions r_encrypted].
  pose proof (verdict_ok (s_keys s) i (st_md _ _ _ _ H) (st_idp_id _ _ _ _ H)) as V.
  assert (forall b, sigok (a_sig (built_assertion i a (s_keys s) b)) = true) as S1
    by (intros b; rewrite (built_sig i m s a H); now destruct b).
  assert (forall b, present (a_sig (built_assertion i a (s_keys s) b)) = b) as P1
    by (intros b; rewrite (built_sig i m s a H); now destruct b).
  destruct (w_enc (sign_encrypt i m a)) as [cert|] eqn:Ee.
  - rewrite (st_enc _ _ _ _ H cert Ee). cbn [decrypted_prefix e_opens e_inner app forallb]. rewrite S1, P1.
    destruct (w_rsig (sign_encrypt i m a)); [rewrite V|]; cbn [sigok present andb]; rewrite ?andb_true_r; reflexivity.
  - cbn [decrypted_prefix app forallb]. rewrite S1, P1.
    destruct (w_rsig (sign_encrypt i m a)); [rewrite V|]; cbn [sigok present andb]; rewrite ?andb_true_r; reflexivity.
Qed.
