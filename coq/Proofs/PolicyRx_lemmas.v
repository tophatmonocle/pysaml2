(* Proofs/PolicyRx_lemmas.v — about Model/PolicyRx.v: the SP's entity categories are the values its metadata lists
   under the entity-category Name and nothing else; a restriction list of regular expressions lets a value through
   iff some single expression of the list matches it. *)
From PV Require Import Lib.Base Model.Policy Proofs.Policy_lemmas Model.PolicyRx.

Lemma md_entity_attribute_In name ea c :
  In c (md_entity_attribute name ea) <-> exists vs, In (name, vs) ea /\ In c vs.
Proof.
  unfold md_entity_attribute. rewrite in_flat_map. split.
  - intros [[n vs] [Hi Hc]]. cbn [fst snd] in Hc. destruct (str_eqb_spec n name) as [->|Hne]; [|destruct Hc].
    exists vs; split; assumption.
  - intros [vs [Hi Hc]]. exists (name, vs). split; [exact Hi|]. cbn [fst snd]. rewrite str_eqb_refl. exact Hc.
Qed.

Lemma md_entity_categories_In ea c :
  In c (md_entity_categories ea) <-> exists vs, In (ENTITY_CATEGORY, vs) ea /\ In c vs.
Proof. apply md_entity_attribute_In. Qed.

Lemma md_entity_attribute_absent name ea :
  (forall e, In e ea -> fst e <> name) -> md_entity_attribute name ea = [].
Proof.
  unfold md_entity_attribute. induction ea as [|e r IH]; intros Hx; [reflexivity|]. cbn [flat_map].
  destruct (str_eqb_spec (fst e) name) as [He|_]; [destruct (Hx e (or_introl eq_refl) He)|].
  apply IH. intros e' He'. apply Hx. right; exact He'.
Qed.

(* md_entity_categories_In read contrapositively *)
Lemma md_support_does_not_count ea c :
  In c (md_entity_categories ea) -> ~ (forall vs, In (ENTITY_CATEGORY, vs) ea -> ~ In c vs).
Proof. intros Hc Hno. apply md_entity_categories_In in Hc as [vs [Hi Hv]]. exact (Hno vs Hi Hv). Qed.

Lemma released_by_list_In m rxs vals v :
  In v (released_by_list m rxs vals) <-> In v vals /\ exists rx, In rx rxs /\ m rx v = true.
Proof. unfold released_by_list. rewrite filter_In, existsb_exists. reflexivity. Qed.

(* EXACT: a value of a regex-restricted attribute is released iff it is an identity value and some single
   expression of that attribute's list matches it *)
Lemma favs_entry_values_exact matches rest e rxs v :
  lookup (lower (fst e)) rest = Some (Some rxs) ->
  (exists vs, favs_entry matches rest e = Some (fst e, vs) /\ In v vs) <->
  In v (released_by_list matches rxs (snd e)).
Proof.
  intros Hl. unfold favs_entry. rewrite Hl, released_by_list_In, <- flat_filter_In.
  destruct (flat_map (fun rx => filter (matches rx) (snd e)) rxs) as [|x rv].
  - split; [intros [vs [[=] _]]|intros []].
  - rewrite <- (dedup_In v (x :: rv)). split.
    + intros [vs [[= <-] Hv]]. exact Hv.
    + intros H. exists (dedup (x :: rv)). split; [reflexivity|exact H].
Qed.

(* more expressions release at least as much *)
Lemma released_by_list_monotone m rxs1 rxs2 vals v :
  In v (released_by_list m rxs1 vals) -> incl rxs1 rxs2 -> In v (released_by_list m rxs2 vals).
Proof.
  rewrite !released_by_list_In. intros [Hv [rx [Hr Hm]]] Hi.
  split; [exact Hv|]. exists rx. split; [apply Hi; exact Hr|exact Hm].
Qed.

(* every value a met row key names is listed under the Name read from the SP's metadata (the entity-category Name in C07) *)
Lemma key_met_listed name ea key :
  key_met (md_entity_attribute name ea) key ->
  forall k, In k (snd key) -> k = [] \/ exists vs, In (name, vs) ea /\ In k vs.
Proof.
  destruct key as [b ks]. destruct b; cbn [key_met snd].
  - destruct ks as [|k0 ks']; [intros []|]. destruct ks' as [|k1 r]; [|intros []].
    intros Hm k Hk. destruct Hk as [<-|[]]. destruct Hm as [He|Hi]; [left; exact He|right; apply md_entity_attribute_In; exact Hi].
  - intros H k Hk. right. apply md_entity_attribute_In. apply H; exact Hk.
Qed.

