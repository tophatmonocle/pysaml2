(* Proofs about Model/StatusNear.v: a code other than the Success URN is not
   Success; every generated near-miss of a string differs from the string. *)
From PV Require Import Lib.Base Gen.StatusTable Model.Status Model.StatusNear Proofs.Status_lemmas.
From Coq Require Import Lia.
Open Scope N_scope.

Lemma success_urn_is_constant : STATUS_SUCCESS = SUCCESS_URN.
Proof. reflexivity. Qed.

Lemma other_code_not_success x : x <> SUCCESS_URN -> is_success (Some x) = false.
Proof. intros H. apply is_success_false_iff. rewrite success_urn_is_constant. congruence. Qed.

Lemma length_differs_not_success x :
  List.length x <> List.length SUCCESS_URN -> is_success (Some x) = false.
Proof. intros H. apply other_code_not_success. congruence. Qed.

Lemma substring_proper_shorter (s t : str) :
  substring s t -> s <> t -> (List.length s < List.length t)%nat.
Proof.
  intros (a & b & ->) Hne. rewrite !app_length.
  destruct a as [|x a]; destruct b as [|y b]; cbn [List.length app] in *; try lia.
  exfalso. apply Hne. now rewrite app_nil_r.
Qed.

Lemma proper_substring_not_success x :
  substring x SUCCESS_URN -> x <> SUCCESS_URN -> is_success (Some x) = false.
Proof. intros _ H. exact (other_code_not_success x H). Qed.

Lemma proper_superstring_not_success x :
  substring SUCCESS_URN x -> x <> SUCCESS_URN -> is_success (Some x) = false.
Proof. intros _ H. exact (other_code_not_success x H). Qed.

Lemma shorter_substring_not_success x :
  substring x SUCCESS_URN -> (List.length x < List.length SUCCESS_URN)%nat -> is_success (Some x) = false.
Proof. intros _ H. apply length_differs_not_success. lia. Qed.

Lemma drops_length s x : In x (drops s) -> S (List.length x) = List.length s.
Proof.
  revert x. induction s as [|c r IH]; cbn [drops]; intros x H; [destruct H|].
  destruct H as [<-|H]; [reflexivity|].
  apply in_map_iff in H as (y & <- & Hy). cbn [List.length]. f_equal. exact (IH y Hy).
Qed.

Lemma inserts_length c s x : In x (inserts c s) -> List.length x = S (List.length s).
Proof.
  revert x. induction s as [|d r IH]; cbn [inserts]; intros x H.
  - destruct H as [<-|[]]. reflexivity.
  - destruct H as [<-|H]; [reflexivity|].
    apply in_map_iff in H as (y & <- & Hy). cbn [List.length]. f_equal. exact (IH y Hy).
Qed.

Lemma prefixes_shorter s x : In x (prefixes s) -> (List.length x < List.length s)%nat.
Proof.
  revert x. induction s as [|c r IH]; cbn [prefixes]; intros x H; [destruct H|].
  destruct H as [<-|H]; [cbn; lia|]. apply in_map_iff in H as (y & <- & Hy). specialize (IH y Hy). cbn. lia.
Qed.

Lemma suffixes_shorter s x : In x (suffixes s) -> (List.length x < List.length s)%nat.
Proof.
  revert x. induction s as [|c r IH]; cbn [suffixes]; intros x H; [destruct H|].
  destruct H as [<-|H]; [cbn; lia|]. specialize (IH x H). cbn. lia.
Qed.

Lemma replaces_neq f s x : In x (replaces f s) -> x <> s /\ List.length x = List.length s.
Proof.
  revert x. induction s as [|d r IH]; cbn [replaces]; intros x H; [destruct H|].
  apply in_app_or in H as [H|H].
  - destruct (N.eqb_spec (f d) d) as [|Hn]; [destruct H|].
    destruct H as [<-|[]]. split; [|reflexivity]. intros E. injection E. exact Hn.
  - apply in_map_iff in H as (y & <- & Hy). destruct (IH y Hy) as [Hne Hl]. split.
    + intros E. injection E. exact Hne.
    + cbn [List.length]. now rewrite Hl.
Qed.

Lemma wraps_longer s x : s <> [] -> In x (wraps s) -> (List.length s < List.length x)%nat.
Proof.
  intros Hs H. unfold wraps in H. cbn [In] in H.
  assert (0 < List.length s)%nat as Hp by (destruct s; [congruence|cbn; lia]).
  repeat (destruct H as [<-|H]; [cbn [List.length]; rewrite ?app_length; cbn [List.length]; lia|]).
  destruct H.
Qed.

Lemma near_misses_neq s x : s <> [] -> In x (near_misses s) -> x <> s.
Proof.
  intros Hs H. unfold near_misses in H. rewrite !in_app_iff in H.
  destruct H as [H|[H|[H|[H|[H|[H|[H|H]]]]]]].
  - apply drops_length in H. intros ->. lia.
  - apply in_flat_map in H as (c & _ & H). apply inserts_length in H. intros ->. lia.
  - apply prefixes_shorter in H. intros ->. lia.
  - apply suffixes_shorter in H. intros ->. lia.
  - exact (proj1 (replaces_neq _ _ _ H)).
  - exact (proj1 (replaces_neq _ _ _ H)).
  - exact (proj1 (replaces_neq _ _ _ H)).
  - apply (wraps_longer s x Hs) in H. intros ->. lia.
Qed.

Lemma near_miss_of_success_not_success x :
  In x (near_misses SUCCESS_URN) -> is_success (Some x) = false.
Proof.
  intros H. apply other_code_not_success. apply near_misses_neq; [discriminate|exact H].
Qed.

(* membership may be tested on reversed strings: the sweep of Props/C06.v over strings with a long common prefix *)
Lemma mem_str_rev x l : mem_str x l = mem_str (rev' x) (map (@rev' N) l).
Proof.
  unfold mem_str, rev'. induction l as [|k l IH]; cbn [map existsb]; [reflexivity|]. rewrite IH, <- !rev_alt. f_equal.
  destruct (str_eqb_spec x k) as [->|Hn]; [now rewrite str_eqb_refl|].
  symmetry. apply str_eqb_neq. intros E. apply Hn. now rewrite <- (rev_involutive x), E, rev_involutive.
Qed.
