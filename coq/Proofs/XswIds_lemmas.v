(* C01 - the identifier itself: the object's id is the literal ID attribute; one identifier for pre-check and tool *)
From PV Require Import Lib.Base Model.Xsw Model.XswIds Proofs.Xsw_lemmas.
Import ListNotations.
Open Scope N_scope.

Lemma literal_keys_equal a b :
  is_literal_id a = true -> is_literal_id b = true -> key_eqb (attr_key a) (attr_key b) = true.
Proof.
  destruct a as [[[na|] la] va]; destruct b as [[[nb|] lb] vb]; cbn; try discriminate.
  intros Ha Hb. apply str_eqb_eq in Ha. apply str_eqb_eq in Hb. subst. apply str_eqb_refl.
Qed.

Lemma item_id_from_no_literal al : forall acc,
  (forall b, In b al -> is_literal_id b = false) -> item_id_from acc al = acc.
Proof.
  induction al as [|a r IH]; intros acc H; [reflexivity|].
  unfold item_id_from. cbn [fold_left]. rewrite (H a (or_introl eq_refl)).
  apply IH. intros b Hb. apply H. right. exact Hb.
Qed.

Lemma literal_id_no_literal al :
  (forall b, In b al -> is_literal_id b = false) -> literal_id al = None.
Proof.
  induction al as [|a r IH]; intros H; [reflexivity|].
  cbn [literal_id]. rewrite (H a (or_introl eq_refl)). apply IH. intros b Hb. apply H. right. exact Hb.
Qed.

Lemma option_map_id (i : option str) : option_map (fun v : str => v) i = i.
Proof. destruct i; reflexivity. Qed.

(* if, at the id v, the pre-check and the tool are handed the same string and that string is v itself, acceptance
   means the element with the OBJECT's id is covered; the two premises are what C01_*_normalisation_refuted drop *)
Theorem relied_is_covered_g fp ft pol doc nm v certs :
  ft v = fp v -> fp v = v ->
  check_signature_g fp ft pol doc nm (Some v) certs = true ->
  exists px X k D, covered doc nm v certs px X k D.
Proof.
  intros Hsame Hraw H. unfold check_signature_g in H. cbn [option_map] in H. rewrite Hsame, Hraw in H.
  exact (relied_is_covered_some _ _ _ _ _ H).
Qed.
