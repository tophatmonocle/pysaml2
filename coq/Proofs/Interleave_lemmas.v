(* Proofs/Interleave_lemmas.v — a call whose files nobody else writes to observes exactly what it observes alone,
   in every interleaving and for any number of other calls; with one shared path it does not. *)
From PV Require Import Lib.Base Model.Interleave.
Open Scope N_scope.

Lemma fs_get_put_same f p d : fs_get (fs_put f p d) p = Some d.
Proof. unfold fs_put; cbn. now rewrite N.eqb_refl. Qed.

Lemma fs_get_put_other f p q d : q <> p -> fs_get (fs_put f q d) p = fs_get f p.
Proof.
  intros H; unfold fs_put; cbn. destruct (N.eqb q p) eqn:E; [apply N.eqb_eq in E; contradiction|reflexivity].
Qed.

Definition agree (P : list N) (f1 f2 : fs) := forall p, In p P -> fs_get f1 p = fs_get f2 p.

Lemma agree_put_both P f1 f2 p d : agree P f1 f2 -> agree P (fs_put f1 p d) (fs_put f2 p d).
Proof. intros H q Hq. unfold fs_put; cbn. destruct (N.eqb p q); [reflexivity|now apply H]. Qed.

Lemma agree_put_left P f1 f2 p d : agree P f1 f2 -> ~ In p P -> agree P (fs_put f1 p d) f2.
Proof. intros H Hn q Hq. rewrite fs_get_put_other; [now apply H|]. intros ->. contradiction. Qed.

Lemma only_in c e es : ev_caller e = c -> only c (e :: es) = e :: only c es.
Proof. intros H. unfold only; cbn. now rewrite H, N.eqb_refl. Qed.

Lemma only_out c e es : ev_caller e <> c -> only c (e :: es) = only c es.
Proof. intros H. unfold only; cbn. apply N.eqb_neq in H. now rewrite H. Qed.

Lemma proj_in c o obs : proj c ((c, o) :: obs) = (c, o) :: proj c obs.
Proof. unfold proj; cbn. now rewrite N.eqb_refl. Qed.

Lemma proj_out c c' o obs : c' <> c -> proj c ((c', o) :: obs) = proj c obs.
Proof. intros H. unfold proj; cbn. apply N.eqb_neq in H. now rewrite H. Qed.

(* a step of caller c touches only files in P; a step of anybody else writes to none of them *)
Definition respects (c : N) (P : list N) (e : ev) : Prop :=
  if N.eqb (ev_caller e) c then forall p, In p (touches e) -> In p P else forall p, In p (writes e) -> ~ In p P.

(* two file systems that agree on P show caller c the same, whether or not the others' steps are run *)
Lemma exec_agree tool c P es : Forall (respects c P) es ->
  forall f1 f2, agree P f1 f2 -> proj c (exec tool f1 es) = exec tool f2 (only c es).
Proof.
  induction 1 as [|e es He _ IH]; intros f1 f2 Ha; [reflexivity|]. unfold respects in He.
  destruct (N.eqb_spec (ev_caller e) c) as [E|E].
  - rewrite (only_in c e es E). destruct e as [c0 p d|c0 k p o|c0 o]; cbn in E; subst c0; cbn [exec].
    + apply IH, agree_put_both, Ha.
    + rewrite proj_in, (Ha p) by (apply He; now left). f_equal. apply IH, agree_put_both, Ha.
    + rewrite proj_in, (Ha o) by (apply He; now left). f_equal. apply IH, Ha.
  - rewrite (only_out c e es E). destruct e as [c0 p d|c0 k p o|c0 o]; cbn in E; cbn [exec].
    + apply IH, agree_put_left; [exact Ha|apply He; now left].
    + rewrite proj_out by exact E. apply IH, agree_put_left; [exact Ha|apply He; now left].
    + rewrite proj_out by exact E. apply IH, Ha.
Qed.

Lemma in_only c e es : In e (only c es) -> In e es /\ ev_caller e = c.
Proof. unfold only. rewrite filter_In. intros [H1 H2]. split; [exact H1|now apply N.eqb_eq]. Qed.

(* any number of callers, any interleaving: the call observes what its own steps observe alone *)
Lemma own_document : forall tool es f c, isolated c es -> proj c (exec tool f es) = exec tool f (only c es).
Proof.
  intros tool es f c Hiso. apply (exec_agree tool c (flat_map touches (only c es))); [|intros p _; reflexivity].
  apply Forall_forall. intros e Hi. unfold respects. destruct (N.eqb_spec (ev_caller e) c) as [E|E]; [|exact (Hiso e Hi E)].
  intros p Hp. apply in_flat_map. exists e. split; [|exact Hp]. apply filter_In. split; [exact Hi|now apply N.eqb_eq].
Qed.

Lemma exec_alone : forall tool c us f, exec tool f (call_events c us) = alone tool c us.
Proof.
  intros tool c us. induction us as [|[[[k p] o] d] us IH]; intros f; [reflexivity|].
  unfold call_events, alone in *. cbn [flat_map use_events app exec].
  rewrite fs_get_put_same. rewrite fs_get_put_same. cbn [app]. f_equal. f_equal. apply IH.
Qed.

Lemma call_events_caller c us e : In e (call_events c us) -> ev_caller e = c.
Proof.
  unfold call_events. rewrite in_flat_map. intros ([[[k p] o] d] & _ & H). cbn in H.
  destruct H as [<-|[<-|[<-|[]]]]; reflexivity.
Qed.

Lemma call_events_touches c us e q : In e (call_events c us) -> In q (touches e) -> In q (paths us).
Proof.
  unfold call_events, paths. rewrite in_flat_map. intros ([[[k p] o] d] & Hu & H) Hq. apply in_flat_map.
  exists (k, p, o, d). split; [exact Hu|]. cbn in H. cbn.
  destruct H as [<-|[<-|[<-|[]]]]; cbn in Hq; intuition.
Qed.

Lemma writes_touches e q : In q (writes e) -> In q (touches e).
Proof. destruct e; cbn; intuition. Qed.

Lemma merge_in {A} (l1 l2 l : list A) : merge l1 l2 l -> forall x, In x l -> In x l1 \/ In x l2.
Proof.
  induction 1 as [|a l1 l2 l _ IH|a l1 l2 l _ IH]; intros x Hx; [destruct Hx| |];
    (destruct Hx as [<-|Hx]; [cbn; auto|destruct (IH x Hx); cbn; auto]).
Qed.

Lemma merge_only_l c l1 l2 l : merge l1 l2 l ->
  (forall e, In e l1 -> ev_caller e = c) -> (forall e, In e l2 -> ev_caller e <> c) -> only c l = l1.
Proof.
  induction 1 as [|a l1 l2 l _ IH|a l1 l2 l _ IH]; intros H1 H2; [reflexivity| |].
  - rewrite only_in by (apply H1; now left). f_equal. apply IH; [intros e He; apply H1; now right|exact H2].
  - rewrite only_out by (apply H2; now left). apply IH; [exact H1|intros e He; apply H2; now right].
Qed.

Lemma merge_sym {A} (l1 l2 l : list A) : merge l1 l2 l -> merge l2 l1 l.
Proof. induction 1; constructor; assumption. Qed.

Lemma merge_assoc {A} (l1 l2 l3 l12 l : list A) :
  merge l1 l2 l12 -> merge l12 l3 l -> exists l23, merge l2 l3 l23 /\ merge l1 l23 l.
Proof.
  intros M1 M2. revert l1 l2 M1. induction M2 as [|x l12 l3 l _ IH|x l12 l3 l _ IH]; intros l1 l2 M1.
  - inversion M1; subst. exists []. split; constructor.
  - inversion M1 as [|y k1 k2 k M1'|y k1 k2 k M1']; subst; destruct (IH _ _ M1') as (l23 & Ma & Mb).
    + exists l23. split; [exact Ma|apply merge_l; exact Mb].
    + exists (x :: l23). split; [apply merge_l; exact Ma|apply merge_r; exact Mb].
  - destruct (IH _ _ M1) as (l23 & Ma & Mb). exists (x :: l23). split; apply merge_r; assumption.
Qed.

Definition disjoint (P Q : list N) := forall p, In p P -> ~ In p Q.
Lemma disjoint_sym P Q : disjoint P Q -> disjoint Q P.
Proof. intros D p Hq Hp. exact (D p Hp Hq). Qed.

(* any number of calls, any interleaving (es is arbitrary): if the steps of caller c in es are the steps of its call,
   and nobody else writes to one of the call's files, the call observes what it observes alone *)
Lemma any_calls : forall tool f es c us,
  only c es = call_events c us ->
  (forall e, In e es -> ev_caller e <> c -> forall p, In p (writes e) -> ~ In p (paths us)) ->
  proj c (exec tool f es) = alone tool c us.
Proof.
  intros tool f es c us Ho Hiso. rewrite own_document; [rewrite Ho; apply exec_alone|].
  intros e Hi Hc p Hp Hin. rewrite Ho in Hin. apply in_flat_map in Hin. destruct Hin as (e' & He' & Hq).
  apply (Hiso e Hi Hc p Hp). now apply (call_events_touches c us e').
Qed.

(* a step that is not of caller a and writes to none of the files of a's call *)
Definition foreign (a : N) (ua : list use) (e : ev) : Prop := ev_caller e <> a /\ forall p, In p (writes e) -> ~ In p (paths ua).

Lemma foreign_call a ua b ub e : a <> b -> disjoint (paths ua) (paths ub) -> In e (call_events b ub) -> foreign a ua e.
Proof.
  intros Hab D He. split; [rewrite (call_events_caller b ub e He); exact (not_eq_sym Hab)|].
  intros p Hp Hin. apply (D p Hin), (call_events_touches b ub e p He), writes_touches, Hp.
Qed.

Lemma merge_own tool f a ua rest es : merge (call_events a ua) rest es -> (forall e, In e rest -> foreign a ua e) ->
  proj a (exec tool f es) = alone tool a ua.
Proof.
  intros M F. apply any_calls.
  - apply (merge_only_l a _ _ _ M); [apply call_events_caller|intros e He; exact (proj1 (F e He))].
  - intros e Hi Hc p Hp. destruct (merge_in _ _ _ M e Hi) as [H|H]; [destruct (Hc (call_events_caller a ua e H))|].
    exact (proj2 (F e H) p Hp).
Qed.

Lemma two_calls : forall tool f a b ua ub es,
  a <> b -> disjoint (paths ua) (paths ub) -> merge (call_events a ua) (call_events b ub) es ->
  proj a (exec tool f es) = alone tool a ua /\ proj b (exec tool f es) = alone tool b ub.
Proof.
  intros tool f a b ua ub es Hab Hd Hm. split.
  - apply (merge_own tool f a ua _ es Hm). intros e. apply foreign_call; assumption.
  - apply (merge_own tool f b ub _ es (merge_sym _ _ _ Hm)). intros e. apply foreign_call; auto using not_eq_sym, disjoint_sym.
Qed.

(* ONE shared scratch path: there is an interleaving in which call 0 (a text the tool refuses) is judged on the text of
   call 1 (a text the tool accepts) *)
Definition shared_a : list use := [(0, 7, 8, 1)].
Definition shared_b : list use := [(0, 7, 9, 2)].
Definition shared_es : list ev := [Write 0 7 1; Write 1 7 2; Run 0 0 7 8; Read 0 8; Run 1 0 7 9; Read 1 9].
(* call_verdict applies the test to what was read back as well: 12 is tool10's answer to the text 2 *)
Definition ok_only_2 (d : N) : bool := N.eqb d 2 || N.eqb d 12.
Definition tool10 (k : N) (seen : option N) : N := match seen with Some d => d + 10 + 100 * k | None => 0 end.

(* the same with one shared OUTPUT file: the inputs are separate, the answer read by call 0 is the answer to call 1 *)
Definition shared_out_es : list ev := [Write 0 5 1; Write 1 6 2; Run 0 1 5 8; Run 1 1 6 8; Read 0 8; Read 1 8].
