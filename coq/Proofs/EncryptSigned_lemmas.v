(* Proofs/EncryptSigned_lemmas.v — C17: Model/EncryptSigned.v with the flags of the code (code_flags: both False) IS
   Model/Encrypt.v: parse_t_v_code holds by computation; parse_response_t_v_code needs, besides, that parse_response_x
   only applies its stage, so that pointwise equal stages give the same run (parse_response_x_ext). *)
From PV Require Import Lib.Base Model.Status Model.Response Model.Encrypt Model.EncryptSigned.
Open Scope Z_scope.

Lemma parse_t_v_code signed tc c irt req s root again fs :
  parse_t_v code_flags signed tc c irt req s root again fs = parse_t tc c irt req s root again fs.
Proof.
  reflexivity.
Qed.

(* Entity._parse_response only APPLIES its assertion stage: pointwise equal stages give the same run (no extensionality axiom) *)
Lemma verify_x_ext {X} (st1 st2 : st -> X -> result st * X) c s r x :
  st1 s x = st2 s x -> verify_x st1 c s r x = verify_x st2 c s r x.
Proof. intros H. unfold verify_x. rewrite H. reflexivity. Qed.

Lemma parse_response_x_ext {X} (stage stage' : bool -> st -> X -> result st * X) (residue residue' : bool -> st -> X -> st) c r (x0 : X) :
  (forall b s x, stage b s x = stage' b s x) -> (forall b s x, residue b s x = residue' b s x) ->
  parse_response_x stage residue c r x0 = parse_response_x stage' residue' c r x0.
Proof.
  intros Hs Hr. unfold parse_response_x. cbv zeta.
  match goal with |- match ?S with _ => _ end = _ => destruct S as [[s b]|e] end; [|reflexivity].
  destruct (negb (r_valid_instance r)); [reflexivity|].
  rewrite (verify_x_ext (stage true) (stage' true)) by apply Hs.
  destruct (verify_x (stage' true) c s r x0) as [[x|e] x1]; [reflexivity|].
  rewrite Hr. rewrite (verify_x_ext (stage false) (stage' false)) by apply Hs. reflexivity.
Qed.

Lemma parse_response_t_v_code tc c r root fs :
  parse_response_t_v code_flags tc c r root fs = parse_response_t tc c r root fs.
Proof.
  unfold parse_response_t_v, parse_response_t. apply parse_response_x_ext.
  - intros b s [[fs' root'] again]. unfold stage_t_v, stage_t. rewrite parse_t_v_code. reflexivity.
  - intros b s [[fs' root'] again]. unfold residue_t_v, residue_t. rewrite parse_t_v_code. reflexivity.
Qed.
