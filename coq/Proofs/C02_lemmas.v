(* C02: the three signature options and the signatures' verdicts decide acceptance exactly *)
From PV Require Import Lib.Base Model.Status Model.Response Proofs.Response_lemmas Proofs.Rel_lemmas.
Open Scope Z_scope.

Definition strip_a (a : assertion) : assertion :=
  {| a_id := a_id a; a_sig := None; a_authn := a_authn a; a_conditions := a_conditions a; a_has_subject := a_has_subject a;
     a_confirmations := a_confirmations a; a_name_id := a_name_id a |}.
Definition strip_e (e : enc_assertion) : enc_assertion := {| e_opens := e_opens e; e_inner := strip_a (e_inner e) |}.
Definition strip (r : response) : response :=
  {| r_sig := None; r_valid_instance := r_valid_instance r; r_irt := r_irt r; r_version := r_version r; r_ver_lt2 := r_ver_lt2 r;
     r_destination := r_destination r; r_issue_instant := r_issue_instant r; r_status := r_status r;
     r_assertions := map strip_a (r_assertions r); r_encrypted := map strip_e (r_encrypted r) |}.

Definition sigok (x : option (result unit)) : bool := match x with Some (Err _) => false | _ => true end.
Definition present (x : option (result unit)) : bool := match x with None => false | _ => true end.

Lemma present_sigok_ok (x : option (result unit)) : present x = true -> sigok x = true -> x = Some (Ok tt).
Proof. destruct x as [[[]|]|]; cbn; intros; try discriminate; reflexivity. Qed.

(* all non-signature checks of the pipeline pass *)
Definition otherwise_valid (c : cfg) (r : response) : bool :=
  match loads_rest c r with
  | Ok s => r_valid_instance r && okS (verify c false s (strip r))
  | Err _ => false
  end.

Definition all_sigok (r : response) : bool := forallb (fun a => sigok (a_sig a)) (processed r).
Definition all_present (r : response) : bool := forallb (fun a => present (a_sig a)) (processed r).

(* the documented rule *)
Definition documented (c : cfg) (r : response) : bool :=
  sigok (r_sig r) && all_sigok r &&
  implb (wrs c) (present (r_sig r)) && implb (was c) (all_present r) &&
  implb (waors c) (present (r_sig r) || all_present r).

Lemma check_assertion_strip c irt req v s a :
  check_assertion c irt req v s a =
  match sig_stage req v a with
  | Err e => Err e
  | Ok _ => check_assertion c irt false v s (strip_a a)
  end.
Proof. unfold check_assertion at 1. fold (sig_stage req v a). destruct (sig_stage req v a) as [[]|e]; reflexivity. Qed.

(* the signature stage of _assertion lets [a] through *)
Definition sigp (req v : bool) (a : assertion) : bool :=
  match a_sig a with None => negb req | Some r => v || is_ok r end.

Lemma sigp_stage req v a : sigp req v a = is_ok (sig_stage req v a).
Proof. unfold sigp, sig_stage. destruct (a_sig a) as [[[]|]|], req, v; reflexivity. Qed.

(* r1 is r2 when the gate b is open, an error when it is shut *)
Definition gated {A} (b : bool) (r1 r2 : result A) : Prop :=
  (b = true -> r1 = r2) /\ (b = false -> exists e, r1 = Err e).

Lemma gated_bind {A B} b1 b2 (r1 r2 : result A) (k1 k2 : A -> result B) :
  gated b1 r1 r2 -> (forall x, gated b2 (k1 x) (k2 x)) -> gated (b1 && b2) (bind r1 k1) (bind r2 k2).
Proof.
  intros [G1 G2] K. destruct b1; cbn [andb].
  - rewrite (G1 eq_refl). destruct r2 as [x|e]; [apply K|]. split; [reflexivity|intros _; now exists e].
  - destruct (G2 eq_refl) as [e ->]. split; [discriminate|intros _; now exists e].
Qed.

Lemma gated_bind_ext {A B} b (r1 r2 : result A) (k1 k2 : A -> result B) :
  gated b r1 r2 -> (forall x, k1 x = k2 x) -> gated b (bind r1 k1) (bind r2 k2).
Proof.
  intros [G1 G2] K. split.
  - intros Hb. rewrite (G1 Hb). destruct r2 as [x|e]; [apply K|reflexivity].
  - intros Hb. destruct (G2 Hb) as [e ->]. now exists e.
Qed.

Lemma check_assertions_strip c irt req v push : forall l s,
  gated (forallb (sigp req v) l) (check_assertions c irt req v push s l) (check_assertions c irt false v push s (map strip_a l)).
Proof.
  induction l as [|a l IH]; intros s; cbn [forallb map check_assertions]; [split; [reflexivity|discriminate]|].
  apply gated_bind; [|intros s1; apply IH].
  rewrite check_assertion_strip, sigp_stage. destruct (sig_stage req v a) as [[]|e]; split; try discriminate; [reflexivity|now exists e].
Qed.

Lemma verify_decrypted_strip l : verify_decrypted (map strip_a l) = Ok tt.
Proof. induction l as [|a l IH]; [reflexivity|]. cbn. exact IH. Qed.

Lemma verify_decrypted_spec l : gated (forallb (fun a => sigok (a_sig a)) l) (verify_decrypted l) (Ok tt).
Proof.
  induction l as [|a l IH]; cbn [forallb verify_decrypted]; [split; [reflexivity|discriminate]|].
  destruct (a_sig a) as [[[]|e]|]; cbn [sigok andb]; try exact IH.
  split; [discriminate|intros _; now exists e].
Qed.

Lemma map_strip_nil {A} (f : A -> A) l : (match map f l with [] => true | _ => false end) = (match l with [] => true | _ => false end).
Proof. destruct l; reflexivity. Qed.

(* the assertion-signature condition under requirement [req] *)
Definition asig_cond (req : bool) (r : response) : bool :=
  forallb (sigp req false) (r_assertions r) &&
  forallb (fun a => sigok (a_sig a)) (decrypted_prefix (r_encrypted r)) &&
  forallb (sigp req true) (decrypted_prefix (r_encrypted r)).

Lemma parse_assertion_strip c req s r :
  (asig_cond req r = true -> parse_assertion c req s r = parse_assertion c false s (strip r)) /\
  (asig_cond req r = false -> (exists e, parse_assertion c req s r = Err e)).
Proof.
  unfold asig_cond. rewrite !parse_assertion_eq. cbn [strip r_assertions r_encrypted r_irt].
  rewrite !map_length, (decrypted_prefix_map strip_a), <- !andb_assoc.
  destruct (negb _); [split; [reflexivity|intros _; eexists; reflexivity]|].
  apply gated_bind; [apply check_assertions_strip|intros s1].
  apply gated_bind; [rewrite verify_decrypted_strip; apply verify_decrypted_spec|intros _].
  apply gated_bind_ext; [apply check_assertions_strip|intros s2]. unfold push_all. now rewrite map_map.
Qed.

(* the same for an assertion wherever it stands: a present signature verifies, and one is present if required *)
Definition kcond (req : bool) (a : assertion) : bool := sigok (a_sig a) && (negb req || present (a_sig a)).

Lemma asig_cond_spec req r : asig_cond req r = all_sigok r && (negb req || all_present r).
Proof.
  unfold all_sigok, all_present. rewrite <- forallb_and_or. fold (kcond req). unfold processed. rewrite forallb_app.
  unfold asig_cond. rewrite <- andb_assoc, forallb_andb.
  rewrite andb_comm. f_equal; apply forallb_ext; intros a; unfold kcond, sigp, sigok, present;
    destruct (a_sig a) as [[[]|?]|], req; reflexivity.
Qed.

Lemma verify_front_not_ok c r x : verify_front c r = Some x -> okS x = false.
Proof.
  unfold verify_front. destruct (_ && _ && _); [intros [= <-]; reflexivity|].
  destruct (verify_core (verify_in_of c r)) as [[[]|]|]; intros [= <-]; reflexivity.
Qed.

Lemma okS_verify c req s r : okS (verify c req s r) = asig_cond req r && okS (verify c false s (strip r)).
Proof.
  rewrite !verify_eq. change (verify_front c (strip r)) with (verify_front c r).
  destruct (verify_front c r) as [x|] eqn:Ef; [rewrite (verify_front_not_ok _ _ _ Ef); now rewrite andb_false_r|].
  destruct (parse_assertion_strip c req s r) as [P1 P2]. destruct (asig_cond req r).
  - now rewrite (P1 eq_refl).
  - destruct (P2 eq_refl) as [e ->]. reflexivity.
Qed.

(* with every signature present verifying and the other checks passing, the forced run is the stripped run when
   all signatures are there, and SignatureError at the first missing one *)
Lemma check_assertions_forced c irt v push : forall l s,
  forallb (fun a => sigok (a_sig a)) l = true -> is_ok (check_assertions c irt false v push s (map strip_a l)) = true ->
  check_assertions c irt true v push s l =
  if forallb (fun a => present (a_sig a)) l then check_assertions c irt false v push s (map strip_a l) else Err SignatureError.
Proof.
  induction l as [|a l IH]; intros s Hs Hok; [reflexivity|]. cbn [forallb map check_assertions] in *.
  rewrite (check_assertion_strip c irt true v s a). unfold sig_stage.
  destruct (a_sig a) as [[[]|e]|]; cbn [sigok present andb] in *; try discriminate; [|reflexivity].
  assert ((if v then Ok tt else Ok tt) = (Ok tt : result unit)) as -> by (destruct v; reflexivity).
  destruct (check_assertion c irt false v s (strip_a a)) as [s1|]; [|discriminate]. now apply IH.
Qed.

Lemma forced_fail_is_signature_error c s r :
  all_sigok r = true -> all_present r = false -> okS (verify c false s (strip r)) = true ->
  verify c true s r = Err SignatureError.
Proof.
  unfold all_sigok, all_present, processed. rewrite !forallb_app. intros Hs Hp.
  apply andb_true_iff in Hs as [Hsd Hsp].
  rewrite !verify_eq. change (verify_front c (strip r)) with (verify_front c r).
  destruct (verify_front c r) as [x|] eqn:Ef; [intros Hok; now rewrite (verify_front_not_ok _ _ _ Ef) in Hok|].
  rewrite !parse_assertion_eq. cbn [strip r_assertions r_encrypted r_irt].
  rewrite !map_length, (decrypted_prefix_map strip_a), verify_decrypted_strip, (proj1 (verify_decrypted_spec _) Hsd).
  destruct (negb _); [discriminate|].
  destruct (check_assertions c (r_irt r) false false false s (map strip_a (r_assertions r))) as [s1|] eqn:E1; [|discriminate].
  destruct (check_assertions c (r_irt r) false true true s1 (map strip_a (decrypted_prefix (r_encrypted r)))) as [s2|] eqn:E2; [|discriminate].
  intros _. rewrite (check_assertions_forced _ _ _ _ _ _ Hsp), E1 by (now rewrite E1).
  destruct (forallb (fun a => present (a_sig a)) (r_assertions r)); [|reflexivity].
  rewrite (check_assertions_forced _ _ _ _ _ _ Hsd) by (now rewrite E2). rewrite andb_true_r in Hp. now rewrite Hp.
Qed.

Lemma verify_none_strip c req req2 s s2 r : verify c req s r = Ok None -> okS (verify c req2 s2 (strip r)) = false.
Proof.
  rewrite !verify_eq. change (verify_front c (strip r)) with (verify_front c r).
  destruct (verify_front c r) as [x|] eqn:Ef; [intros _; exact (verify_front_not_ok _ _ _ Ef)|].
  destruct (parse_assertion c req s r); discriminate.
Qed.

Lemma sigerr_is_sigver : is_sigver_error SignatureError = true /\ is_signature_error SignatureError = true.
Proof. split; reflexivity. Qed.

(* stage 2 of _parse_response: verify forced to require signatures, retried unforced after a SignatureError when
   want_assertions_signed is off (the function Response_lemmas.verify_retry) *)
Definition stage2 (c : cfg) (s : st) (r : response) : result (option st * bool) :=
  match verify c true s r with
  | Ok x => Ok (x, true)
  | Err e => if is_signature_error e then
               (if was c then Err e
                else match verify c false (parse_assertion_residue c true s r) r with Ok x => Ok (x, false) | Err e' => Err e' end)
             else Err e
  end.

Definition stage2_ok (x : result (option st * bool)) : option bool :=   (* Some flag = a response object with that flag *)
  match x with Ok (Some _, b) => Some b | _ => None end.

(* the retry runs on what the failed attempt left: for the verdict that is the state before it *)
Lemma retry_okS c s r :
  okS (verify c false (parse_assertion_residue c true s r) r) = all_sigok r && okS (verify c false s (strip r)).
Proof.
  rewrite okS_verify, asig_cond_spec, (rel_verify c false _ s (strip r) (residue_rs c true s r)). cbn [negb orb]. now rewrite andb_true_r.
Qed.

Lemma stage2_spec c s r :
  let SA := all_sigok r in let PA := all_present r in let OV := okS (verify c false s (strip r)) in
  stage2_ok (stage2 c s r) =
    if SA && OV then (if PA then Some true else if was c then None else Some false) else None.
Proof.
  cbv zeta. unfold stage2.
  (* K1: the forced run is ok iff SA, PA and OV; K2: the retry is ok iff SA and OV *)
  pose proof (okS_verify c true s r) as K1. rewrite asig_cond_spec in K1. cbn [negb orb] in K1.
  pose proof (retry_okS c s r) as K2.
  destruct (verify c true s r) as [[s'|]|e] eqn:V1; cbn [okS stage2_ok] in *.
  - symmetry in K1. apply andb_true_iff in K1 as [K1 K3]. apply andb_true_iff in K1 as [K1 K4]. now rewrite K1, K3, K4.
  - rewrite (verify_none_strip c true _ s s r V1). now rewrite andb_false_r.
  - destruct (all_sigok r && okS (verify c false s (strip r))) eqn:G.
    + (* the forced run failed although SA and OV hold: a signature is missing, the error is SignatureError, and the
         retry is made iff want_assertions_signed is off *)
      apply andb_true_iff in G as [G1 G2]. rewrite G1, G2 in K1. cbn in K1. rewrite andb_true_r in K1.
      rewrite <- K1. rewrite (forced_fail_is_signature_error c s r G1 (eq_sym K1) G2) in V1. injection V1 as <-.
      change (is_signature_error SignatureError) with true. cbn iota. destruct (was c); [reflexivity|].
      destruct (verify c false (parse_assertion_residue c true s r) r) as [[s''|]|]; cbn [okS] in K2; try discriminate. reflexivity.
    + destruct (is_signature_error e); [|reflexivity]. destruct (was c); [reflexivity|].
      destruct (verify c false (parse_assertion_residue c true s r) r) as [[s''|]|]; cbn [okS] in K2; try discriminate; reflexivity.
Qed.

Lemma parse_response_stage2 c r :
  is_ok (parse_response c r) =
  match (match loads c true r with
         | Ok s => Ok (s, true)
         | Err e => if is_sigver_error e then (if wrs c then Err e else match loads c false r with Ok s => Ok (s, false) | Err e' => Err e' end) else Err e
         end) with
  | Err _ => false
  | Ok (s, rsigned) =>
      r_valid_instance r &&
      match stage2_ok (stage2 c s r) with
      | None => false
      | Some asigned => negb (waors c && negb rsigned && negb asigned)
      end
  end.
Proof.
  rewrite parse_response_eq. unfold stage1.
  match goal with |- is_ok (match ?x with _ => _ end) = _ => destruct x as [[s b]|]; [|reflexivity] end.
  destruct (r_valid_instance r); cbn [negb andb]; [|reflexivity].
  change (stage2 c s r) with (verify_retry c s r). destruct (verify_retry c s r) as [[[s'|] b2]|]; cbn [stage2_ok]; try reflexivity.
  destruct (waors c && negb b && negb b2); reflexivity.
Qed.

Theorem accept_iff c r : is_ok (parse_response c r) = otherwise_valid c r && documented c r.
Proof.
  rewrite parse_response_stage2. unfold otherwise_valid, documented, loads, response_sig_stage.
  destruct (r_sig r) as [[[]|e]|] eqn:Rs; cbn [sigok present].
  - (* response signed and verified *)
    destruct (loads_rest c r) as [s|e0]; [|destruct (is_sigver_error e0); [destruct (wrs c)|]; reflexivity].
    rewrite stage2_spec. destruct (r_valid_instance r); cbn [andb]; [|reflexivity].
    destruct (all_sigok r), (okS (verify c false s (strip r))), (all_present r), (wrs c), (was c), (waors c); reflexivity.
  - (* response signature present but its check fails: rejected whatever the options *)
    destruct (is_sigver_error e); [destruct (wrs c)|]; cbn; now rewrite andb_false_r.
  - (* response unsigned *)
    replace (is_sigver_error SignatureError) with true by reflexivity.
    destruct (wrs c) eqn:W.
    + cbn. destruct (loads_rest c r); [|reflexivity]. now rewrite !andb_false_r.
    + destruct (loads_rest c r) as [s|]; [|reflexivity].
      rewrite stage2_spec. destruct (r_valid_instance r); cbn [andb]; [|reflexivity].
      destruct (all_sigok r), (okS (verify c false s (strip r))), (all_present r), (was c), (waors c); reflexivity.
Qed.

(* the rule, read off an accepted response *)
Lemma accepted_documented c r o : parse_response c r = Ok o ->
  sigok (r_sig r) = true /\ (forall a, In a (processed r) -> sigok (a_sig a) = true) /\
  (wrs c = true -> present (r_sig r) = true) /\
  (was c = true -> forall a, In a (processed r) -> present (a_sig a) = true) /\
  (waors c = true -> present (r_sig r) = true \/ forall a, In a (processed r) -> present (a_sig a) = true).
Proof.
  intros H. assert (is_ok (parse_response c r) = true) as Hok by (now rewrite H).
  rewrite accept_iff in Hok. apply andb_true_iff in Hok as [_ Hd]. unfold documented, all_sigok, all_present in Hd.
  rewrite !andb_true_iff in Hd. destruct Hd as ((((Hr & Hall) & Hwrs) & Hwas) & Hwaors).
  split; [exact Hr|]. split; [now apply forallb_forall|]. split; [|split].
  - intros W. now rewrite W in Hwrs.
  - intros W. rewrite W in Hwas. now apply forallb_forall.
  - intros W. rewrite W in Hwaors. apply orb_true_iff in Hwaors as [Hp|Hp]; [now left|right; now apply forallb_forall].
Qed.
