(* Proofs/Validate_table.v — C13 obligations the kernel evaluates on the REGENERATED tables
   (all rows, no exception list; what they give for every row: Proofs/Validate_lemmas.v), the
   definitions of the examples Props/C13.v evaluates, and witnesses on literal data of the three
   defects the repairs C13-1..3 removed *)
From PV Require Import Lib.Base Model.Schema Model.Validate Gen.SchemaTables Proofs.Schema_lemmas Proofs.Validate_lemmas.
Open Scope N_scope.

Lemma unresolved_none : unresolved_attr_types validator_keys actual_schema = [].
Proof. vm_compute. reflexivity. Qed.
Lemma vtypes_none : unresolved_vtypes validator_keys actual_schema = [].
Proof. vm_compute. reflexivity. Qed.
Lemma enums_none : unenforced_enums actual_schema = [].
Proof. vm_compute. reflexivity. Qed.
Lemma av_plain : av_rows_plain actual_schema = true.
Proof. vm_compute. reflexivity. Qed.

Lemma string_key : mem_str T_STRING validator_keys = true.
Proof. vm_compute. reflexivity. Qed.

Lemma actual_plain_av : plain_av actual_schema.
Proof. exact (plain_av_of actual_schema av_plain). Qed.

(* ---- the non-vacuity examples (regenerated from real objects) *)
Definition ex_tab : list (str * str * bool) := [(s2l "pv:ipaddress", s2l "192.0.2.7", true)].
Definition ex_prim : str -> str -> bool := prim_of ex_tab.
Definition ex_goodb := goodb ex_prim validator_keys actual_schema x_xsi_nil m_subject m_attribute_statement m_statement
  m_authn_statement m_authz_decision_statement m_one_time_use m_proxy_restriction m_authn_context_decl
  m_authn_context_decl_ref m_address m_dns_name.
Definition ex_has_violation := has_violation ex_prim validator_keys actual_schema.
Definition ex_valid_instance := valid_instance ex_prim validator_keys actual_schema x_xsi_nil m_subject m_attribute_statement m_statement
  m_authn_statement m_authz_decision_statement m_one_time_use m_proxy_restriction m_authn_context_decl
  m_authn_context_decl_ref m_address m_dns_name.
Definition depth_ge2 (i : inst) : bool :=      (* the violation is not at the root *)
  match i with
  | I c a t K xa xe => match find_row actual_schema c with
                       | Some r => negb (node_violationb ex_prim validator_keys actual_schema r a t K)
                       | None => false end
  | INone => false
  end.

(* ---- the code before the repairs proposed_fix/C13-1..3: witnesses on a literal key list *)
Definition KEYS_BEFORE_FIX : list str :=
  map s2l ["ID"; "NCName"; "dateTime"; "anyURI"; "nonNegativeInteger"; "PositiveInteger"; "boolean"; "unsignedShort";
           "duration"; "base64Binary"; "integer"; "QName"; "anyType"; "string"]%string.
Definition hist_prim : str -> str -> bool := prim_of [].

(* C13-1: a VALID value of a declared type was refused with KeyError (here: the type name
   positiveInteger of e.g. md IndexedEndpointType / ecp / idpdisc attributes, value 3;
   likewise the type name None, NMTOKEN, unsignedByte, datetime, md:entityIDType) *)
Lemma valid_before_fix_refuted :
  exists typs v, typs <> [] /\
    forallb (fun typ => match valid_before_fix hist_prim KEYS_BEFORE_FIX typ v with Err e => str_eqb e KEY_ERROR | Ok _ => false end) typs = true /\
    forallb (fun typ => is_ok (valid hist_prim validator_keys typ v)) typs = true.
Proof.
  exists (map s2l ["positiveInteger"; "None"; "NMTOKEN"; "NMTOKENS"; "unsignedByte"; "datetime"; "md:entityIDType";
                   "mdui:listOfStrings"; "unsignedInt"; "unsignedLong"; "a:b:integer"]%string), (s2l "3").
  split; [discriminate|]. split; vm_compute; reflexivity.
Qed.

(* C13-2: an enumeration over a base other than the literal string: a value outside it was
   accepted (base xs:anyURI), a value inside it raised KeyError (base xs:NMTOKEN) *)
Lemma enum_before_fix_refuted :
  (exists vt en v, v_enum vt = Some en /\ mem_str v en = false /\
     validate_value_type_before_fix hist_prim KEYS_BEFORE_FIX v vt = ok /\
     validate_value_type hist_prim validator_keys v vt = Err NOT_VALID) /\
  (exists vt en v, v_enum vt = Some en /\ mem_str v en = true /\
     validate_value_type_before_fix hist_prim KEYS_BEFORE_FIX v vt = Err KEY_ERROR /\
     validate_value_type hist_prim validator_keys v vt = ok).
Proof.
  split.
  - exists (VT (s2l "xs:anyURI") (Some [s2l "urn:a"; s2l "urn:b"]) None None), [s2l "urn:a"; s2l "urn:b"], (s2l "urn:c").
    repeat split; vm_compute; reflexivity.
  - exists (VT (s2l "xs:NMTOKEN") (Some [s2l "true"; s2l "false"]) None None), [s2l "true"; s2l "false"], (s2l "true").
    repeat split; vm_compute; reflexivity.
Qed.

(* C13-3: the old pattern of valid_domain_name wants the literal text { 1 } in the name *)
Definition HOSTS : list str := map s2l ["idp.example.org"; "localhost"; "sp-1.example.org:8443"; "EXAMPLE.ORG"]%string.
Definition NOT_HOSTS : list str :=
  map s2l ["x y"; "-"; "a..b"; ".a"; "a."; "a-"; "a:"; "a:123456"; "a:1:2"; "a/b"; "a.{ 1 }b.com"; "host_name"]%string ++ [[]; s2l "a.b" ++ [10]].
Lemma domain_before_fix_refuted :
  forallb (fun h => negb (prim_domain_before_fix h)) HOSTS = true /\ prim_domain_before_fix (s2l "a.{ 1 }b.com") = true.
Proof. split; vm_compute; reflexivity. Qed.
