(* Proofs/Validate_lemmas.v — validate.py (Model/Validate.v): type names always resolve (valid) and
   what the table obligations give for every row of a schema that meets them; valid_instance and
   verify reject every violated constraint at any depth (rejects_both) and accept instances that
   satisfy all of them (accepts); the executable predicates has_violation / goodb are sound for
   `violated` / `good`; on tables meeting the obligations a refused typed value is a violation. *)
From PV Require Import Lib.Base Model.Schema Model.Validate Proofs.Schema_lemmas.
Open Scope N_scope.

Lemma first_err_ok l : (forall x, In x l -> x = ok) -> first_err l = ok.
Proof.
  induction l as [|x l IH]; intros H; [reflexivity|].
  cbn [first_err]. rewrite (H x (or_introl eq_refl)). unfold ok at 1. apply IH. intros y Hy; apply H; right; exact Hy.
Qed.

Lemma first_err_err l e : In (Err e) l -> exists e', first_err l = Err e'.
Proof.
  induction l as [|x l IH]; intros H; [destruct H|].
  cbn [first_err]. destruct x as [u|e0]; [|exists e0; reflexivity].
  destruct H as [H|H]; [discriminate|]. apply IH; exact H.
Qed.

(* validator_of never fails on a type NAME: whatever is declared, a key of VALIDATOR is
   selected as long as the key string exists *)
Lemma resolve_total keys t : mem_str T_STRING keys = true -> exists k, resolve keys t = Some k /\ In k keys.
Proof.
  intros Hs. unfold resolve. rewrite Hs.
  assert (Hin : In T_STRING keys) by (apply mem_str_In; exact Hs).
  destruct t as [|c t']; [exists T_STRING; split; [reflexivity|exact Hin]|].
  destruct (mem_str (c :: t') keys) eqn:E1; [exists (c :: t'); split; [reflexivity|apply mem_str_In; exact E1]|].
  destruct (mem_str (local_name (c :: t')) keys) eqn:E2; [eexists; split; [reflexivity|apply mem_str_In; exact E2]|].
  destruct (find_ci keys (lower_ascii (local_name (c :: t')))) as [k|] eqn:E3.
  - exists k. split; [reflexivity|]. unfold find_ci in E3. apply find_some in E3 as [H _]. exact H.
  - exists T_STRING. split; [reflexivity|exact Hin].
Qed.

Lemma valid_resolved prim keys t k v :
  resolve keys t = Some k -> valid prim keys t v = if prim k v then ok else Err NOT_VALID.
Proof. intros H. unfold valid. rewrite H. reflexivity. Qed.

Lemma valid_no_keyerror prim keys t v :
  mem_str T_STRING keys = true -> valid prim keys t v = ok \/ valid prim keys t v = Err NOT_VALID.
Proof.
  intros Hs. destruct (resolve_total keys t Hs) as [k [Hk _]]. rewrite (valid_resolved prim keys t k v Hk).
  destruct (prim k v); [left|right]; reflexivity.
Qed.

Lemma type_resolves_spec keys t :
  type_resolves keys t = true ->
  exists k, resolve keys t = Some k /\
    (mem_str (lower_ascii (local_name t)) XSD_BUILTIN = true -> lower_ascii k = lower_ascii (local_name t)) /\
    (mem_str (lower_ascii (local_name t)) XSD_BUILTIN = false -> k = T_STRING).
Proof.
  unfold type_resolves. destruct (resolve keys t) as [k|]; [|discriminate].
  intros H. exists k. split; [reflexivity|].
  destruct (mem_str (lower_ascii (local_name t)) XSD_BUILTIN); split; intros E; try discriminate; apply str_eqb_eq; exact H.
Qed.

(* every declared attribute type: a type name resolves - to the validator of that very XSD
   built-in type when it names one - and a value-type class exists *)
Lemma types_resolve keys S r a :
  unresolved_attr_types keys S = [] -> In r S -> In a (k_attrs r) ->
  match a_type a with
  | TN t => type_resolves keys t = true
  | TNone => type_resolves keys [] = true
  | TC c => exists rt, find_row S c = Some rt
  end.
Proof.
  intros H0 Hr Ha.
  pose proof (flat_map_nil_inv _ _ a (flat_map_nil_inv _ _ r H0 Hr) Ha) as H. cbv beta in H.
  destruct (a_type a) as [t|c|].
  - destruct (type_resolves keys t); [reflexivity|discriminate].
  - destruct (find_row S c) as [rt|]; [exists rt; reflexivity|discriminate].
  - destruct (type_resolves keys []); [reflexivity|discriminate].
Qed.

Lemma value_types_resolve keys S r vt :
  unresolved_vtypes keys S = [] -> In r S ->
  k_vtype r = Some vt -> v_maxlen vt = None -> v_enum vt = None ->
  str_eqb (v_base vt) T_STRING = true \/
  (str_eqb (v_base vt) T_LIST = true /\ exists m, v_member vt = Some m /\ type_resolves keys m = true) \/
  type_resolves keys (v_base vt) = true.
Proof.
  intros H0 Hr Hv Hm He.
  pose proof (flat_map_nil_inv _ _ r H0 Hr) as H. cbv beta in H. rewrite Hv, Hm, He in H.
  destruct (str_eqb (v_base vt) T_STRING); [left; reflexivity|]. right.
  destruct (str_eqb (v_base vt) T_LIST).
  - left. split; [reflexivity|]. destruct (v_member vt) as [m|]; [|discriminate].
    exists m. split; [reflexivity|]. destruct (type_resolves keys m); [reflexivity|discriminate].
  - right. destruct (type_resolves keys (v_base vt)); [reflexivity|discriminate].
Qed.

Lemma enum_maxlen_none S r vt en :
  unenforced_enums S = [] -> In r S -> k_vtype r = Some vt -> v_enum vt = Some en -> v_maxlen vt = None.
Proof.
  intros H0 Hr Hv He.
  pose proof (flat_map_nil_inv _ _ r H0 Hr) as H. cbv beta in H. rewrite Hv, He in H.
  destruct (v_maxlen vt); [discriminate|reflexivity].
Qed.

(* a declared enumeration that is never skipped is what validate_value_type tests: membership decides *)
Lemma enumerations_enforced S r vt en :
  unenforced_enums S = [] -> In r S -> k_vtype r = Some vt -> v_enum vt = Some en ->
  forall prim keys v, validate_value_type prim keys v vt = if mem_str v en then ok else Err NOT_VALID.
Proof.
  intros H0 Hr Hv He prim keys v. unfold validate_value_type.
  rewrite (enum_maxlen_none S r vt en H0 Hr Hv He), He. reflexivity.
Qed.

Section V.
  Variable prim : str -> str -> bool.
  Variable keys : list str.
  Variable S : schema.
  Variables (NIL : N).
  Variables (M_SUBJECT M_ATTRST M_STATEMENT M_AUTHNST M_AUTHZST M_ONETIME M_PROXY M_DECL M_DECLREF M_ADDRESS M_DNS : N).

  Notation validate_value_type := (validate_value_type prim keys).
  Notation attr_check := (attr_check prim keys S).
  Notation text_check := (text_check prim keys).
  Notation vi_node := (vi_node prim keys S).
  Notation override_pre := (override_pre prim NIL M_SUBJECT M_ATTRST M_STATEMENT M_AUTHNST M_AUTHZST M_ONETIME M_PROXY M_DECL M_DECLREF M_ADDRESS M_DNS).
  Notation verify := (verify prim keys S NIL M_SUBJECT M_ATTRST M_STATEMENT M_AUTHNST M_AUTHZST M_ONETIME M_PROXY M_DECL M_DECLREF M_ADDRESS M_DNS).
  Notation valid_instance := (valid_instance prim keys S NIL M_SUBJECT M_ATTRST M_STATEMENT M_AUTHNST M_AUTHZST M_ONETIME M_PROXY M_DECL M_DECLREF M_ADDRESS M_DNS).

  (* a value of a declared simple type that the type's test rejects: outside a string
     enumeration, or refused by the primitive validator its (resolvable) type name selects *)
  Definition value_bad (v : str) (vt : vtype) : Prop :=
    v_maxlen vt = None /\
    ((exists en, v_enum vt = Some en /\ mem_str v en = false) \/
     (v_enum vt = None /\ str_eqb (v_base vt) T_STRING = true /\ prim T_STRING v = false) \/
     (v_enum vt = None /\ str_eqb (v_base vt) T_STRING = false /\ str_eqb (v_base vt) T_LIST = true /\
      exists mt k part, v_member vt = Some mt /\ resolve keys mt = Some k /\
                        In part (split_on 44 v) /\ prim k (strip part) = false) \/
     (v_enum vt = None /\ str_eqb (v_base vt) T_STRING = false /\ str_eqb (v_base vt) T_LIST = false /\
      exists k, resolve keys (v_base vt) = Some k /\ prim k v = false)).

  (* the declared type of an attribute: a type name (None / empty = no type declared,
     validated as string) or a class carrying a c_value_type *)
  Definition typed_bad (a : attr_row) (v : str) : Prop :=
    match a_type a with
    | TN typ => exists k, resolve keys typ = Some k /\ prim k v = false
    | TNone => exists k, resolve keys [] = Some k /\ prim k v = false
    | TC cls => exists rt, find_row S cls = Some rt /\
                  value_bad v (match k_vtype rt with Some vt => vt | None => DEFAULT_SPEC end)
    end.

  Definition attr_bad (attrs : list (N * str)) (a : attr_row) : Prop :=
    (a_req a = true /\ truthy (alookup (a_member a) attrs) = false) \/
    (exists c0 v', alookup (a_member a) attrs = Some (c0 :: v') /\ typed_bad a (c0 :: v')).

  Definition text_bad (r : class_row) (text : option str) : Prop :=
    exists vt c0 t', k_vtype r = Some vt /\ text = Some (c0 :: t') /\ value_bad (strip (c0 :: t')) vt.

  Definition card_bad (r : class_row) (n : nat) (ch : child_row) : Prop :=
    match alookup (c_member ch) (k_card r) with
    | Some (mn, mx) =>
        (n = 0%nat /\ nonzero mn = true) \/
        (n <> 0%nat /\ ((exists m, mn = Some m /\ (Z.of_nat n < m)%Z) \/ (exists m, mx = Some m /\ (m < Z.of_nat n)%Z)))
    | None => False
    end.

  Definition node_violation (r : class_row) (attrs : list (N * str)) (text : option str) (K : list (N * inst)) : Prop :=
    (exists a, In a (k_attrs r) /\ attr_bad attrs a) \/ text_bad r text \/
    (exists ch, In ch (k_children r) /\ card_bad r (List.length (kids_of (c_member ch) K)) ch).

  Lemma value_bad_err v vt : value_bad v vt -> exists e, validate_value_type v vt = Err e.
  Proof.
    intros [Hm H]. unfold Validate.validate_value_type. rewrite Hm.
    destruct H as [[en [He Hn]]|[[He [Hb Hp]]|[[He [Hb [Hl (mt & k & part & Hmt & Hr & Hin & Hp)]]]|[He [Hb [Hl [k [Hr Hp]]]]]]]].
    - rewrite He, Hn. eexists; reflexivity.
    - rewrite He, Hb, Hp. eexists; reflexivity.
    - rewrite He, Hb, Hl, Hmt. apply (first_err_err _ NOT_VALID).
      apply in_map_iff. exists part. split; [|exact Hin]. rewrite (valid_resolved _ _ _ _ _ Hr), Hp. reflexivity.
    - rewrite He, Hb, Hl, (valid_resolved _ _ _ _ _ Hr), Hp. eexists; reflexivity.
  Qed.

  Lemma attr_wrap_err e : exists e', attr_wrap (Err e) = Err e'.
  Proof. unfold attr_wrap. destruct (_ || _); eexists; reflexivity. Qed.

  Lemma attr_bad_err attrs a : attr_bad attrs a -> exists e, attr_check attrs a = Err e.
  Proof.
    intros [[Hr Ht]|[c0 [v' [Hv Hb]]]]; unfold Validate.attr_check.
    - rewrite Hr, Ht. cbn. eexists; reflexivity.
    - rewrite Hv. cbn [truthy negb]. rewrite andb_false_r.
      unfold typed_bad in Hb. destruct (a_type a) as [typ|cls|].
      + destruct Hb as [k [Hr Hp]]. rewrite (valid_resolved _ _ _ _ _ Hr), Hp. apply attr_wrap_err.
      + destruct Hb as [rt [Hrt Hvb]]. rewrite Hrt. destruct (value_bad_err _ _ Hvb) as [e He]. rewrite He. apply attr_wrap_err.
      + destruct Hb as [k [Hr Hp]]. rewrite (valid_resolved _ _ _ _ _ Hr), Hp. apply attr_wrap_err.
  Qed.

  Lemma text_bad_err r text : text_bad r text -> exists e, text_check r text = Err e.
  Proof.
    intros (vt & c0 & t' & Hv & Ht & Hb). unfold Validate.text_check. rewrite Hv, Ht. apply value_bad_err; exact Hb.
  Qed.

  Lemma card_bad_err r vkids ch :
    card_bad r (List.length (kids_of (c_member ch) vkids)) ch -> exists e, child_check r vkids ch = Err e.
  Proof.
    unfold card_bad, child_check. destruct (alookup (c_member ch) (k_card r)) as [[mn mx]|]; [|intros []].
    destruct (kids_of (c_member ch) vkids) as [|x l] eqn:El.
    - intros [[_ Hn]|[Hn _]]; [rewrite Hn; eexists; reflexivity|cbn in Hn; congruence].
    - intros [[Hn _]|[_ H]]; [cbn in Hn; discriminate|].
      cbn [first_err]. destruct H as [[m [Hm Hlt]]|[m [Hm Hlt]]]; subst.
      + apply Z.ltb_lt in Hlt. rewrite Hlt. eexists; reflexivity.
      + apply Z.ltb_lt in Hlt. rewrite Hlt.
        destruct mn as [m0|]; [destruct (Z.of_nat (List.length (x :: l)) <? m0)%Z|]; eexists; reflexivity.
  Qed.

  Lemma vi_node_in r attrs text vkids x e :
    In x (text_check r text :: map (attr_check attrs) (k_attrs r) ++ map (child_check r vkids) (k_children r)) ->
    x = Err e -> exists e', vi_node r attrs text vkids = Err e'.
  Proof. intros Hin ->. unfold Validate.vi_node. eapply first_err_err; exact Hin. Qed.

  Lemma vi_node_violation r attrs text K vkids :
    node_violation r attrs text K ->
    (forall m, List.length (kids_of m vkids) = List.length (kids_of m K)) ->
    exists e, vi_node r attrs text vkids = Err e.
  Proof.
    intros [[a [Ha Hb]]|[Ht|[ch [Hch Hc]]]] Hlen.
    - destruct (attr_bad_err attrs a Hb) as [e He].
      eapply vi_node_in; [right; apply in_or_app; left; apply in_map; exact Ha|exact He].
    - destruct (text_bad_err r text Ht) as [e He]. eapply vi_node_in; [left; reflexivity|exact He].
    - rewrite <- Hlen in Hc. destruct (card_bad_err r vkids ch Hc) as [e He].
      eapply vi_node_in; [right; apply in_or_app; right; apply in_map; exact Hch|exact He].
  Qed.

  Lemma pre_stop r attrs text vkids xattrs :
    override_pre r attrs text vkids xattrs = PreStop -> str_eqb (k_verify r) V_AVB = true /\ truthy text = false.
  Proof.
    unfold Validate.override_pre.
    destruct (str_eqb (k_verify r) []); [discriminate|].
    destruct (str_eqb (k_verify r) V_AVB).
    - destruct (truthy text); [discriminate|]. intros _. split; reflexivity.
    - destruct (str_eqb (k_verify r) V_LOCALITY).
      { destruct (truthy (alookup M_ADDRESS attrs)).
        - destruct (alookup M_ADDRESS attrs) as [a|]; [destruct (prim P_IPADDR a)|]; discriminate.
        - destruct (truthy (alookup M_DNS attrs)); [|discriminate].
          destruct (alookup M_DNS attrs) as [d|]; [destruct (prim P_DOMAIN d)|]; discriminate. }
      destruct (str_eqb (k_verify r) V_AUTHNCTX).
      { destruct (has_kid vkids M_DECL && has_kid vkids M_DECLREF); discriminate. }
      destruct (str_eqb (k_verify r) V_CONDITIONS).
      { destruct ((1 <? List.length (kids_of M_ONETIME vkids))%nat || (1 <? List.length (kids_of M_PROXY vkids))%nat); discriminate. }
      destruct (str_eqb (k_verify r) V_ASSERTION); [|discriminate].
      match goal with |- (if ?c then _ else _) = _ -> _ => destruct c; [discriminate|] end.
      match goal with |- (if ?c then _ else _) = _ -> _ => destruct c; discriminate end.
  Qed.

  Inductive reach : inst -> inst -> Prop :=
  | reach_refl i : reach i i
  | reach_kid c a t K xa xe r m k j :
      find_row S c = Some r -> In m (child_members r) -> In (m, k) K -> reach k j ->
      reach (I c a t K xa xe) j.

  Definition violated (j : inst) : Prop :=
    match j with
    | INone => False
    | I c a t K xa xe => exists r, find_row S c = Some r /\ node_violation r a t K
    end.

  (* AttributeValueBase.verify returns early: such classes declare nothing to check *)
  Definition plain_av : Prop :=
    forall c r, find_row S c = Some r -> str_eqb (k_verify r) V_AVB = true -> k_attrs r = [] /\ k_children r = [].

  (* the children of a node as vi_node sees them *)
  Notation vk K := (map (fun p => let '(m0, k0) := p in (m0, verify k0)) K).

  Lemma vk_len (K : list (N * inst)) m : List.length (kids_of m (vk K)) = List.length (kids_of m K).
  Proof. rewrite kids_of_map. apply map_length. Qed.

  Lemma vi_node_kid_err r attrs text K m k e :
    In m (child_members r) -> In (m, k) K -> verify k = Err e -> exists e', vi_node r attrs text (vk K) = Err e'.
  Proof.
    intros Hm Hin He. apply in_map_iff in Hm as [ch [<- Hch]].
    assert (Hk : In (Err e) (kids_of (c_member ch) (vk K))).
    { rewrite kids_of_map, <- He. apply in_map, kids_of_In, Hin. }
    assert (Hc : exists e', child_check r (vk K) ch = Err e').
    { unfold child_check. destruct (kids_of (c_member ch) (vk K)) as [|x l]; [destruct Hk|].
      apply (first_err_err _ (if str_eqb e NOT_VALID || str_eqb e OUTSIDE_CARD then NOT_VALID else e)).
      right. apply in_map_iff. exists (Err e). split; [|exact Hk].
      unfold kid_wrap. destruct (str_eqb e NOT_VALID || str_eqb e OUTSIDE_CARD); reflexivity. }
    destruct Hc as [e' Hc].
    eapply vi_node_in; [right; apply in_or_app; right; apply in_map; exact Hch|exact Hc].
  Qed.

  (* under plain_av verify is at least as strict as valid_instance: the only way an override
     skips vi_node is AttributeValueBase's early return, on a class that declares nothing to
     check, with no text *)
  Lemma valid_instance_verify i e : plain_av -> valid_instance i = Err e -> exists e', verify i = Err e'.
  Proof.
    intros Hpl. destruct i as [|c a t K xa xe]; [intros _; eexists; reflexivity|].
    cbn [Validate.verify Validate.valid_instance].
    destruct (find_row S c) as [r|] eqn:Hrow; [|intros _; eexists; reflexivity].
    intros Hv. unfold Validate.verify_node.
    destruct (override_pre r a t (vk K) xa) as [| |e0] eqn:Ep; [exists e; exact Hv| |exists e0; reflexivity].
    exfalso. apply pre_stop in Ep as [Hav Ht]. destruct (Hpl c r Hrow Hav) as [Ha Hc].
    unfold Validate.vi_node, Validate.text_check in Hv. rewrite Ha, Hc in Hv.
    destruct t as [[|c0 t']|]; [| discriminate Ht|]; destruct (k_vtype r); discriminate Hv.
  Qed.

  Theorem rejects_valid_instance i j : plain_av -> reach i j -> violated j -> exists e, valid_instance i = Err e.
  Proof.
    intros Hpl Hr Hv. induction Hr as [i|c a t K xa xe r m k j Hrow Hm Hin Hr IH].
    - destruct i as [|c a t K xa xe]; [destruct Hv|]. destruct Hv as [r [Hrow Hv]].
      cbn [Validate.valid_instance]. rewrite Hrow. exact (vi_node_violation r a t K _ Hv (vk_len K)).
    - destruct (IH Hv) as [e0 He0]. destruct (valid_instance_verify k e0 Hpl He0) as [e He].
      cbn [Validate.valid_instance]. rewrite Hrow. exact (vi_node_kid_err r a t K m k e Hm Hin He).
  Qed.

  Theorem rejects_both i j : plain_av -> reach i j -> violated j ->
    (exists e, valid_instance i = Err e) /\ (exists e, verify i = Err e).
  Proof.
    intros Hpl Hr Hv. destruct (rejects_valid_instance i j Hpl Hr Hv) as [e He].
    split; [exists e; exact He|exact (valid_instance_verify i e Hpl He)].
  Qed.

  Definition value_good (v : str) (vt : vtype) : Prop :=
    (exists n, v_maxlen vt = Some n) \/
    (v_maxlen vt = None /\
     ((exists en, v_enum vt = Some en /\ mem_str v en = true) \/
      (v_enum vt = None /\ str_eqb (v_base vt) T_STRING = true /\ prim T_STRING v = true) \/
      (v_enum vt = None /\ str_eqb (v_base vt) T_STRING = false /\ str_eqb (v_base vt) T_LIST = true /\
       exists mt, v_member vt = Some mt /\
         forall part, In part (split_on 44 v) -> exists k, resolve keys mt = Some k /\ prim k (strip part) = true) \/
      (v_enum vt = None /\ str_eqb (v_base vt) T_STRING = false /\ str_eqb (v_base vt) T_LIST = false /\
       exists k, resolve keys (v_base vt) = Some k /\ prim k v = true))).

  Definition typed_good (a : attr_row) (v : str) : Prop :=
    match a_type a with
    | TN typ => exists k, resolve keys typ = Some k /\ prim k v = true
    | TNone => exists k, resolve keys [] = Some k /\ prim k v = true
    | TC cls => exists rt, find_row S cls = Some rt /\
                  value_good v (match k_vtype rt with Some vt => vt | None => DEFAULT_SPEC end)
    end.

  Definition attr_good (attrs : list (N * str)) (a : attr_row) : Prop :=
    (a_req a = true -> truthy (alookup (a_member a) attrs) = true) /\
    (forall c0 v', alookup (a_member a) attrs = Some (c0 :: v') -> typed_good a (c0 :: v')).

  Definition text_good (r : class_row) (text : option str) : Prop :=
    forall vt c0 t', k_vtype r = Some vt -> text = Some (c0 :: t') -> value_good (strip (c0 :: t')) vt.

  Definition card_good (r : class_row) (n : nat) (ch : child_row) : Prop :=
    match alookup (c_member ch) (k_card r) with
    | Some (mn, mx) =>
        (n = 0%nat -> nonzero mn = false) /\
        (n <> 0%nat -> (forall m, mn = Some m -> (m <= Z.of_nat n)%Z) /\ (forall m, mx = Some m -> (Z.of_nat n <= m)%Z))
    | None => True
    end.

  Inductive good : inst -> Prop :=
  | good_I c a t K xa xe r :
      find_row S c = Some r ->
      (forall x, In x (k_attrs r) -> attr_good a x) ->
      text_good r t ->
      (forall ch, In ch (k_children r) -> card_good r (List.length (kids_of (c_member ch) K)) ch) ->
      (forall e, override_pre r a t (oks K) xa <> PreErr e) ->       (* the override's own condition *)
      (forall m k, In (m, k) K -> good k) ->
      good (I c a t K xa xe).

  Lemma value_good_ok v vt : value_good v vt -> validate_value_type v vt = ok.
  Proof.
    unfold Validate.validate_value_type. intros [[n Hn]|[Hm H]]; [rewrite Hn; reflexivity|]. rewrite Hm.
    destruct H as [[en [He Hi]]|[[He [Hb Hp]]|[[He [Hb [Hl [mt [Hmt Hall]]]]]|[He [Hb [Hl [k [Hr Hp]]]]]]]].
    - rewrite He, Hi. reflexivity.
    - rewrite He, Hb, Hp. reflexivity.
    - rewrite He, Hb, Hl, Hmt. apply first_err_ok. intros x Hx. apply in_map_iff in Hx as [part [Hx Hp]]. subst x.
      destruct (Hall part Hp) as [k [Hr Hk]]. rewrite (valid_resolved _ _ _ _ _ Hr), Hk. reflexivity.
    - rewrite He, Hb, Hl, (valid_resolved _ _ _ _ _ Hr), Hp. reflexivity.
  Qed.

  Lemma attr_good_ok attrs a : attr_good attrs a -> attr_check attrs a = ok.
  Proof.
    intros [Hreq Hty]. unfold Validate.attr_check.
    destruct (alookup (a_member a) attrs) as [[|c0 v']|] eqn:Ev.
    - destruct (a_req a); [specialize (Hreq eq_refl); discriminate|reflexivity].
    - cbn [truthy negb]. rewrite andb_false_r. specialize (Hty c0 v' eq_refl). unfold typed_good in Hty.
      destruct (a_type a) as [typ|cls|].
      + destruct Hty as [k [Hr Hp]]. rewrite (valid_resolved _ _ _ _ _ Hr), Hp. reflexivity.
      + destruct Hty as [rt [Hrt Hg]]. rewrite Hrt, (value_good_ok _ _ Hg). reflexivity.
      + destruct Hty as [k [Hr Hp]]. rewrite (valid_resolved _ _ _ _ _ Hr), Hp. reflexivity.
    - destruct (a_req a); [specialize (Hreq eq_refl); discriminate|reflexivity].
  Qed.

  Lemma child_good_ok r vkids ch :
    card_good r (List.length (kids_of (c_member ch) vkids)) ch ->
    (forall x, In x (kids_of (c_member ch) vkids) -> x = ok) ->
    child_check r vkids ch = ok.
  Proof.
    unfold card_good, child_check. intros Hc Hall.
    destruct (kids_of (c_member ch) vkids) as [|x l] eqn:El.
    - destruct (alookup (c_member ch) (k_card r)) as [[mn mx]|]; [|reflexivity].
      destruct Hc as [H0 _]. rewrite (H0 eq_refl). reflexivity.
    - apply first_err_ok. intros y [Hy|Hy].
      + subst y. destruct (alookup (c_member ch) (k_card r)) as [[mn mx]|]; [|reflexivity].
        destruct Hc as [_ H1]. destruct H1 as [Hmn Hmx]; [cbn; discriminate|].
        assert (E1 : match mn with Some m => (Z.of_nat (List.length (x :: l)) <? m)%Z | None => false end = false).
        { destruct mn as [m|]; [|reflexivity]. apply Z.ltb_ge. apply Hmn; reflexivity. }
        assert (E2 : match mx with Some m => (m <? Z.of_nat (List.length (x :: l)))%Z | None => false end = false).
        { destruct mx as [m|]; [|reflexivity]. apply Z.ltb_ge. apply Hmx; reflexivity. }
        rewrite E1, E2. reflexivity.
      + apply in_map_iff in Hy as [z [Hz Hin]]. subst y. rewrite (Hall z Hin). reflexivity.
  Qed.

  Theorem accepts i : good i -> verify i = ok /\ valid_instance i = ok.
  Proof.
    induction 1 as [c a t K xa xe r Hrow Hattr Htext Hcard Hpre Hkids IH].
    assert (Hvk : map (fun p => let '(m0, k0) := p in (m0, verify k0)) K = oks K).
    { unfold oks. apply map_ext_in. intros [m k] Hin. destruct (IH m k Hin) as [Hv _]. rewrite Hv. reflexivity. }
    assert (Hvi : vi_node r a t (oks K) = ok).
    { unfold Validate.vi_node. apply first_err_ok. intros x [Hx|Hx].
      - subst x. unfold Validate.text_check. destruct (k_vtype r) as [vt|] eqn:Ev; [|reflexivity].
        destruct t as [[|c0 t']|]; try reflexivity. apply value_good_ok. apply (Htext vt c0 t' Ev eq_refl).
      - apply in_app_or in Hx as [Hx|Hx]; apply in_map_iff in Hx as [y [Hy Hin]]; subst x.
        + apply attr_good_ok. apply Hattr; exact Hin.
        + apply child_good_ok.
          * unfold oks. rewrite kids_of_map, map_length. apply Hcard; exact Hin.
          * unfold oks. rewrite kids_of_map. intros z Hz. apply in_map_iff in Hz as [w [Hw _]]. symmetry; exact Hw. }
    cbn [Validate.verify Validate.valid_instance]. rewrite Hrow, Hvk. split; [|exact Hvi].
    unfold Validate.verify_node. destruct (override_pre r a t (oks K) xa) as [| |e] eqn:Ep.
    - exact Hvi.
    - reflexivity.
    - exfalso. apply (Hpre e). reflexivity.
  Qed.

  (* the executable predicates are sound for the Prop ones *)
  Notation value_badb := (value_badb prim keys).
  Notation value_goodb := (value_goodb prim keys).
  Notation typed_badb := (typed_badb prim keys S).
  Notation typed_goodb := (typed_goodb prim keys S).
  Notation attr_badb := (attr_badb prim keys S).
  Notation attr_goodb := (attr_goodb prim keys S).
  Notation text_badb := (text_badb prim keys).
  Notation text_goodb := (text_goodb prim keys).
  Notation node_violationb := (node_violationb prim keys S).
  Notation has_violation := (has_violation prim keys S).
  Notation goodb := (goodb prim keys S NIL M_SUBJECT M_ATTRST M_STATEMENT M_AUTHNST M_AUTHZST M_ONETIME M_PROXY M_DECL M_DECLREF M_ADDRESS M_DNS).

  Lemma value_badb_sound v vt : value_badb v vt = true -> value_bad v vt.
  Proof.
    unfold Validate.value_badb, value_bad. destruct (v_maxlen vt) as [n|]; [discriminate|]. intros H. split; [reflexivity|].
    destruct (v_enum vt) as [en|].
    { left. exists en. split; [reflexivity|]. apply negb_true_iff; exact H. }
    right. destruct (str_eqb (v_base vt) T_STRING) eqn:Eb.
    { left. repeat split. apply negb_true_iff; exact H. }
    right. destruct (str_eqb (v_base vt) T_LIST) eqn:El.
    - left. repeat split. destruct (v_member vt) as [mt|]; [|discriminate].
      destruct (resolve keys mt) as [k|] eqn:Er; [|discriminate].
      apply existsb_exists in H as [part [Hin Hp]]. exists mt, k, part. repeat split; try assumption.
      apply negb_true_iff; exact Hp.
    - right. repeat split. destruct (resolve keys (v_base vt)) as [k|]; [|discriminate].
      exists k. split; [reflexivity|apply negb_true_iff; exact H].
  Qed.

  Lemma value_goodb_sound v vt : value_goodb v vt = true -> value_good v vt.
  Proof.
    unfold Validate.value_goodb, value_good. destruct (v_maxlen vt) as [n|]; [intros _; left; exists n; reflexivity|].
    intros H. right. split; [reflexivity|].
    destruct (v_enum vt) as [en|].
    { left. exists en. split; [reflexivity|exact H]. }
    right. destruct (str_eqb (v_base vt) T_STRING) eqn:Eb.
    { left. repeat split. exact H. }
    right. destruct (str_eqb (v_base vt) T_LIST) eqn:El.
    - left. repeat split. destruct (v_member vt) as [mt|]; [|discriminate].
      destruct (resolve keys mt) as [k|] eqn:Er; [|discriminate].
      exists mt. split; [reflexivity|]. intros part Hin. exists k. split; [exact Er|].
      rewrite forallb_forall in H. apply H; exact Hin.
    - right. repeat split. destruct (resolve keys (v_base vt)) as [k|]; [|discriminate].
      exists k. split; [reflexivity|exact H].
  Qed.

  Lemma typed_badb_sound a v : typed_badb a v = true -> typed_bad a v.
  Proof.
    unfold Validate.typed_badb, Validate.attr_vtype, Validate.attr_tname, typed_bad.
    destruct (a_type a) as [typ|cls|].
    - destruct (resolve keys typ) as [k|]; [|discriminate]. intros H. exists k. split; [reflexivity|apply negb_true_iff; exact H].
    - destruct (find_row S cls) as [rt|]; [|discriminate]. intros H. exists rt. split; [reflexivity|]. apply value_badb_sound; exact H.
    - destruct (resolve keys []) as [k|]; [|discriminate]. intros H. exists k. split; [reflexivity|apply negb_true_iff; exact H].
  Qed.

  Lemma typed_goodb_sound a v : typed_goodb a v = true -> typed_good a v.
  Proof.
    unfold Validate.typed_goodb, Validate.attr_vtype, Validate.attr_tname, typed_good.
    destruct (a_type a) as [typ|cls|].
    - destruct (resolve keys typ) as [k|]; [|discriminate]. intros H. exists k. split; [reflexivity|exact H].
    - destruct (find_row S cls) as [rt|]; [|discriminate]. intros H. exists rt. split; [reflexivity|]. apply value_goodb_sound; exact H.
    - destruct (resolve keys []) as [k|]; [|discriminate]. intros H. exists k. split; [reflexivity|exact H].
  Qed.

  Lemma attr_badb_sound attrs a : attr_badb attrs a = true -> attr_bad attrs a.
  Proof.
    unfold Validate.attr_badb, attr_bad. intros H. apply orb_true_iff in H as [H|H].
    - left. apply andb_true_iff in H as [H1 H2]. split; [exact H1|apply negb_true_iff; exact H2].
    - right. destruct (alookup (a_member a) attrs) as [[|c0 v']|]; try discriminate.
      exists c0, v'. split; [reflexivity|apply typed_badb_sound; exact H].
  Qed.

  Lemma attr_goodb_sound attrs a : attr_goodb attrs a = true -> attr_good attrs a.
  Proof.
    unfold Validate.attr_goodb, attr_good. intros H. apply andb_true_iff in H as [H1 H2]. split.
    - intros Hr. rewrite Hr in H1. exact H1.
    - intros c0 v' Hv. rewrite Hv in H2. apply typed_goodb_sound; exact H2.
  Qed.

  Lemma text_badb_sound r t : text_badb r t = true -> text_bad r t.
  Proof.
    unfold Validate.text_badb, text_bad. destruct (k_vtype r) as [vt|]; [|discriminate].
    destruct t as [[|c0 t']|]; try discriminate. intros H. exists vt, c0, t'. split; [reflexivity|]. split; [reflexivity|]. apply value_badb_sound; exact H.
  Qed.

  Lemma text_goodb_sound r t : text_goodb r t = true -> text_good r t.
  Proof.
    unfold Validate.text_goodb, text_good. intros H vt c0 t' Hv Ht. rewrite Hv, Ht in H. apply value_goodb_sound; exact H.
  Qed.

  Lemma card_badb_sound r n ch : card_badb r n ch = true -> card_bad r n ch.
  Proof.
    unfold Validate.card_badb, card_bad. destruct (alookup (c_member ch) (k_card r)) as [[mn mx]|]; [|discriminate].
    destruct n as [|n'].
    - intros H. left. split; [reflexivity|exact H].
    - intros H. right. split; [discriminate|]. apply orb_true_iff in H as [H|H].
      + left. destruct mn as [m|]; [|discriminate]. exists m. split; [reflexivity|apply Z.ltb_lt; exact H].
      + right. destruct mx as [m|]; [|discriminate]. exists m. split; [reflexivity|apply Z.ltb_lt; exact H].
  Qed.

  Lemma card_badb_false_good r n ch : card_badb r n ch = false -> card_good r n ch.
  Proof.
    unfold Validate.card_badb, card_good. destruct (alookup (c_member ch) (k_card r)) as [[mn mx]|]; [|intros _; exact Logic.I].
    destruct n as [|n'].
    - intros H. split; [intros _; exact H|intros Hn; exfalso; apply Hn; reflexivity].
    - intros H. apply orb_false_iff in H as [H1 H2]. split; [discriminate|]. intros _. split.
      + intros m Hm. subst mn. apply Z.ltb_ge; exact H1.
      + intros m Hm. subst mx. apply Z.ltb_ge; exact H2.
  Qed.

  Lemma node_violationb_sound r a t K : node_violationb r a t K = true -> node_violation r a t K.
  Proof.
    unfold Validate.node_violationb, node_violation. intros H.
    apply orb_true_iff in H as [H|H]; [apply orb_true_iff in H as [H|H]|].
    - left. apply existsb_exists in H as [x [Hin Hx]]. exists x. split; [exact Hin|apply attr_badb_sound; exact Hx].
    - right. left. apply text_badb_sound; exact H.
    - right. right. apply existsb_exists in H as [ch [Hin Hc]]. exists ch. split; [exact Hin|apply card_badb_sound; exact Hc].
  Qed.

  Theorem has_violation_sound i : has_violation i = true -> exists j, reach i j /\ violated j.
  Proof.
    induction i as [|c a t K xa xe IH] using inst_ind'; [discriminate|].
    cbn [Validate.has_violation]. destruct (find_row S c) as [r|] eqn:Hrow; [|discriminate].
    intros H. apply orb_true_iff in H as [H|H].
    - exists (I c a t K xa xe). split; [apply reach_refl|]. exists r. split; [exact Hrow|apply node_violationb_sound; exact H].
    - apply existsb_exists in H as [[m k] [Hin Hk]]. apply andb_true_iff in Hk as [Hm Hk].
      rewrite Forall_forall in IH. destruct (IH (m, k) Hin Hk) as [j [Hr Hv]].
      exists j. split; [|exact Hv]. eapply reach_kid; [exact Hrow|apply memN_In; exact Hm|exact Hin|exact Hr].
  Qed.

  Theorem goodb_sound i : goodb i = true -> good i.
  Proof.
    induction i as [|c a t K xa xe IH] using inst_ind'; [discriminate|].
    cbn [Validate.goodb]. destruct (find_row S c) as [r|] eqn:Hrow; [|discriminate].
    intros H. apply andb_true_iff in H as [H Hk]. apply andb_true_iff in H as [H Hp].
    apply andb_true_iff in H as [H Hc]. apply andb_true_iff in H as [Ha Ht].
    rewrite forallb_forall in Ha, Hc, Hk. rewrite Forall_forall in IH.
    apply (good_I c a t K xa xe r Hrow).
    - intros x Hx. apply attr_goodb_sound, Ha, Hx.
    - apply text_goodb_sound; exact Ht.
    - intros ch Hch. apply card_badb_false_good. apply negb_true_iff. apply Hc; exact Hch.
    - intros e He. rewrite He in Hp. discriminate.
    - intros m k Hin. apply (IH (m, k) Hin). exact (Hk (m, k) Hin).
  Qed.

  Theorem rejects_decided i : plain_av -> has_violation i = true ->
    (exists e, valid_instance i = Err e) /\ (exists e, verify i = Err e).
  Proof. intros Hpl H. destruct (has_violation_sound i H) as [j [Hr Hv]]. eapply rejects_both; eassumption. Qed.

  Theorem accepts_decided i : goodb i = true -> verify i = ok /\ valid_instance i = ok.
  Proof. intros H. apply accepts, goodb_sound, H. Qed.

  Theorem spec_exclusive i : plain_av -> has_violation i = true -> goodb i = false.
  Proof.
    intros Hpl Hv. destruct (goodb i) eqn:Hg; [|reflexivity].
    destruct (rejects_decided i Hpl Hv) as [[e He] _]. destruct (accepts_decided i Hg) as [_ Ho].
    rewrite Ho in He. discriminate.
  Qed.
End V.

Lemma plain_av_of S : av_rows_plain S = true -> plain_av S.
Proof.
  intros H c r Hrow Hav. unfold av_rows_plain in H. rewrite forallb_forall in H.
  specialize (H r (find_row_In S c r Hrow)). change (s2l "saml.AttributeValueBase") with V_AVB in H. rewrite Hav in H.
  destruct (k_attrs r); [|discriminate]. destruct (k_children r); [|discriminate]. split; reflexivity.
Qed.

(* over tables that meet the obligations no typed value escapes through an unresolvable type:
   a truthy attribute whose declared type name names a validator that refuses it is a
   violation (the `resolve = Some k` premise of typed_bad is discharged) *)
Lemma typed_attr_bad prim keys S r a t v :
  unresolved_attr_types keys S = [] -> In r S -> In a (k_attrs r) -> a_type a = TN t ->
  (forall k, resolve keys t = Some k -> prim k v = false) ->
  typed_bad prim keys S a v.
Proof.
  intros H0 Hr Ha Ht Hp. pose proof (types_resolve keys S r a H0 Hr Ha) as H. rewrite Ht in H.
  apply type_resolves_spec in H as [k [Hk _]]. unfold typed_bad. rewrite Ht. exists k. split; [exact Hk|apply Hp; exact Hk].
Qed.

Lemma enum_attr_bad prim keys S a c rt vt en v :
  unenforced_enums S = [] -> a_type a = TC c -> find_row S c = Some rt ->
  k_vtype rt = Some vt -> v_enum vt = Some en -> mem_str v en = false ->
  typed_bad prim keys S a v.
Proof.
  intros H0 Ht Hrt Hvt He Hm. unfold typed_bad. rewrite Ht. exists rt. split; [exact Hrt|]. rewrite Hvt.
  split; [exact (enum_maxlen_none S rt vt en H0 (find_row_In S c rt Hrt) Hvt He)|].
  left. exists en. split; assumption.
Qed.
