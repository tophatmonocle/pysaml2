(* Proofs/PickBinding_lemmas.v — what Entity.pick_binding / response_args can answer, for every metadata store,
   configuration and request: an answer is a registered endpoint (soundness, up to response_args_index); then the
   converse for URLs over stores whose endpoint dicts are complete (from src_known on): a registered URL is honoured. *)
From PV Require Import Lib.Base Model.PickBinding.
Open Scope N_scope.

Lemma find_entity_find s eid : find_entity s eid = find (fun e => str_eqb (en_id e) eid) s.
Proof. induction s as [|x s IH]; cbn [find_entity find]; [|rewrite IH]; reflexivity. Qed.

Lemma find_entity_some s eid e : find_entity s eid = Some e -> In e s /\ en_id e = eid.
Proof.
  rewrite find_entity_find. intros H. apply find_some in H as [Hin He].
  split; [exact Hin|apply str_eqb_eq; exact He].
Qed.

Lemma find_entity_none s eid : find_entity s eid = None -> forall e, In e s -> en_id e <> eid.
Proof.
  rewrite find_entity_find. intros H e Hin. apply str_eqb_neq. exact (find_none _ _ H e Hin).
Qed.

Lemma find_role_some rs k ds : find_role rs k = Some ds -> In (k, ds) rs.
Proof.
  induction rs as [|[k' d'] rs IH]; cbn [find_role]; [discriminate|].
  destruct (str_eqb_spec k' k) as [Heq|Hne]; intros H.
  - injection H as <-. subst k'. left; reflexivity.
  - right; exact (IH H).
Qed.

(* the loop over srv["binding"] is a filter, unless some endpoint dict has no such key *)
Definition has_binding (sv : service) : bool :=
  match sv_binding sv with Some _ => true | None => false end.

Lemma filter_binding_eq srvs b :
  filter_binding srvs b =
  if forallb has_binding srvs
  then Ok (filter (fun sv => match sv_binding sv with Some bx => str_eqb bx b | None => false end) srvs)
  else Err E_Key.
Proof.
  induction srvs as [|x srvs IH]; cbn [filter_binding forallb filter]; [reflexivity|]. unfold has_binding at 1.
  destruct (sv_binding x) as [bx|]; cbn [andb]; [|reflexivity].
  rewrite IH. destruct (forallb has_binding srvs); [|reflexivity]. destruct (str_eqb bx b); reflexivity.
Qed.

Lemma filter_binding_ok srvs b l : filter_binding srvs b = Ok l ->
  forall sv, In sv l -> In sv srvs /\ sv_binding sv = Some b.
Proof.
  rewrite filter_binding_eq. destruct (forallb has_binding srvs); [|discriminate].
  intros [= <-] sv Hin. apply filter_In in Hin as [Hin Hb]. split; [exact Hin|].
  destruct (sv_binding sv) as [bx|]; [|discriminate]. apply str_eqb_eq in Hb. congruence.
Qed.

Lemma in_services sname descs sv :
  In sv (List.concat (map (of_type sname) descs)) ->
  exists d, In d descs /\ In sv d /\ sv_type sv = sname.
Proof.
  rewrite <- flat_map_concat_map, in_flat_map. intros [d [Hd Hsv]].
  unfold of_type in Hsv. apply filter_In in Hsv as [Hsv Ht].
  exists d. split; [exact Hd|]. split; [exact Hsv|]. apply str_eqb_eq; exact Ht.
Qed.

(* the endpoint dict comes from this source, entity, role and service list *)
Definition in_source (s : source) (eid typ sname : str) (sv : service) : Prop :=
  exists e descs d, In e s /\ en_id e = eid /\ In (typ, descs) (en_roles e) /\
                    In d descs /\ In sv d /\ sv_type sv = sname.

Lemma src_service_list s eid typ sname b l :
  src_service s eid typ sname b = Ok (SList l) ->
  forall sv, In sv l -> in_source s eid typ sname sv /\ sv_binding sv = Some b.
Proof.
  unfold src_service. intros H sv Hin.
  destruct (find_entity s eid) as [e|] eqn:He; [|discriminate].
  destruct (find_role (en_roles e) typ) as [descs|] eqn:Hr; [|discriminate].
  apply find_entity_some in He as [He1 He2]. apply find_role_some in Hr.
  remember (List.concat (map (of_type sname) descs)) as srvs eqn:Hs.
  destruct srvs as [|x srvs'].
  - injection H as <-. destruct Hin.
  - destruct (py_truthy b).
    + destruct (filter_binding (x :: srvs') b) as [l'|err] eqn:Hf; [|discriminate].
      injection H as <-.
      destruct (filter_binding_ok _ _ _ Hf sv Hin) as [H1 H2].
      split; [|exact H2]. rewrite Hs in H1. apply in_services in H1 as [d [Hd [Hsv Ht]]].
      exists e, descs, d. repeat split; assumption.
    + destruct (forallb _ (x :: srvs')); discriminate.
Qed.

(* a source that does not describe (eid, typ) answers None whatever the binding *)
Lemma src_service_unknown s eid typ sname b :
  (forall e descs, In e s -> en_id e = eid -> ~ In (typ, descs) (en_roles e)) ->
  src_service s eid typ sname b = Ok SNone.
Proof.
  intros Hno. unfold src_service.
  destruct (find_entity s eid) as [e|] eqn:He; [|reflexivity].
  destruct (find_role (en_roles e) typ) as [descs|] eqn:Hr; [|reflexivity].
  apply find_entity_some in He as [He1 He2]. apply find_role_some in Hr.
  exfalso. exact (Hno e descs He1 He2 Hr).
Qed.

Lemma store_service_list md : forall known eid typ sname b l,
  store_service_from md known eid typ sname b = Ok (SList l) ->
  forall sv, In sv l ->
    (exists src, In src md /\ in_source src eid typ sname sv) /\ sv_binding sv = Some b.
Proof.
  induction md as [|s md IH]; intros known eid typ sname b l H sv Hin; cbn [store_service_from] in H.
  - destruct known; discriminate.
  - destruct (src_service s eid typ sname b) as [r|e] eqn:Hs; [|discriminate].
    destruct (sres_truthy r) eqn:Ht.
    + injection H as ->. destruct (src_service_list _ _ _ _ _ _ Hs sv Hin) as [H1 H2].
      split; [exists s; split; [left; reflexivity|exact H1]|exact H2].
    + assert (exists k, store_service_from md k eid typ sname b = Ok (SList l)) as [k Hk].
      { destruct r; eexists; exact H. }
      destruct (IH _ _ _ _ _ _ Hk sv Hin) as [[src [Hsrc Hin']] H2].
      split; [exists src; split; [right; exact Hsrc|exact Hin']|exact H2].
Qed.

(* no source describes (eid, typ): UnknownSystemEntity, for every binding *)
Lemma store_service_unknown md eid typ sname b :
  (forall src e descs, In src md -> In e src -> en_id e = eid -> ~ In (typ, descs) (en_roles e)) ->
  store_service_from md false eid typ sname b = Err E_UnknownEnt.
Proof.
  induction md as [|s md IH]; intros Hno; cbn [store_service_from]; [reflexivity|].
  rewrite (src_service_unknown s eid typ sname b).
  - cbn [sres_truthy]. apply IH. intros src e descs Hsrc. apply Hno. right; exact Hsrc.
  - intros e descs. apply Hno. left; reflexivity.
Qed.

Lemma registered_sv_in_source md eid role s sv :
  registered_sv md eid role s sv <-> exists src, In src md /\ in_source src eid role (svc_name s) sv.
Proof.
  unfold registered_sv, in_source. split.
  - intros (src & e & descs & d & Hsrc & H). exists src. split; [exact Hsrc|exists e, descs, d; exact H].
  - intros (src & Hsrc & e & descs & d & H). exists src, e, descs, d. split; assumption.
Qed.

Lemma sfunc_list md s eid b descr l :
  sfunc md s eid b descr = Ok (SList l) ->
  forall sv, In sv l -> registered_sv md eid (role_key s descr) s sv /\ sv_binding sv = Some b.
Proof.
  unfold sfunc, store_service. intros H sv Hin.
  destruct (store_service_list _ _ _ _ _ _ _ H sv Hin) as [Hsrc Hb].
  split; [apply registered_sv_in_source; exact Hsrc|exact Hb].
Qed.

Lemma find_url_true srvs u : find_url srvs u = Ok true ->
  exists sv, In sv srvs /\ sv_location sv = Some u.
Proof.
  induction srvs as [|x srvs IH]; cbn [find_url]; [discriminate|].
  destruct (sv_location x) as [l|] eqn:Hl; [|discriminate].
  destruct (str_eqb_spec l u) as [->|Hne]; intros H.
  - exists x. split; [left; reflexivity|exact Hl].
  - destruct (IH H) as [sv [Hin Hsv]]. exists sv. split; [right; exact Hin|exact Hsv].
Qed.

Lemma find_index_some srvs i d : find_index srvs i = Ok (Some d) ->
  exists sv, In sv srvs /\ sv_index sv = Some i /\ sv_location sv = Some d.
Proof.
  induction srvs as [|x srvs IH]; cbn [find_index]; [discriminate|].
  destruct (sv_index x) as [j|] eqn:Hj; [|discriminate].
  destruct (str_eqb_spec j i) as [->|Hne]; intros H.
  - destruct (sv_location x) as [l|] eqn:Hl; [|discriminate]. injection H as ->.
    exists x. split; [left; reflexivity|]. split; [exact Hj|exact Hl].
  - destruct (IH H) as [sv [Hin Hsv]]. exists sv. split; [right; exact Hin|exact Hsv].
Qed.

Lemma destinations_head srvs d ds : destinations srvs = Ok (d :: ds) ->
  exists sv, In sv srvs /\ sv_location sv = Some d.
Proof.
  destruct srvs as [|x srvs]; cbn [destinations]; [discriminate|].
  destruct (sv_location x) as [l|] eqn:Hl; [|discriminate].
  destruct (destinations srvs) as [ls|e]; [|discriminate].
  intros H. injection H as H1 H2. subst. exists x. split; [left; reflexivity|exact Hl].
Qed.

(* the endpoint [sv] may be answered with destination [d]: a truthy URL is
   answered only to itself; else a truthy index only to an endpoint carrying it *)
Definition chosen (url idx : option str) (sv : service) (d : str) : Prop :=
  sv_location sv = Some d /\
  if opt_truthy url then url = Some d
  else if opt_truthy idx then sv_index sv = idx else True.

Lemma try_binding_some r url idx d : try_binding r url idx = Ok (Some d) ->
  exists srvs sv, r = SList srvs /\ In sv srvs /\ chosen url idx sv d.
Proof.
  unfold try_binding, chosen. destruct r as [|srvs|]; [discriminate| |discriminate].
  intros H. exists srvs. destruct (opt_truthy url) eqn:Hu.
  - destruct url as [u|]; [|discriminate].
    destruct (find_url srvs u) as [[|]|e] eqn:Hf; try discriminate.
    injection H as <-. destruct (find_url_true _ _ Hf) as [sv [Hin Hl]].
    exists sv. repeat split; assumption.
  - destruct (opt_truthy idx) eqn:Hi.
    + destruct idx as [i|]; [|discriminate].
      destruct (find_index_some _ _ _ H) as [sv [Hin [Hj Hl]]].
      exists sv. repeat split; assumption.
    + destruct (destinations srvs) as [[|d0 ds]|e] eqn:Hd; try discriminate.
      injection H as <-. destruct (destinations_head _ _ _ Hd) as [sv [Hin Hl]].
      exists sv. repeat split; assumption.
Qed.

(* the post-condition of pick_binding's loop: the answer is an endpoint the
   metadata registers under [role], under one of the admitted bindings *)
Definition pb_post (md : mdstore) (s : svc) (eid role : str) (url idx : option str)
           (bl : list str) (b d : str) : Prop :=
  In b bl /\
  exists sv, registered_sv md eid role s sv /\ sv_binding sv = Some b /\ chosen url idx sv d.

Lemma pb_loop_ok md s eid descr url idx : forall bl b d,
  pb_loop md s eid descr url idx bl = Ok (b, d) -> pb_post md s eid (role_key s descr) url idx bl b d.
Proof.
  induction bl as [|b0 bl IH]; intros b d; cbn [pb_loop]; [discriminate|].
  assert (Hskip : pb_loop md s eid descr url idx bl = Ok (b, d) ->
                  pb_post md s eid (role_key s descr) url idx (b0 :: bl) b d).
  { intros H. destruct (IH _ _ H) as [Hin Hp]. split; [right; exact Hin|exact Hp]. }
  destruct (sfunc md s eid b0 descr) as [r|e] eqn:Hs.
  - destruct (sres_truthy r); [|exact Hskip].
    destruct (try_binding r url idx) as [[d'|]|e] eqn:Htb; [|exact Hskip|discriminate].
    intros [= <- <-].
    destruct (try_binding_some _ _ _ _ Htb) as (srvs & sv & -> & Hin & Hc).
    destruct (sfunc_list _ _ _ _ _ _ Hs sv Hin) as [Hreg Hb].
    split; [left; reflexivity|]. exists sv. split; [exact Hreg|]. split; [exact Hb|exact Hc].
  - destruct (str_eqb e E_Unsupported); [exact Hskip|discriminate].
Qed.

Lemma pick_binding_req_eq both c md s bindings dt r :
  pick_binding_with both c md s bindings dt (Some r) [] =
  do eid <- request_entity r;
  do bl <- binding_list c s bindings (Some r);
  pb_loop md s eid (default_descr c dt) (fst (read_url_index both r)) (snd (read_url_index both r)) bl.
Proof. reflexivity. Qed.

Lemma pick_binding_req_ok both c md s bindings dt r b d :
  pick_binding_with both c md s bindings dt (Some r) [] = Ok (b, d) ->
  exists eid bl, request_entity r = Ok eid /\ binding_list c s bindings (Some r) = Ok bl /\
    pb_post md s eid (role_key s (default_descr c dt))
            (fst (read_url_index both r)) (snd (read_url_index both r)) bl b d.
Proof.
  rewrite pick_binding_req_eq. intros H.
  apply bind_Ok in H as (eid & He & H). apply bind_Ok in H as (bl & Hbl & H).
  exists eid, bl. split; [exact He|]. split; [exact Hbl|]. exact (pb_loop_ok _ _ _ _ _ _ _ _ _ H).
Qed.

(* no issuer text: pick_binding raises what reading it raises *)
Lemma pick_binding_req_err both c md s bindings dt r e :
  request_entity r = Err e ->
  pick_binding_with both c md s bindings dt (Some r) [] = Err e.
Proof. intros H. rewrite pick_binding_req_eq, H. reflexivity. Qed.

(* no source describes the issuer under the role: pick_binding raises *)
Lemma pick_binding_req_unknown both c md s bindings dt r eid :
  request_entity r = Ok eid ->
  (forall src e descs, In src md -> In e src -> en_id e = eid ->
                       ~ In (role_key s (default_descr c dt), descs) (en_roles e)) ->
  exists e, pick_binding_with both c md s bindings dt (Some r) [] = Err e.
Proof.
  intros He Hno. rewrite pick_binding_req_eq, He. cbn [bind].
  destruct (binding_list c s bindings (Some r)) as [bl|e]; cbn [bind]; [|eexists; reflexivity].
  destruct bl as [|b0 bl]; cbn [pb_loop]; [eexists; reflexivity|].
  unfold sfunc, store_service. rewrite (store_service_unknown _ _ _ _ _ Hno). eexists; reflexivity.
Qed.

Lemma default_descr_idem c dt : default_descr c (default_descr c dt) = default_descr c dt.
Proof.
  unfold default_descr. destruct (py_truthy dt) eqn:H; [rewrite H; reflexivity|].
  destruct (cf_is_sp c); reflexivity.
Qed.

Lemma soap_only_spec bindings :
  reflect (soap_only bindings) (match bindings with Some [b] => str_eqb b B_SOAP | _ => false end).
Proof.
  unfold soap_only. destruct bindings as [[|b [|b' l]]|]; try (constructor; discriminate).
  destruct (str_eqb_spec b B_SOAP) as [->|Hne]; constructor; congruence.
Qed.

(* the descr_type the isinstance chain of response_args settles on *)
Definition kind_dt (k : msgkind) (dt : str) : str :=
  match k with KAuthn | KAttrQuery => s2l "spsso" | _ => dt end.

(* bindings == [SOAP]: nothing but the short-cut answer *)
Lemma response_args_soap both c md r bindings dt x :
  soap_only bindings -> response_args_with both c md r bindings dt = Ok x -> x = Some (B_SOAP, []).
Proof.
  intros Hs H. unfold response_args_with in H. apply bind_Ok in H as (sd & _ & H). revert H.
  destruct (soap_only_spec bindings); [|contradiction]. intros [= <-]. reflexivity.
Qed.

(* otherwise, for a message class with a consumer service, response_args IS
   pick_binding for that service, looked up under the role [kind_role]
   (response_args applies default_descr and pick_binding applies it again) *)
Lemma response_args_with_eq both c md r bindings dt s :
  ~ soap_only bindings -> kind_service (rq_kind r) = Some s ->
  role_key s (default_descr c (default_descr c (kind_dt (rq_kind r) dt))) = kind_role c (rq_kind r) dt /\
  response_args_with both c md r bindings dt =
  match pick_binding_with both c md s bindings (default_descr c (kind_dt (rq_kind r) dt)) (Some r) [] with
  | Ok bd => Ok (Some bd)
  | Err e => Err e
  end.
Proof.
  intros Hns Hk. split.
  - rewrite default_descr_idem. destruct (rq_kind r); inversion Hk; reflexivity.
  - unfold response_args_with. destruct (soap_only_spec bindings) as [Hs|_]; [contradiction|].
    (* without an issuer both sides raise AttributeError *)
    unfold pick_binding_with, request_entity. cbn [py_truthy].
    destruct (rq_kind r); inversion Hk; destruct (rq_issuer r) as [[t|]|]; reflexivity.
Qed.

Lemma response_args_service both c md r bindings dt bd :
  ~ soap_only bindings -> response_args_with both c md r bindings dt = Ok (Some bd) ->
  exists s, kind_service (rq_kind r) = Some s.
Proof.
  intros Hns H. unfold response_args_with in H. apply bind_Ok in H as ([os dt'] & Hsd & H). revert H.
  destruct (soap_only_spec bindings) as [Hs|_]; [contradiction|]. cbn [fst].
  destruct (rq_kind r); cbn [kind_service]; eauto; [injection Hsd as <- _|]; discriminate.
Qed.

(* a successful response_args: either the SOAP short-cut, or pick_binding's
   post-condition for the message's service and role *)
Lemma response_args_ok both c md r bindings dt b d :
  response_args_with both c md r bindings dt = Ok (Some (b, d)) ->
  (soap_only bindings /\ b = B_SOAP /\ d = []) \/
  (~ soap_only bindings /\ exists s eid bl,
     kind_service (rq_kind r) = Some s /\ request_entity r = Ok eid /\
     binding_list c s bindings (Some r) = Ok bl /\
     pb_post md s eid (kind_role c (rq_kind r) dt)
             (fst (read_url_index both r)) (snd (read_url_index both r)) bl b d).
Proof.
  intros H. destruct (soap_only_spec bindings) as [Hs|Hns].
  - left. apply (response_args_soap _ _ _ _ _ _ _ Hs) in H. injection H as <- <-. repeat split. exact Hs.
  - right. split; [exact Hns|]. destruct (response_args_service _ _ _ _ _ _ _ Hns H) as [s Hk].
    destruct (response_args_with_eq both c md r bindings dt s Hns Hk) as [Hrole Heq].
    rewrite Heq in H.
    destruct (pick_binding_with both c md s bindings _ (Some r) []) as [bd|e] eqn:Hpb; [|discriminate].
    injection H as ->. destruct (pick_binding_req_ok _ _ _ _ _ _ _ _ _ Hpb) as (eid & bl & He & Hbl & Hp).
    rewrite Hrole in Hp. exists s, eid, bl. split; [exact Hk|]. split; [exact He|]. split; [exact Hbl|exact Hp].
Qed.

(* the way every refusal is shown: no answer meets the post-condition *)
Lemma response_args_refused both c md r bindings dt s :
  ~ soap_only bindings -> kind_service (rq_kind r) = Some s ->
  (forall eid bl b d, request_entity r = Ok eid -> binding_list c s bindings (Some r) = Ok bl ->
     ~ pb_post md s eid (kind_role c (rq_kind r) dt)
               (fst (read_url_index both r)) (snd (read_url_index both r)) bl b d) ->
  exists e, response_args_with both c md r bindings dt = Err e.
Proof.
  intros Hns Hk Hno. destruct (response_args_with_eq both c md r bindings dt s Hns Hk) as [Hrole ->].
  destruct (pick_binding_with both c md s bindings _ (Some r) []) as [[b d]|e] eqn:Hpb; [|eexists; reflexivity].
  destruct (pick_binding_req_ok _ _ _ _ _ _ _ _ _ Hpb) as (eid & bl & He & Hbl & Hp).
  rewrite Hrole in Hp. destruct (Hno eid bl b d He Hbl Hp).
Qed.

(* (1) every answer is a registered endpoint *)
Lemma response_args_registered both c md r bindings dt b d :
  response_args_with both c md r bindings dt = Ok (Some (b, d)) ->
  (soap_only bindings /\ b = B_SOAP /\ d = []) \/
  (exists s eid, kind_service (rq_kind r) = Some s /\ request_entity r = Ok eid /\
                 registered md eid (kind_role c (rq_kind r) dt) s b d).
Proof.
  intros H. destruct (response_args_ok _ _ _ _ _ _ _ _ H)
    as [Hs|[_ (s & eid & bl & Hk & He & _ & _ & sv & Hreg & Hb & Hl & _)]].
  - left; exact Hs.
  - right. exists s, eid. split; [exact Hk|]. split; [exact He|]. exists sv. repeat split; assumption.
Qed.

Lemma read_url_index_url both r u : rq_url r = Has u -> fst (read_url_index both r) = u.
Proof. unfold read_url_index. intros ->. reflexivity. Qed.

(* (2) a supplied (truthy) URL is answered only to itself, and only when
   string-equal to a registered location *)
Lemma response_args_url both c md r bindings dt u b d :
  rq_url r = Has (Some u) -> py_truthy u = true -> ~ soap_only bindings ->
  response_args_with both c md r bindings dt = Ok (Some (b, d)) ->
  d = u /\ exists s eid, kind_service (rq_kind r) = Some s /\ request_entity r = Ok eid /\
                         registered md eid (kind_role c (rq_kind r) dt) s b u.
Proof.
  intros Hu Ht Hns H.
  destruct (response_args_ok _ _ _ _ _ _ _ _ H)
    as [[Hs _]|[_ (s & eid & bl & Hk & He & _ & _ & sv & Hreg & Hb & Hl & Hurl)]]; [contradiction|].
  rewrite (read_url_index_url both r _ Hu) in Hurl. cbn [opt_truthy] in Hurl. rewrite Ht in Hurl.
  injection Hurl as ->.
  split; [reflexivity|]. exists s, eid. split; [exact Hk|]. split; [exact He|]. exists sv. repeat split; assumption.
Qed.

Lemma response_args_url_unregistered both c md r bindings dt u s eid :
  rq_url r = Has (Some u) -> py_truthy u = true -> ~ soap_only bindings ->
  kind_service (rq_kind r) = Some s -> request_entity r = Ok eid ->
  (forall b, ~ registered md eid (kind_role c (rq_kind r) dt) s b u) ->
  exists e, response_args_with both c md r bindings dt = Err e.
Proof.
  intros Hu Ht Hns Hk He Hno. apply (response_args_refused _ _ _ _ _ _ s Hns Hk).
  intros eid' bl b d He' _ (_ & sv & Hreg & Hb & Hl & Hurl).
  rewrite He in He'. injection He' as <-.
  rewrite (read_url_index_url both r _ Hu) in Hurl. cbn [opt_truthy] in Hurl. rewrite Ht in Hurl.
  injection Hurl as ->. apply (Hno b). exists sv. repeat split; assumption.
Qed.

(* (3) requester (under the consulted role) absent from metadata: refused *)
Lemma response_args_unknown both c md r bindings dt s :
  ~ soap_only bindings -> kind_service (rq_kind r) = Some s ->
  (forall eid, request_entity r = Ok eid ->
     forall src e descs, In src md -> In e src -> en_id e = eid ->
                         ~ In (kind_role c (rq_kind r) dt, descs) (en_roles e)) ->
  exists e, response_args_with both c md r bindings dt = Err e.
Proof.
  intros Hns Hk Hno. apply (response_args_refused _ _ _ _ _ _ s Hns Hk).
  intros eid bl b d He _ (_ & sv & (src & e & descs & dd & H1 & H2 & H3 & H4 & _) & _).
  exact (Hno eid He src e descs H1 H2 H3 H4).
Qed.

Lemma response_args_no_issuer both c md r bindings dt s e0 :
  ~ soap_only bindings -> kind_service (rq_kind r) = Some s -> request_entity r = Err e0 ->
  exists e, response_args_with both c md r bindings dt = Err e.
Proof.
  intros Hns Hk He. apply (response_args_refused _ _ _ _ _ _ s Hns Hk).
  intros eid bl b d He'. congruence.
Qed.

(* a store holding one SP with one descriptor registers the endpoints of that descriptor only *)
Lemma registered_sv_single eid0 d eid role s sv :
  registered_sv [[mk_sp eid0 [d]]] eid role s sv -> In sv d.
Proof.
  intros (src & e & descs & dd & [<-|[]] & [<-|[]] & _ & [[= _ <-]|[]] & [<-|[]] & Hsv & _). exact Hsv.
Qed.

(* when the index IS what gets consulted, the answer carries it *)
Lemma response_args_index both c md r bindings dt i b d :
  opt_truthy (fst (read_url_index both r)) = false ->
  snd (read_url_index both r) = Some i -> py_truthy i = true -> ~ soap_only bindings ->
  response_args_with both c md r bindings dt = Ok (Some (b, d)) ->
  exists s eid sv, kind_service (rq_kind r) = Some s /\ request_entity r = Ok eid /\
                   registered_sv md eid (kind_role c (rq_kind r) dt) s sv /\
                   sv_binding sv = Some b /\ sv_location sv = Some d /\ sv_index sv = Some i.
Proof.
  intros Hu Hi Ht Hns H.
  destruct (response_args_ok _ _ _ _ _ _ _ _ H)
    as [[Hs _]|[_ (s & eid & bl & Hk & He & _ & _ & sv & Hreg & Hb & Hl & Hidx)]]; [contradiction|].
  exists s, eid, sv. repeat split; try assumption.
  rewrite Hu, Hi in Hidx. cbn [opt_truthy] in Hidx. rewrite Ht in Hidx. exact Hidx.
Qed.

(* the request r with its <service>_index attribute replaced (Props/C09.v: the index was ignored before the repair) *)
Definition set_index (r : request) (i : attr) : request :=
  {| rq_kind := rq_kind r; rq_issuer := rq_issuer r; rq_pbind := rq_pbind r; rq_url := rq_url r; rq_index := i |}.

(* the source / some source of the store has an entry for eid with the role typ, whatever its endpoints *)
Definition src_known (s : source) (eid typ : str) : bool :=
  match find_entity s eid with
  | Some e => match find_role (en_roles e) typ with Some _ => true | None => false end
  | None => false
  end.
Definition store_known (md : mdstore) (eid typ : str) : bool :=
  existsb (fun s => src_known s eid typ) md.

(* every endpoint dict the store holds for (eid, typ, sname) has Binding and
   Location — what loading schema-valid metadata gives *)
Definition src_complete (s : source) (eid typ sname : str) : Prop :=
  forall sv, in_source s eid typ sname sv -> sv_complete sv = true.
Definition store_complete (md : mdstore) (eid typ sname : str) : Prop :=
  forall src, In src md -> src_complete src eid typ sname.

Lemma sv_complete_fields sv :
  sv_complete sv = true -> sv_binding sv <> None /\ sv_location sv <> None.
Proof.
  unfold sv_complete. destruct (sv_binding sv), (sv_location sv); intros H; try discriminate H.
  split; discriminate.
Qed.

Lemma filter_binding_total srvs b :
  (forall sv, In sv srvs -> sv_binding sv <> None) -> exists l, filter_binding srvs b = Ok l.
Proof.
  intros Hall. rewrite filter_binding_eq.
  assert (forallb has_binding srvs = true) as ->; [|eexists; reflexivity].
  apply forallb_forall. intros sv Hin. unfold has_binding. specialize (Hall sv Hin).
  destruct (sv_binding sv); [reflexivity|contradiction].
Qed.

Lemma src_service_shape s eid typ sname b :
  src_complete s eid typ sname -> py_truthy b = true ->
  if src_known s eid typ then exists l, src_service s eid typ sname b = Ok (SList l)
  else src_service s eid typ sname b = Ok SNone.
Proof.
  intros Hc Hb. unfold src_known, src_service.
  destruct (find_entity s eid) as [e|] eqn:He; [|reflexivity].
  destruct (find_role (en_roles e) typ) as [descs|] eqn:Hr; [|reflexivity].
  apply find_entity_some in He as [He1 He2]. apply find_role_some in Hr.
  remember (List.concat (map (of_type sname) descs)) as srvs eqn:Hs.
  assert (Hall : forall sv, In sv srvs -> sv_binding sv <> None).
  { intros sv Hin. rewrite Hs in Hin. apply in_services in Hin as [d [Hd [Hsv Ht]]].
    apply sv_complete_fields, Hc. exists e, descs, d. repeat split; assumption. }
  destruct srvs as [|x srvs']; [exists []; reflexivity|].
  rewrite Hb. destruct (filter_binding_total (x :: srvs') b Hall) as [l Hl]. rewrite Hl.
  exists l; reflexivity.
Qed.

(* over complete metadata and a non-empty binding string, MetadataStore.service
   yields a non-empty list, or UnsupportedBinding when some source knows the
   entity under that role, or UnknownSystemEntity when none does *)
Lemma store_service_shape md eid typ sname b :
  store_complete md eid typ sname -> py_truthy b = true -> forall k,
  match store_service_from md k eid typ sname b with
  | Ok (SList (_ :: _)) => store_known md eid typ = true
  | Ok _ => False
  | Err e => e = if (k || store_known md eid typ)%bool then E_Unsupported else E_UnknownEnt
  end.
Proof.
  intros Hc Hb. unfold store_known.
  induction md as [|s md IH]; intros k; cbn [store_service_from existsb].
  - rewrite orb_false_r. destruct k; reflexivity.
  - assert (Hs := src_service_shape s eid typ sname b (Hc s (or_introl eq_refl)) Hb).
    assert (IH' := IH (fun src H => Hc src (or_intror H))).
    destruct (src_known s eid typ).
    + destruct Hs as [l Hl]. rewrite Hl. destruct l as [|x l]; cbn [sres_truthy orb].
      * (* s knows (eid, typ) but has no endpoint under b: the search goes on with known := true,
           so an error of the rest is UnsupportedBinding *)
        rewrite orb_true_r. specialize (IH' true). cbn [orb] in IH'.
        destruct (store_service_from md true eid typ sname b) as [[|[|y l']|]|e]; try exact IH'. reflexivity.
      * reflexivity.
    + rewrite Hs. cbn [sres_truthy orb]. exact (IH' k).
Qed.

Lemma store_service_answer md eid typ sname b r :
  store_complete md eid typ sname -> py_truthy b = true ->
  store_service md eid typ sname b = Ok r ->
  store_known md eid typ = true /\ exists x l, r = SList (x :: l) /\
    forall sv, In sv (x :: l) -> sv_location sv <> None.
Proof.
  intros Hc Hb H. pose proof (store_service_shape md eid typ sname b Hc Hb false) as S.
  unfold store_service in H. rewrite H in S. destruct r as [|[|x l]|]; try contradiction.
  split; [exact S|]. exists x, l. split; [reflexivity|]. intros sv Hin.
  destruct (store_service_list _ _ _ _ _ _ _ H sv Hin) as [[src [Hsrc Hins]] _].
  apply sv_complete_fields, (Hc src Hsrc sv Hins).
Qed.

Lemma store_service_unsupported md eid typ sname b e :
  store_complete md eid typ sname -> py_truthy b = true -> store_known md eid typ = true ->
  store_service md eid typ sname b = Err e -> e = E_Unsupported.
Proof.
  intros Hc Hb Hk H. pose proof (store_service_shape md eid typ sname b Hc Hb false) as S.
  unfold store_service in H. rewrite H, Hk in S. exact S.
Qed.

(* when every endpoint has a Location the URL search is total and exact *)
Lemma find_url_complete l u :
  (forall sv, In sv l -> sv_location sv <> None) ->
  find_url l u = Ok true \/
  find_url l u = Ok false /\ forall sv, In sv l -> sv_location sv <> Some u.
Proof.
  induction l as [|x l IH]; intros Hall; cbn [find_url]; [right; split; [reflexivity|intros sv []]|].
  destruct (sv_location x) as [lx|] eqn:Hl; [|destruct (Hall x (or_introl eq_refl) Hl)].
  destruct (str_eqb_spec lx u) as [->|Hne]; [left; reflexivity|].
  destruct (IH (fun sv H => Hall sv (or_intror H))) as [H|[H Hno]]; [left; exact H|].
  right. split; [exact H|]. intros sv [<-|Hin]; [congruence|exact (Hno sv Hin)].
Qed.

Lemma pb_loop_url_complete md s eid descr u idx :
  py_truthy u = true ->
  store_complete md eid (role_key s descr) (svc_name s) ->
  forall bl, Forall (fun b => py_truthy b = true) bl ->
  (exists b l sv, In b bl /\ sfunc md s eid b descr = Ok (SList l) /\ In sv l /\ sv_location sv = Some u) ->
  exists b', pb_loop md s eid descr (Some u) idx bl = Ok (b', u).
Proof.
  intros Hu Hc. unfold sfunc.
  induction bl as [|b0 bl IH]; intros Hall (b & l & sv & Hin & Hs & Hsv & Hl); [destruct Hin|].
  inversion Hall as [|? ? Hb0 Hall']; subst.
  assert (Hknown : store_known md eid (role_key s descr) = true).
  { rewrite Forall_forall in Hall. exact (proj1 (store_service_answer _ _ _ _ _ _ Hc (Hall b Hin) Hs)). }
  (* the witness binding is b0 itself only if b0's list holds the URL; otherwise it is further on *)
  assert (Hrest : store_service md eid (role_key s descr) (svc_name s) b0 <> Ok (SList l) ->
                  exists b', pb_loop md s eid descr (Some u) idx bl = Ok (b', u)).
  { intros Hne. apply IH; [exact Hall'|]. destruct Hin as [<-|Hin]; [contradiction|].
    exists b, l, sv. repeat split; assumption. }
  cbn [pb_loop]. unfold sfunc.
  destruct (store_service md eid (role_key s descr) (svc_name s) b0) as [r0|e] eqn:Hs0.
  - destruct (store_service_answer _ _ _ _ _ _ Hc Hb0 Hs0) as (_ & x0 & l0 & -> & Hloc).
    cbn [sres_truthy try_binding opt_truthy]. rewrite Hu.
    destruct (find_url_complete _ u Hloc) as [->|[-> Hno]]; [exists b0; reflexivity|].
    apply Hrest. intros [= <-]. exact (Hno sv Hsv Hl).
  - rewrite (store_service_unsupported _ _ _ _ _ _ Hc Hb0 Hknown Hs0), str_eqb_refl.
    apply Hrest. discriminate.
Qed.

(* lifted to response_args: over complete metadata, if the URL the request
   names is the location of an endpoint that MetadataStore.service returns for
   one of the admitted bindings, the request is answered, to that URL *)
Lemma response_args_url_honoured both c md r bindings dt s eid bl u :
  kind_service (rq_kind r) = Some s -> ~ soap_only bindings ->
  request_entity r = Ok eid -> rq_url r = Has (Some u) -> py_truthy u = true ->
  binding_list c s bindings (Some r) = Ok bl -> Forall (fun b => py_truthy b = true) bl ->
  store_complete md eid (kind_role c (rq_kind r) dt) (svc_name s) ->
  (exists b l sv, In b bl /\ store_service md eid (kind_role c (rq_kind r) dt) (svc_name s) b = Ok (SList l) /\
                  In sv l /\ sv_location sv = Some u) ->
  exists b', response_args_with both c md r bindings dt = Ok (Some (b', u)).
Proof.
  intros Hk Hns He Hu Ht Hbl Hall Hc Hex.
  destruct (response_args_with_eq both c md r bindings dt s Hns Hk) as [Hrole ->].
  rewrite pick_binding_req_eq, He, Hbl, (read_url_index_url both r _ Hu). cbn [bind].
  rewrite <- Hrole in Hc, Hex.
  destruct (pb_loop_url_complete md s eid _ u (snd (read_url_index both r)) Ht Hc bl Hall Hex) as [b' ->].
  exists b'. reflexivity.
Qed.
