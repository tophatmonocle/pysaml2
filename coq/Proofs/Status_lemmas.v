(* Model/Status.v: the status table lookup, what status_ok and verify_core accept (exactly the Success URN, after
   every earlier check), the error class of a refused status, and that both verify wrappers hand over only then. *)
From PV Require Import Lib.Base Gen.StatusTable Model.Status.
Open Scope N_scope.

Lemma is_success_true_iff v : is_success v = true <-> v = Some STATUS_SUCCESS.
Proof.
  destruct v as [s|]; cbn [is_success].
  - rewrite str_eqb_eq. split; congruence.
  - split; discriminate.
Qed.

Lemma is_success_false_iff v : is_success v = false <-> v <> Some STATUS_SUCCESS.
Proof. rewrite <- Bool.not_true_iff_false, is_success_true_iff. reflexivity. Qed.

(* the exact class raised, as a function of the second-level code *)
Definition class_for (table : list (str * str)) (sub : option code_view) : str :=
  match sub with
  | None => s2l "StatusError"
  | Some (Code None _) => s2l "KeyError"
  | Some (Code (Some k) _) =>
      match lookup k table with Some cls => cls | None => s2l "KeyError" end
  end.

Lemma lookup_some_in k t v : lookup k t = Some v -> In (k, v) t.
Proof.
  induction t as [|[k' v'] t IH]; cbn [lookup]; [discriminate|].
  destruct (str_eqb_spec k k') as [->|Hn]; intros H.
  - left. congruence.
  - right. auto.
Qed.

Lemma class_for_unlisted table k sub :
  lookup k table = None -> class_for table (Some (Code (Some k) sub)) = s2l "KeyError".
Proof. intros H. unfold class_for. now rewrite H. Qed.

Lemma lookup_not_key x t : mem_str x (map fst t) = false -> lookup x t = None.
Proof.
  induction t as [|[k v] t IH]; cbn [lookup map fst mem_str existsb]; [reflexivity|].
  intros H. apply orb_false_iff in H as [-> H]. exact (IH H).
Qed.

Lemma status_ok_exact table st v sub :
  st_code st = Some (Code v sub) -> is_success v = false ->
  status_ok_with table (Some st) = Err (class_for table sub).
Proof.
  intros Hc Hv. unfold status_ok_with, status_ok_gen, class_for. rewrite Hc, Hv.
  destruct sub as [[[k|] ?]|]; try reflexivity. destruct (lookup k table); reflexivity.
Qed.

Lemma status_ok_nonsuccess_err table st c :
  st_code st = Some c ->
  (let 'Code v _ := c in is_success v = false) ->
  exists e, status_ok_with table (Some st) = Err e.
Proof. destruct c as [v sub]. intros Hc Hv. eexists. exact (status_ok_exact _ _ _ _ Hc Hv). Qed.

Lemma status_ok_success table st v sub :
  st_code st = Some (Code v sub) -> is_success v = true ->
  status_ok_with table (Some st) = Ok tt.
Proof. intros Hc Hv. unfold status_ok_with, status_ok_gen. now rewrite Hc, Hv. Qed.

Lemma status_ok_ok table st : status_ok_with table st = Ok tt ->
  exists s sub, st = Some s /\ st_code s = Some (Code (Some STATUS_SUCCESS) sub).
Proof.
  destruct st as [s|]; [|discriminate]. destruct (st_code s) as [[v sub]|] eqn:Hc.
  - destruct (is_success v) eqn:Hv.
    + intros _. apply is_success_true_iff in Hv. subst v. now exists s, sub.
    + rewrite (status_ok_exact _ _ _ _ Hc Hv). discriminate.
  - unfold status_ok_with, status_ok_gen. rewrite Hc. discriminate.
Qed.

Lemma verify_core_ok i : verify_core i = Ok (Some tt) ->
  id_mismatch i = false /\ version_is_20 (version i) = true /\ (asynchop i && negb (dest_ok i)) = false /\
  issue_ok i = Ok true /\ status_ok (status i) = Ok tt.
Proof.
  unfold verify_core. destruct (id_mismatch i); [discriminate|].
  destruct (version_is_20 (version i)); cbn [negb].
  2:{ destruct (version i); [destruct (ver_lt2 i) as [[|]|]|]; discriminate. }
  destruct (asynchop i && negb (dest_ok i)); [discriminate|].
  destruct (issue_ok i) as [[|]|]; try discriminate.
  destruct (status_ok (status i)) as [[]|]; [|discriminate]. repeat split.
Qed.

Lemma verify_core_ok_success i :
  verify_core i = Ok (Some tt) ->
  exists st sub, status i = Some st /\ st_code st = Some (Code (Some STATUS_SUCCESS) sub).
Proof. intros H. apply (status_ok_ok status_table). apply (verify_core_ok i H). Qed.

Lemma authn_verify_core {A} i (rest : result (option A)) a :
  parse_tail (authn_verify i rest) = Ok a -> verify_core i = Ok (Some tt).
Proof. unfold authn_verify. destruct (verify_core i) as [[[]|]|e]; [reflexivity|discriminate..]. Qed.

Lemma status_verify_core i : status_verify i = Ok (Some tt) -> verify_core i = Ok (Some tt).
Proof.
  unfold status_verify. destruct (verify_core i) as [[[]|]|e]; [reflexivity|discriminate|].
  destruct (str_eqb e (s2l "AssertionError")); discriminate.
Qed.

Lemma not_accepted i : verify_core i <> Ok (Some tt) ->
  forall A (rest : result (option A)),
    (forall a, parse_tail (authn_verify i rest) <> Ok a) /\ status_verify i <> Ok (Some tt).
Proof.
  intros H A rest. split.
  - intros a Ha. exact (H (authn_verify_core i rest a Ha)).
  - intros Hs. exact (H (status_verify_core i Hs)).
Qed.

Lemma request_verify_version i :
  version_is_20 (r_version i) = false -> request_verify i = Ok None.
Proof. intros H. unfold request_verify. now rewrite H. Qed.
