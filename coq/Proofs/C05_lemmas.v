(* What acceptance by parse_response says of addressing: the processed assertions' facts, the Destination and the
   outstanding request; and the lifting of a property of retained confirmations to every processed assertion. *)
From PV Require Import Lib.Base Model.Status Model.Response Proofs.Status_lemmas Proofs.Response_lemmas.
Open Scope Z_scope.

(* everything the application may read was checked *)
Lemma accepted_processed c r o :
  parse_response c r = Ok o ->
  Forall (assertion_facts c (r_irt r)) (processed r) /\
  (asynch c = true -> forall d, r_destination r = Some d ->
     (dest_regex_set c = true -> dest_regex_match c = true) /\
     (dest_regex_set c = false -> exists addrs, return_addrs c = Some addrs /\ mem_str d addrs = true)) /\
  (asynch c = true -> allow_unsolicited c = false ->
     exists i cf, r_irt r = Some i /\ lookup_str i (outstanding c) = Some cf).
Proof.
  intros H. destruct (parse_response_accepted c r o H) as [Hv (req0 & s0 & Hl & _) (req & s & s' & Hver & _) _].
  destruct (verify_some _ _ _ _ _ Hver) as (Hcore & Hpa & Hnone).
  split; [exact (proj1 (parse_assertion_ok _ _ _ _ _ Hpa))|]. split.
  - intros Ha d Hd. destruct (verify_core_ok _ Hcore) as (_ & _ & Hdest & _).
    cbn [verify_in_of asynchop dest_ok] in Hdest. rewrite Ha, Hd in Hdest. apply negb_false_iff in Hdest.
    destruct (dest_regex_set c).
    + split; [intros _; exact Hdest|discriminate].
    + split; [discriminate|]. intros _. specialize (Hnone Ha d Hd eq_refl).
      destruct (return_addrs c) as [addrs|]; [|congruence]. now exists addrs.
  - intros Ha Hu. destruct (loads_ok _ _ _ _ Hl) as (cf & _ & Hs).
    destruct (Hs Ha Hu) as (i & v & Hi & Hlk & _). now exists i, v.
Qed.

(* ... and what holds of every retained confirmation holds of a non-empty selection of each assertion's confirmations *)
Lemma retained_of_accepted c r o (Q : confirmation -> Prop) :
  parse_response c r = Ok o -> (forall sc, conf_ok c (r_irt r) sc -> Q sc) ->
  Forall (fun a => exists kept, kept <> [] /\ incl kept (a_confirmations a) /\ Forall Q kept) (processed r).
Proof.
  intros H HQ. destruct (accepted_processed c r o H) as (Hall & _).
  eapply Forall_impl; [|exact Hall]. intros a Fa. destruct (af_subject _ _ _ Fa) as (kept & Hne & Hk & Hin).
  exists kept. split; [exact Hne|]. split; [exact Hin|]. eapply Forall_impl; [|exact Hk]. exact HQ.
Qed.
