(* C10 - Entity._parse_request (Model/Request.v): what Ok means for each stage (check_sig, correctly_signed_message,
   loads, verify, unravel), their composition handed_over_only_if_valid, that the F16 repair and the optional content
   change nothing, the history of a long-lived receiver; and the witness configurations and documents of Props/C10.v *)
From PV Require Import Lib.Base Model.Sigver Model.CertSelect Model.Xmlsec Model.Request Proofs.CertSelect_lemmas.
Open Scope N_scope.

(* the exception name _loads lets through is not the one it raises in place of the others *)
Lemma E_TypeError_neq_IS : str_eqb (E "IncorrectlySigned") (E "TypeError") = false.
Proof. reflexivity. Qed.

(* the signature check of the repaired code (fixd = true): what Ok means *)
Lemma check_sig_fixed_ok pre c d nm ovc :
  check_sig pre true c d nm ovc = Ok tt ->
  exists certs cert,
    request_certs c d = Ok certs /\ In cert certs /\
    tool_verify (c_dupfail c) (d_tree d) nm (node_id_arg (root_id (d_tree d))) cert = true /\
    cert_ok c cert = true /\
    (pre = true -> enveloped_ok (d_tree d) nm (root_id (d_tree d)) = true).
Proof.
  unfold check_sig. destruct (request_certs c d) as [certs|e] eqn:Ec; [|discriminate].
  destruct (pre && negb (enveloped_ok (d_tree d) nm (root_id (d_tree d)))) eqn:Ep; [discriminate|].
  unfold verifying_cert.
  destruct (find (tool_verify (c_dupfail c) (d_tree d) nm (node_id_arg (root_id (d_tree d)))) certs) as [k|] eqn:Ef;
    [|discriminate].
  destruct (cert_ok c k) eqn:Eo; [|discriminate]. intros _.
  apply find_some in Ef as [Hin Hv].
  exists certs, k. repeat split; try assumption.
  intros ->. cbn [andb] in Ep. apply negb_false_iff in Ep. exact Ep.
Qed.

(* candidate certificates are the metadata's signing certificates of the issuer or, failing those, the embedded ones *)
Lemma request_certs_cases c d certs :
  request_certs c d = Ok certs ->
  (c_md_present c = true /\ md_certs (c_md c) (d_issuer d) SIGNING = Some certs) \/
  (c_only_md c = false /\ certs = d_embedded d).
Proof.
  unfold request_certs, candidate_certs. cbv zeta.
  destruct (if c_md_present c then match md_certs (c_md c) (d_issuer d) SIGNING with Some l => l | None => [] end else [])
    as [|x l] eqn:Ef; cbn [nilb andb]; intros H.
  - right. destruct (c_only_md c); cbn [negb] in H; [discriminate|]. split; [reflexivity|].
    destruct (d_embedded d); [discriminate|]. now injection H.
  - left. destruct (c_md_present c); [|discriminate]. destruct (md_certs (c_md c) (d_issuer d) SIGNING); [|discriminate].
    split; [reflexivity|]. injection H as <-. now rewrite Ef.
Qed.

(* ... so they come from the issuer's metadata when only_use_keys_in_metadata is on *)
Lemma request_certs_from_metadata c d certs cert :
  request_certs c d = Ok certs -> c_only_md c = true -> In cert certs -> issuer_signing_cert c d cert.
Proof.
  intros H Ho Hin. destruct (request_certs_cases _ _ _ H) as [[Hp Hm]|[Hf _]]; [|congruence].
  destruct (md_certs_spec _ _ _ _ Hm) as (i & e & Hi & He & Hspec).
  split; [exact Hp|]. exists i, e. split; [exact Hi|]. split; [exact He|]. apply Hspec. exact Hin.
Qed.

Lemma csm_ok pre fixd c k must ovc x d :
  correctly_signed_message pre fixd c k must ovc x = Ok d ->
  x = Xml d /\ root_name (d_tree d) = Some (kind_name k) /\
  ((root_signed (d_tree d) = false /\ must = false) \/
   (root_signed (d_tree d) = true /\ check_sig pre fixd c d (kind_name k) ovc = Ok tt)).
Proof.
  unfold correctly_signed_message. destruct x as [|d0]; [discriminate|].
  destruct (root_name (d_tree d0)) as [n|] eqn:En; [|discriminate].
  destruct (N.eqb n (kind_name k)) eqn:Ek; cbn [negb]; [|discriminate].
  apply N.eqb_eq in Ek. subst n.
  destruct (root_signed (d_tree d0)) eqn:Es; cbn [negb].
  - destruct (check_sig pre fixd c d0 (kind_name k) ovc) as [[]|e] eqn:Ec; [|discriminate].
    intros H. inversion H; subst d0. repeat split; try assumption. right. split; assumption.
  - destruct must; [discriminate|]. intros H. inversion H; subst d0.
    repeat split; try assumption. left. split; [assumption|reflexivity].
Qed.

Lemma loads_ok pre fixd c k must ovc x d :
  loads pre fixd c k must ovc x = Ok d ->
  correctly_signed_message pre fixd c k must ovc x = Ok d /\ d_valid d = true.
Proof.
  unfold loads. destruct (correctly_signed_message pre fixd c k must ovc x) as [d0|e].
  - destruct (d_valid d0) eqn:Ev; [|discriminate]. intros H. inversion H; subst d0. split; [reflexivity|assumption].
  - destruct (str_eqb e (E "TypeError")); discriminate.
Qed.

Lemma verify_ok c addrs d d' :
  verify c addrs d = Ok (Some d') ->
  d' = d /\ d_version d = Some V20 /\
  (d_destination d = None \/ d_destination d = Some [] \/ addrs = [] \/
   exists x, d_destination d = Some x /\ In (Some x) addrs) /\
  exists t, d_issue_instant d = Some t /\
            (c_now c - 86400 - c_slack c <= t /\ t < c_now c + 86400 + c_slack c)%Z.
Proof.
  unfold verify.
  destruct (d_version d) as [v|] eqn:Ev; cbn [negb]; [|discriminate].
  destruct (str_eqb v V20) eqn:E20; cbn [negb]; [|discriminate].
  apply str_eqb_eq in E20. subst v.
  destruct (truthy (d_destination d) && negb (nilb addrs) &&
            negb (match d_destination d with Some x => addr_mem x addrs | None => false end)) eqn:Ed; [discriminate|].
  destruct (d_issue_instant d) as [t|] eqn:Et; [|discriminate].
  destruct (issue_instant_ok c t) eqn:Ei; [|discriminate].
  intros H. inversion H; subst d'. split; [reflexivity|]. split; [reflexivity|]. split.
  - destruct (d_destination d) as [[|x0 x]|]; [right; left; reflexivity| |left; reflexivity]. right. right.
    destruct addrs as [|a l]; [left; reflexivity|]. right.
    cbn [truthy andb nilb negb] in Ed. apply negb_false_iff in Ed.
    exists (x0 :: x). split; [reflexivity|].
    unfold addr_mem in Ed. apply existsb_exists in Ed as (a0 & Hin & Ha).
    destruct a0 as [u|]; [|discriminate]. apply str_eqb_eq in Ha. subst u. exact Hin.
  - exists t. split; [reflexivity|]. unfold issue_instant_ok in Ei.
    apply andb_prop in Ei as [H1 H2]. apply Z.leb_le in H1. apply Z.ltb_lt in H2. split; assumption.
Qed.

(* unravel hands the loader the document [d] only when the wire carried exactly [d] under a binding that can carry it *)
Lemma unravel_doc k b w d : unravel k b w = Ok (Xml d) -> carries k b w d.
Proof.
  unfold unravel, carries. destruct b; try discriminate.
  3: { destruct (kind_soap k) eqn:Eks; cbn [negb]; [|discriminate].
       destruct w as [| |[| | | |d0]]; try discriminate.
       destruct (root_name (d_tree d0)) as [n|]; [|discriminate].
       destruct (N.eqb n (kind_name k)); [|discriminate].
       intros [= <-]. right. repeat split; assumption. }
  (* every other binding hands on the text it decoded *)
  all: destruct w as [|x|s]; try discriminate; intros [= ->]; left; repeat split; discriminate.
Qed.

Lemma parse_request_ok pre fixd c k b w d :
  parse_request pre fixd c k b w = Ok (Some d) ->
  unravel k b w = Ok (Xml d) /\
  correctly_signed_message pre fixd c k (c_want_signed c || c_only_valid_cert c) (c_only_valid_cert c) (Xml d) = Ok d /\
  d_valid d = true /\
  verify c (receiver_addrs c (kind_service k) b) d = Ok (Some d).
Proof.
  unfold parse_request. destruct (unravel k b w) as [x|e] eqn:Eu; [|discriminate].
  destruct (loads pre fixd c k (c_want_signed c || c_only_valid_cert c) (c_only_valid_cert c) x) as [d0|e] eqn:El;
    [|discriminate].
  intros Hv. destruct (verify_ok _ _ _ _ Hv) as (Hd & _). subst d0.
  apply loads_ok in El as [Hc Hvalid]. destruct (csm_ok _ _ _ _ _ _ _ _ Hc) as (Hx & _). subst x.
  repeat split; assumption.
Qed.

(* a handed-over request that carries a signature passed the signature check *)
Lemma parse_request_signed pre fixd c k b w d :
  parse_request pre fixd c k b w = Ok (Some d) -> root_signed (d_tree d) = true ->
  check_sig pre fixd c d (kind_name k) (c_only_valid_cert c) = Ok tt.
Proof.
  intros H Hs. destruct (parse_request_ok _ _ _ _ _ _ _ H) as (_ & Hc & _).
  destruct (csm_ok _ _ _ _ _ _ _ _ Hc) as (_ & _ & [[Hns _]|[_ Hcs]]); [congruence|exact Hcs].
Qed.

Theorem handed_over_only_if_valid pre c k b w d :
  parse_request pre true c k b w = Ok (Some d) ->
  carries k b w d /\
  root_name (d_tree d) = Some (kind_name k) /\
  d_valid d = true /\
  d_version d = Some V20 /\
  destination_ok c k b d /\
  (exists t, d_issue_instant d = Some t /\ in_window c t) /\
  (root_signed (d_tree d) = true ->
     exists certs cert,
       request_certs c d = Ok certs /\ In cert certs /\
       tool_verify (c_dupfail c) (d_tree d) (kind_name k) (node_id_arg (root_id (d_tree d))) cert = true /\
       cert_ok c cert = true /\
       (c_only_md c = true -> issuer_signing_cert c d cert)) /\
  (c_want_signed c = true \/ c_only_valid_cert c = true -> root_signed (d_tree d) = true).
Proof.
  intros H. destruct (parse_request_ok _ _ _ _ _ _ _ H) as (Hu & Hc & Hvalid & Hv).
  destruct (csm_ok _ _ _ _ _ _ _ _ Hc) as (_ & Hroot & Hsig).
  destruct (verify_ok _ _ _ _ Hv) as (_ & Hver & Hdest & Htime).
  split; [exact (unravel_doc _ _ _ _ Hu)|]. split; [exact Hroot|]. split; [exact Hvalid|]. split; [exact Hver|]. split; [exact Hdest|].
  split; [exact Htime|]. split.
  - intros Hs.
    destruct (check_sig_fixed_ok _ _ _ _ _ (parse_request_signed _ _ _ _ _ _ _ H Hs)) as (certs & cert & Hrc & Hin & Htv & Hok & _).
    exists certs, cert. split; [exact Hrc|]. split; [exact Hin|]. split; [exact Htv|]. split; [exact Hok|].
    intros Ho. exact (request_certs_from_metadata _ _ _ _ Hrc Ho Hin).
  - intros Hw. destruct Hsig as [[_ Hm]|[Hs _]]; [|exact Hs].
    destruct Hw as [Hw|Hw]; rewrite Hw in Hm; [cbn in Hm; discriminate|rewrite orb_true_r in Hm; discriminate].
Qed.

(* the F16 repair changes nothing unless only_valid_cert is on *)
Lemma check_sig_fix_agrees pre c d nm :
  check_sig pre false c d nm false = check_sig pre true c d nm false.
Proof.
  unfold check_sig. destruct (request_certs c d) as [certs|e]; [|reflexivity].
  destruct (pre && negb (enveloped_ok (d_tree d) nm (root_id (d_tree d)))); [reflexivity|].
  destruct (verifying_cert c (d_tree d) nm (root_id (d_tree d)) certs) as [k|]; reflexivity.
Qed.

Lemma parse_request_fix_agrees pre c k b w :
  c_only_valid_cert c = false ->
  parse_request pre false c k b w = parse_request pre true c k b w.
Proof.
  intros Ho. unfold parse_request, loads, correctly_signed_message. rewrite Ho.
  destruct (unravel k b w) as [x|e]; [|reflexivity].
  destruct x as [|d]; [reflexivity|].
  destruct (root_name (d_tree d)) as [n|]; [|reflexivity].
  destruct (negb (N.eqb n (kind_name k))); [reflexivity|].
  destruct (negb (root_signed (d_tree d))); [reflexivity|].
  rewrite check_sig_fix_agrees. reflexivity.
Qed.

Definition w_sp : str := s2l "https://sp.example.org/sp".
Definition w_sso : str := s2l "https://idp.example.org/sso/post".
Definition w_cfg (want ovc : bool) : rcfg :=
  Build_rcfg CIdp
    [(CIdp, [(s2l "single_sign_on_service",
              [EP w_sso (s2l "urn:oasis:names:tc:SAML:2.0:bindings:HTTP-POST");
               EP (s2l "https://idp.example.org/sso/redirect") (s2l "urn:oasis:names:tc:SAML:2.0:bindings:HTTP-Redirect")])])]
    want ovc 60%Z 1790000000%Z true
    [(w_sp, [[{| kd_use := Some SIGNING; kd_certs := [3; 5] |}]])] true None true.
Definition w_id : str := s2l "rq-1".
Definition w_content : tree := El 1 (Some w_id) 2 [El 9 None 1 []].
Definition w_sig : tree := Sg [(HASH :: w_id, w_content)] 5 true.
(* the genuine signed AuthnRequest, the same with an edited attribute (payload 2 -> 3), and a forged request (other
   ID and content) carrying the signature and, inside Extensions, the genuine content *)
Definition w_genuine : tree := El 1 (Some w_id) 2 [El 9 None 1 []; w_sig].
Definition w_tampered : tree := El 1 (Some w_id) 3 [El 9 None 1 []; w_sig].
Definition w_wrapped : tree := El 1 (Some (s2l "rq-evil")) 15 [El 9 None 1 []; w_sig; El 16 None 7 [w_content]].
Definition w_unsigned : tree := w_content.
Definition w_doc (t : tree) (dest : option str) (dt : Z) : reqdoc :=
  Build_reqdoc t (Some V20) dest (Some (1790000000 + dt)%Z) true (Some w_sp) [5] [].
Definition w_run (pre fixd want ovc : bool) (d : reqdoc) : result (option reqdoc) :=
  parse_request pre fixd (w_cfg want ovc) KAuthn BPost (WText (Xml d)).
(* an attribute authority whose aa section wants signed requests, and an unsigned AttributeQuery *)
Definition w_aa_secs : opt_sections := [(CAa, (true, false))].
Definition w_query : reqdoc :=
  Build_reqdoc (El 3 (Some w_id) 4 [El 9 None 1 []; El 11 None 5 []]) (Some V20) None (Some 1790000000%Z) true (Some w_sp) [] [].

(* kind-specific optional content: no step reads it, for any kind *)
Lemma unravel_set_opts o k b w :
  unravel k b (wire_set_opts o w) =
  match unravel k b w with Ok x => Ok (xml_set_opts o x) | Err e => Err e end.
Proof.
  unfold unravel. destruct w as [|x|[| | | |d]]; destruct b; cbn [wire_set_opts]; try reflexivity;
    try (destruct (kind_soap k); reflexivity).
  destruct (kind_soap k); cbn [negb]; [|reflexivity].
  cbn [set_opts d_tree].
  destruct (root_name (d_tree d)) as [n|]; [|reflexivity].
  destruct (N.eqb n (kind_name k)); reflexivity.
Qed.

Lemma check_sig_set_opts pre fixd c d nm ovc o :
  check_sig pre fixd c (set_opts o d) nm ovc = check_sig pre fixd c d nm ovc.
Proof. reflexivity. Qed.

Lemma loads_set_opts pre fixd c k must ovc x o :
  loads pre fixd c k must ovc (xml_set_opts o x) =
  match loads pre fixd c k must ovc x with Ok d => Ok (set_opts o d) | Err e => Err e end.
Proof.
  unfold loads, correctly_signed_message. destruct x as [|d]; [reflexivity|].
  cbn [xml_set_opts]. change (d_tree (set_opts o d)) with (d_tree d).
  destruct (root_name (d_tree d)) as [n|]; [|reflexivity].
  destruct (negb (N.eqb n (kind_name k))); [reflexivity|].
  destruct (negb (root_signed (d_tree d))).
  - destruct must; [reflexivity|]. change (d_valid (set_opts o d)) with (d_valid d). destruct (d_valid d); reflexivity.
  - rewrite check_sig_set_opts. destruct (check_sig pre fixd c d n ovc) as [u|e].
    + change (d_valid (set_opts o d)) with (d_valid d). destruct (d_valid d); reflexivity.
    + destruct (str_eqb e (E "TypeError")); reflexivity.
Qed.

Lemma verify_set_opts c addrs d o :
  verify c addrs (set_opts o d) = res_set_opts o (verify c addrs d).
Proof.
  unfold verify. cbn [set_opts d_version d_destination d_issue_instant].
  destruct (negb (match d_version d with Some v => str_eqb v V20 | None => false end)); [reflexivity|].
  destruct (truthy (d_destination d) && negb (nilb addrs) &&
            negb (match d_destination d with Some x => addr_mem x addrs | None => false end)); [reflexivity|].
  destruct (d_issue_instant d) as [t|]; [|reflexivity].
  destruct (issue_instant_ok c t); reflexivity.
Qed.

(* refusal form of handed_over_only_if_valid, over the kind parameter: none of the reasons to refuse is
   lifted for some kind or by some optional content *)
Theorem no_kind_specific_exception pre c k b w d :
  must_be_refused c k b d -> parse_request pre true c k b w <> Ok (Some d).
Proof.
  intros Hr H.
  destruct (handed_over_only_if_valid _ _ _ _ _ _ H) as (_ & Hroot & Hvalid & Hver & Hdest & (t & Ht & Hw) & _ & Hwant).
  destruct Hr as [Hi|[(x & Hx & Hne & Ha & Hnin)|[(Hwt & Hs)|[Hv|[Hv|Hn]]]]].
  - exact (Hi t Ht Hw).
  - destruct Hdest as [Hd|[Hd|[Hd|(y & Hy & Hin)]]].
    + congruence.
    + rewrite Hx in Hd. inversion Hd. congruence.
    + congruence.
    + rewrite Hx in Hy. inversion Hy; subst y. exact (Hnin Hin).
  - rewrite (Hwant Hwt) in Hs. discriminate.
  - exact (Hv Hver).
  - congruence.
  - exact (Hn Hroot).
Qed.

(* an entry ((k, b, w), d) of a history: _parse_request on that message alone hands over d *)
Definition handed_by (pre fixd : bool) (c : rcfg) (e : op * reqdoc) : Prop :=
  match e with ((k, b, w), d) => parse_request pre fixd c k b w = Ok (Some d) end.

(* what one message adds to the history *)
Definition handed_of (pre fixd : bool) (c : rcfg) (o : op) : list (op * reqdoc) :=
  let '(k, b, w) := o in match parse_request pre fixd c k b w with Ok (Some d) => [(o, d)] | _ => [] end.

(* what came before changes nothing: each message contributes on its own *)
Lemma run_history_eq pre fixd c ops : forall handed,
  run_history pre fixd c ops handed = handed ++ flat_map (handed_of pre fixd c) ops.
Proof.
  induction ops as [|[[k b] w] r IH]; intros handed; cbn [run_history flat_map handed_of]; [now rewrite app_nil_r|].
  rewrite IH. destruct (parse_request pre fixd c k b w) as [[d|]|e]; try reflexivity. now rewrite <- app_assoc.
Qed.

(* handed over = received, and handed over by _parse_request on that message alone *)
Lemma In_run_history pre fixd c ops o d :
  In (o, d) (run_history pre fixd c ops []) <-> In o ops /\ handed_by pre fixd c (o, d).
Proof.
  rewrite run_history_eq. cbn [app]. rewrite in_flat_map. split.
  - intros ([[k b] w] & Hin & H). cbn [handed_of] in H.
    destruct (parse_request pre fixd c k b w) as [[d'|]|e] eqn:Ep; try contradiction.
    destruct H as [[= <- <-]|[]]. split; [exact Hin|exact Ep].
  - intros [Hin H]. exists o. split; [exact Hin|]. destruct o as [[k b] w]. cbn [handed_of handed_by] in *. rewrite H. now left.
Qed.

(* witnesses: a LogoutRequest with NotOnOrAfter an hour ahead *)
Definition w_slo : str := s2l "https://idp.example.org/slo/post".
Definition w_lcfg (want : bool) : rcfg :=
  Build_rcfg CIdp
    [(CIdp, [(s2l "single_logout_service", [EP w_slo (s2l "urn:oasis:names:tc:SAML:2.0:bindings:HTTP-POST")])])]
    want false 60%Z 1790000000%Z true
    [(w_sp, [[{| kd_use := Some SIGNING; kd_certs := [5] |}]])] true None true.
Definition w_logout (dest : option str) (dt : Z) (o : list optattr) : reqdoc :=
  Build_reqdoc (El 2 (Some w_id) 6 [El 9 None 1 []; El 12 None 3 []]) (Some V20) dest (Some (1790000000 + dt)%Z) true (Some w_sp) [] o.
Definition w_noa_future : list optattr := [(s2l "NotOnOrAfter", Some (1790000000 + 3600)%Z); (s2l "Reason", None)].
