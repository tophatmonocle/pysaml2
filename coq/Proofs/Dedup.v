(* Proofs/Dedup.v — `res.append(cert) unless already there`, over the use-matching key descriptors
   (MetaData.certs / extract_certs, mdstore.py): stated once for any certificate type with a decidable equality
   and any key-descriptor record.  The loops of Model/CertSelect.v and Model/CertValidity.v are instances by
   conversion, the one of Model/MdStore.v by a fold. *)
From PV Require Import Lib.Base.

Section Dedup.
  Context {C K : Type} (eqb : C -> C -> bool) (eqb_eq : forall a b, eqb a b = true <-> a = b)
          (kuse : K -> option str) (kcerts : K -> list C).

  Fixpoint gadd_new (res cs : list C) : list C :=
    match cs with
    | [] => res
    | c :: cs' => if existsb (eqb c) res then gadd_new res cs' else gadd_new (res ++ [c]) cs'
    end.

  Fixpoint gextract (use : str) (r : list K) (res : list C) : list C :=
    match r with
    | [] => res
    | kd :: rest =>
        gextract use rest (if match kuse kd with Some u => str_eqb u use | None => true end
                           then gadd_new res (kcerts kd) else res)
    end.

  Lemma gmem_In x l : existsb (eqb x) l = true <-> In x l.
  Proof.
    rewrite existsb_exists. split.
    - intros (y & Hy & He). apply eqb_eq in He. now subst.
    - intros H. exists x. split; [exact H|now apply eqb_eq].
  Qed.

  Lemma gadd_new_In cs : forall res x, In x (gadd_new res cs) <-> In x res \/ In x cs.
  Proof.
    induction cs as [|c cs IH]; intros res x; cbn [gadd_new In]; [tauto|].
    destruct (existsb (eqb c) res) eqn:M; rewrite IH.
    - apply gmem_In in M. split; [tauto|]. intros [H|[<-|H]]; auto.
    - rewrite in_app_iff. cbn [In]. tauto.
  Qed.

  Lemma gextract_In use r : forall res x,
    In x (gextract use r res) <->
    In x res \/ exists kd, In kd r /\ match kuse kd with Some u => str_eqb u use | None => true end = true /\
                           In x (kcerts kd).
  Proof.
    induction r as [|kd rest IH]; intros res x; cbn [gextract].
    - split; [now left|intros [H|(kd & [] & _)]; exact H].
    - rewrite IH. destruct (match kuse kd with Some u => str_eqb u use | None => true end) eqn:U.
      + rewrite gadd_new_In. split.
        * intros [[H|H]|(k & Hk & Hu & Hx)]; [now left|right; exists kd; repeat split; auto; now left|
                                              right; exists k; repeat split; auto; now right].
        * intros [H|(k & [<-|Hk] & Hu & Hx)]; [left; now left|left; now right|right; exists k; auto].
      + split.
        * intros [H|(k & Hk & Hu & Hx)]; [now left|right; exists k; repeat split; auto; now right].
        * intros [H|(k & [<-|Hk] & Hu & Hx)]; [now left|congruence|right; exists k; auto].
  Qed.
  (* the answer for an entity: the loop restarted for each group of key descriptors *)
  Lemma gextract_flat_In use (e : list (list K)) x :
    In x (flat_map (fun r => gextract use r []) e) <->
    exists r kd, In r e /\ In kd r /\ match kuse kd with Some u => str_eqb u use | None => true end = true /\
                 In x (kcerts kd).
  Proof.
    rewrite in_flat_map. split.
    - intros (r & Hr & Hx). apply gextract_In in Hx as [[]|(kd & Hk & Hu & Hc)]. now exists r, kd.
    - intros (r & kd & Hr & Hk & Hu & Hc). exists r. split; [exact Hr|]. apply gextract_In. right. now exists kd.
  Qed.

  Lemma gadd_new_NoDup cs : forall res, NoDup res -> NoDup (gadd_new res cs).
  Proof.
    induction cs as [|c cs IH]; intros res Hnd; cbn [gadd_new]; [exact Hnd|].
    destruct (existsb (eqb c) res) eqn:M; apply IH; [exact Hnd|].
    apply (NoDup_Add (Add_app c res [])). rewrite app_nil_r. split; [exact Hnd|].
    intros H. apply gmem_In in H. congruence.
  Qed.

  Lemma gextract_NoDup use r : forall res, NoDup res -> NoDup (gextract use r res).
  Proof.
    induction r as [|kd rest IH]; intros res H; cbn [gextract]; [exact H|]. apply IH.
    destruct (match kuse kd with Some u => str_eqb u use | None => true end); [now apply gadd_new_NoDup|exact H].
  Qed.
End Dedup.
