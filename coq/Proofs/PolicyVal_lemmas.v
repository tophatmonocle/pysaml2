(* Proofs/PolicyVal_lemmas.v — identity values that are not text (Model/PolicyVal.v).  The loops of
   filter_attribute_value_assertions over typed values are plain filters when every value is a text and raise
   TypeError otherwise; hence every typed function is its text counterpart of Model/Policy.v under the matcher
   [vmatches], or raises TypeError, and the theorems of Policy_lemmas.v carry over to the typed entry points. *)
From PV Require Import Lib.Base Model.Policy Proofs.Policy_lemmas Model.PolicyVal.
Open Scope N_scope.

Lemma enc_dec s : enc (dec s) = s.
Proof. destruct s as [|c p]; [reflexivity|]. cbn. destruct (N.eqb_spec c SENT) as [->|_]; reflexivity. Qed.

Lemma dec_text s : is_other s = false -> dec s = VText s.
Proof. destruct s as [|c p]; [reflexivity|]. cbn. intros H; rewrite H. reflexivity. Qed.

Lemma dec_other s : is_other s = true -> exists p, dec s = VOther p.
Proof. destruct s as [|c p]; [discriminate|]. cbn. intros H; rewrite H. eexists; reflexivity. Qed.

(* a carried value that is not marked is the text itself *)
Lemma enc_not_other v : is_other (enc v) = false -> v = VText (enc v).
Proof. destruct v as [s|p]; [reflexivity|discriminate]. Qed.

Definition is_text (v : value) : bool := match v with VText _ => true | VOther _ => false end.
(* restr.match(val) on a text *)
Definition tmatch (matches : str -> str -> bool) (rx : str) (v : value) : bool :=
  match v with VText s => matches rx s | VOther _ => false end.

Section ValueFilter.
  Variable matches : str -> str -> bool.

  (* the list filter over typed values: plain filters when every value is a text, TypeError otherwise *)
  Lemma vals_loop_eq rx vals :
    vals_loop matches rx vals =
    if forallb is_text vals then Ok (filter (tmatch matches rx) vals) else Err TypeError.
  Proof.
    induction vals as [|[s|p] r IH]; cbn [vals_loop match_value bind forallb is_text andb filter tmatch];
      [reflexivity| |reflexivity].
    rewrite IH. destruct (forallb is_text r); reflexivity.
  Qed.

  Lemma filter_values_v_eq rxs vals :
    filter_values_v matches rxs vals =
    match rxs with
    | [] => Ok []
    | _ :: _ => if forallb is_text vals then Ok (flat_map (fun rx => filter (tmatch matches rx) vals) rxs)
                else Err TypeError
    end.
  Proof.
    induction rxs as [|rx r IH]; cbn [filter_values_v flat_map]; [reflexivity|].
    rewrite vals_loop_eq, IH. destruct (forallb is_text vals); [|reflexivity].
    destruct r; cbn [bind flat_map]; reflexivity.
  Qed.

  Lemma filter_values_v_Ok rxs vals out :
    filter_values_v matches rxs vals = Ok out -> out = flat_map (fun rx => filter (tmatch matches rx) vals) rxs.
  Proof.
    rewrite filter_values_v_eq. destruct rxs; [intros [= <-]; reflexivity|].
    destruct (forallb is_text vals); [intros [= <-]; reflexivity|discriminate].
  Qed.

  Lemma tmatch_true rx v : tmatch matches rx v = true <-> exists s, v = VText s /\ matches rx s = true.
  Proof.
    destruct v as [s|p]; cbn [tmatch]; split.
    - intros H. exists s. split; [reflexivity|exact H].
    - intros (s' & [= <-] & H). exact H.
    - discriminate.
    - intros (s' & [=] & _).
  Qed.

  Lemma not_all_text vals : forallb is_text vals = false <-> exists p, In (VOther p) vals.
  Proof.
    split.
    - induction vals as [|[s|p] r IH]; cbn [forallb is_text andb]; [discriminate| |exists p; left; reflexivity].
      intros H. destruct (IH H) as [p Hp]. exists p. right; exact Hp.
    - intros [p Hp]. destruct (forallb is_text vals) eqn:E; [|reflexivity].
      rewrite forallb_forall in E. discriminate (E _ Hp).
  Qed.

  Lemma filter_values_v_err rxs vals e :
    filter_values_v matches rxs vals = Err e -> e = TypeError /\ exists p, In (VOther p) vals.
  Proof.
    rewrite filter_values_v_eq. destruct rxs; [discriminate|].
    destruct (forallb is_text vals) eqn:E; [discriminate|]. intros [= <-]. split; [reflexivity|apply not_all_text; exact E].
  Qed.

  (* on the carried dict the text filters are those of the matcher [vmatches] *)
  Lemma filter_carried rx vals :
    map enc (filter (tmatch matches rx) (map dec vals)) = filter (vmatches matches rx) vals.
  Proof.
    induction vals as [|s r IH]; [reflexivity|]. cbn [map filter].
    assert (E : tmatch matches rx (dec s) = vmatches matches rx s).
    { unfold vmatches. destruct (is_other s) eqn:Eo; [apply dec_other in Eo as [q ->]|rewrite (dec_text s Eo)]; reflexivity. }
    rewrite E. destruct (vmatches matches rx s); cbn [map]; rewrite IH, ?enc_dec; reflexivity.
  Qed.

  Lemma flat_filter_carried rxs vals :
    map enc (flat_map (fun rx => filter (tmatch matches rx) (map dec vals)) rxs) =
    flat_map (fun rx => filter (vmatches matches rx) vals) rxs.
  Proof.
    induction rxs as [|rx r IH]; [reflexivity|]. cbn [flat_map]. rewrite map_app, filter_carried, IH. reflexivity.
  Qed.

  (* each layer: the answer of the text model under [vmatches], or TypeError *)
  Lemma favs_entry_t_spec rest e :
    match favs_entry_t matches rest e with
    | Ok x => x = favs_entry (vmatches matches) rest e
    | Err e' => e' = TypeError
    end.
  Proof.
    unfold favs_entry_t, favs_entry. destruct (lookup (lower (fst e)) rest) as [[rxs|]|]; try reflexivity.
    destruct (filter_values_v matches rxs (map dec (snd e))) as [out|e'] eqn:E; cbn [bind].
    - rewrite (filter_values_v_Ok _ _ _ E), flat_filter_carried. reflexivity.
    - exact (proj1 (filter_values_v_err _ _ _ E)).
  Qed.

  Lemma favs_loop_t_spec rest a :
    match favs_loop_t matches rest a with
    | Ok out => out = filter_map (favs_entry (vmatches matches) rest) a
    | Err e => e = TypeError
    end.
  Proof.
    induction a as [|e r IH]; cbn [favs_loop_t filter_map]; [reflexivity|].
    pose proof (favs_entry_t_spec rest e) as He.
    destruct (favs_entry_t matches rest e) as [x|e']; cbn [bind]; [subst x|exact He].
    destruct (favs_loop_t matches rest r) as [r'|e']; cbn [bind]; [subst r'; reflexivity|exact IH].
  Qed.

  (* favs_t is favs with the marked values matching nothing, or raises TypeError *)
  Lemma favs_t_spec a rest :
    match favs_t matches a rest with
    | Ok out => out = favs (vmatches matches) a rest
    | Err e => e = TypeError
    end.
  Proof. unfold favs_t, favs. destruct rest as [[|r0 r]|]; try reflexivity. apply favs_loop_t_spec. Qed.

End ValueFilter.

Section ValueRelease.
  Variable matches : str -> str -> bool.
  Variable lname : str -> str -> option str.

  (* Policy.filter with typed values: an answer is the answer of the text model whose matcher lets no marked value
     through; an error is an error of the text model or the TypeError of the value loop *)
  Definition refines (rt r : result ava) : Prop :=
    match rt with Ok out => r = Ok out | Err e => e = TypeError \/ r = Err e end.

  Lemma pfilter_t_refines p a sp md rq op :
    refines (pfilter_t matches lname p a sp md rq op) (pfilter (vmatches matches) lname p a sp md rq op).
  Proof.
    unfold pfilter_t, pfilter.
    destruct (get_entity_categories p sp md rq) as [ecr|]; cbn [bind]; [|right; reflexivity].
    match goal with |- refines (bind ?X _) _ => destruct X as [a1|] end; cbn [bind]; [|right; reflexivity].
    destruct (get_attribute_restrictions p sp) as [ar|]; cbn [bind]; [|right; reflexivity].
    pose proof (favs_t_spec matches (match a1 with Some x => x | None => a end) ar) as H.
    destruct (favs_t matches _ ar); cbn [refines]; [subst; reflexivity|left; exact H].
  Qed.

  Lemma restrict_with_t_refines be p a sp md :
    refines (restrict_with_t matches lname be p a sp md) (restrict_with (vmatches matches) lname be p a sp md).
  Proof.
    unfold restrict_with_t, restrict_with.
    destruct md as [m|]; [destruct (m_req m) as [[rq op]|]; [destruct be|]|]; apply pfilter_t_refines.
  Qed.

  Lemma apply_policy_with_t_refines be p a sp md :
    refines (apply_policy_with_t matches lname be p a sp md) (apply_policy_with (vmatches matches) lname be p a sp md).
  Proof.
    unfold apply_policy_with_t, apply_policy_with. pose proof (restrict_with_t_refines be p a sp md) as H.
    destruct (restrict_with_t matches lname be p a sp md) as [f|e]; cbn [bind refines] in *.
    - rewrite H. reflexivity.
    - destruct H as [H|H]; [left; exact H|right; rewrite H; reflexivity].
  Qed.

  Lemma setup_assertion_t_eq p identity sp md b :
    setup_assertion_t matches lname p identity sp md b =
    answer (apply_policy_with_t matches lname false p identity sp md)
           (if b then asserted_or_raised (apply_policy_with_t matches lname true p identity sp md) else ErrorResponse).
  Proof. reflexivity. Qed.

  Lemma setup_assertion_t_every_outcome p identity sp md b :
    outcome_ok (vmatches matches) lname p sp md identity (setup_assertion_t matches lname p identity sp md b).
  Proof.
    rewrite setup_assertion_t_eq. pose proof (apply_policy_with_t_refines false p identity sp md) as R0.
    apply answer_cases.
    - intros a E. rewrite E in R0. exact (apply_policy_permitted _ _ _ _ _ _ _ R0).
    - intros E. destruct b; [|exact I]. rewrite E in R0.
      destruct R0 as [R0|R0]; [destruct (TypeError_not_MissingValue (eq_sym R0))|]. apply apply_policy_Err in R0.
      pose proof (apply_policy_with_t_refines true p identity sp md) as R1.
      destruct (apply_policy_with_t matches lname true p identity sp md) as [a|e']; [|exact I].
      exact (best_effort_permitted _ _ _ _ _ _ _ R0 R1).
    - intros e _ _. exact I.
  Qed.


  Lemma attribute_response_t_every_outcome p identity sp md :
    outcome_ok (vmatches matches) lname p sp md identity (attribute_response_t matches lname (Some p) identity sp md).
  Proof.
    unfold attribute_response_t. destruct identity as [|e r]; [apply permitted_nil|].
    pose proof (apply_policy_with_t_refines false p (e :: r) sp md) as R.
    destruct (apply_policy_with_t matches lname false p (e :: r) sp md) as [a|x]; [|exact I].
    exact (apply_policy_permitted _ _ _ _ _ _ _ R).
  Qed.

  (* read back at the typed level: a released value of an attribute with an expression list IS a text of the
     identity that a single expression of the list matches *)
  Definition released_texts_only (p : cpolicy) (sp : str) (vid : vava) (a : ava) : Prop :=
    forall r, get_attribute_restrictions p sp = Ok (Some r) -> r <> [] ->
      forall n vs rxs, In (n, vs) a -> lookup (lower n) r = Some (Some rxs) ->
        forall s, In s vs -> exists ivs rx, In (n, ivs) vid /\ In (VText s) ivs /\ In rx rxs /\ matches rx s = true.

  Lemma permitted_released_texts_only p sp md vid a :
    permitted (vmatches matches) lname p sp md (enc_ident vid) a -> released_texts_only p sp vid a.
  Proof.
    intros [Hid [Har _]] r Hr Hne n vs rxs Hin Hl s Hs.
    destruct (Har r Hr Hne n vs Hin) as [rr [Hl' Hm]]. rewrite Hl in Hl'. injection Hl' as Hl'. subst rr.
    destruct (Hm rxs eq_refl s Hs) as [rx [Hrx Hv]].
    unfold vmatches in Hv. apply andb_true_iff in Hv as [Ho Hv]. apply negb_true_iff in Ho.
    destruct (Hid n vs Hin) as [ivs' [Hi Hincl]].
    unfold enc_ident in Hi. apply in_map_iff in Hi as [[n0 ivs] [Heq Hi]]. cbn in Heq. injection Heq as Hn Hivs. subst n0 ivs'.
    specialize (Hincl s Hs). apply in_map_iff in Hincl as [v [Hv' Hinv]]. subst s.
    exists ivs, rx. split; [exact Hi|]. split; [|split; [exact Hrx|exact Hv]].
    rewrite <- (enc_not_other v Ho). exact Hinv.
  Qed.

  Definition outcome_texts_only (p : cpolicy) (sp : str) (vid : vava) (o : outcome) : Prop :=
    match o with Asserted a => released_texts_only p sp vid a | _ => True end.

  Lemma outcome_ok_texts_only p sp md vid o :
    outcome_ok (vmatches matches) lname p sp md (enc_ident vid) o -> outcome_texts_only p sp vid o.
  Proof. destruct o as [a| |e]; cbn; try tauto. apply permitted_released_texts_only. Qed.
End ValueRelease.

(* the mistake the property excludes, judging str(value) and keeping the value: the witnesses of Props/C07.v *)
Definition witness_rx : str := s2l "\d+$".
Definition witness_matches : str -> str -> bool := tbl_matches [(witness_rx, s2l "5")].
Definition witness_value : value := VOther (s2l "int" ++ SENT :: s2l "5").

