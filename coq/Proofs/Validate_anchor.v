(* Proofs/Validate_anchor.v - C13, two things:
   no general escape hatch: extension attributes (xsi:nil ...) of an element whose class is not of the
   AttributeValue family never influence valid_instance / verify, at any depth (Section NoEscape);
   the Gallina lexical validators test the WHOLE value, anchored at both ends (booleans, integers). *)
From PV Require Import Lib.Base Model.Schema Model.Validate Proofs.Schema_lemmas.
Open Scope N_scope.

Section NoEscape.
  Variable prim : str -> str -> bool.
  Variable keys : list str.
  Variable S : schema.
  Variables (NIL : N).
  Variables (M_SUBJECT M_ATTRST M_STATEMENT M_AUTHNST M_AUTHZST M_ONETIME M_PROXY M_DECL M_DECLREF M_ADDRESS M_DNS : N).
  Notation verify := (verify prim keys S NIL M_SUBJECT M_ATTRST M_STATEMENT M_AUTHNST M_AUTHZST M_ONETIME M_PROXY M_DECL M_DECLREF M_ADDRESS M_DNS).
  Notation valid_instance := (valid_instance prim keys S NIL M_SUBJECT M_ATTRST M_STATEMENT M_AUTHNST M_AUTHZST M_ONETIME M_PROXY M_DECL M_DECLREF M_ADDRESS M_DNS).

  (* the class runs AttributeValueBase.verify() *)
  Definition av_class (c : N) : bool :=
    match find_row S c with Some r => str_eqb (k_verify r) V_AVB | None => false end.

  (* any rewriting g of the extension attributes of every element outside the AttributeValue family:
     adding xsi:nil = true / 1, removing it, replacing the whole dictionary ... *)
  Variable g : N -> list (N * str) -> list (N * str).
  Fixpoint rewrite_xattrs (i : inst) : inst :=
    match i with
    | INone => INone
    | I c a t K xa xe =>
        I c a t (map (fun p => (fst p, rewrite_xattrs (snd p))) K) (if av_class c then xa else g c xa) xe
    end.

  Lemma kids_rewrite (K : list (N * inst)) :
    Forall (fun p => verify (rewrite_xattrs (snd p)) = verify (snd p)) K ->
    map (fun p => let '(m, k) := p in (m, verify k)) (map (fun p => (fst p, rewrite_xattrs (snd p))) K) =
    map (fun p => let '(m, k) := p in (m, verify k)) K.
  Proof.
    induction 1 as [|[m k] K Hk _ IH]; [reflexivity|].
    cbn [map fst snd] in *. rewrite Hk, IH. reflexivity.
  Qed.

  Theorem verify_rewrite_xattrs : forall i, verify (rewrite_xattrs i) = verify i.
  Proof.
    apply inst_ind'; [reflexivity|].
    intros c a t K xa xe IH. cbn [rewrite_xattrs Validate.verify].
    rewrite (kids_rewrite K IH). unfold av_class.
    destruct (find_row S c) as [r|] eqn:Hrow; [|reflexivity].
    destruct (str_eqb (k_verify r) V_AVB) eqn:Hav; [reflexivity|].
    unfold Validate.verify_node, Validate.override_pre. rewrite Hav. destruct (str_eqb (k_verify r) []); reflexivity.
  Qed.

  (* valid_instance does not look at the extension attributes of the root at all - whatever its class *)
  Theorem valid_instance_rewrite_xattrs : forall i, valid_instance (rewrite_xattrs i) = valid_instance i.
  Proof.
    intros [|c a t K xa xe]; [reflexivity|].
    cbn [rewrite_xattrs Validate.valid_instance].
    rewrite (kids_rewrite K).
    - reflexivity.
    - apply Forall_forall. intros p _. apply verify_rewrite_xattrs.
  Qed.

  Theorem valid_instance_root_xattrs c a t K xa xa' xe :
    valid_instance (I c a t K xa xe) = valid_instance (I c a t K xa' xe).
  Proof. reflexivity. Qed.
End NoEscape.

Definition BOOL_WORDS : list str := [s2l "true"; s2l "false"; s2l "0"; s2l "1"].

Lemma boolean_whole v : prim_boolean v = true -> In (lower_ascii v) BOOL_WORDS.
Proof. apply mem_str_In. Qed.

(* a is b with something missing at the end *)
Fixpoint proper_prefix (a b : str) : bool :=
  match a, b with
  | [], _ :: _ => true
  | x :: a', y :: b' => (x =? y) && proper_prefix a' b'
  | _, _ => false
  end.
Definition prefix_free (W : list str) : bool :=
  forallb (fun w => forallb (fun w' => negb (proper_prefix w w')) W) W.

Lemma proper_prefix_app w x l : proper_prefix w (w ++ x :: l) = true.
Proof. induction w as [|c w IH]; cbn [app proper_prefix]; [reflexivity|]. rewrite N.eqb_refl. exact IH. Qed.

Lemma prefix_free_spec W w j : prefix_free W = true -> In w W -> In (w ++ j) W -> j = [].
Proof.
  intros HW Hw Hwj. destruct j as [|x l]; [reflexivity|]. exfalso.
  unfold prefix_free in HW. rewrite forallb_forall in HW. specialize (HW w Hw).
  rewrite forallb_forall in HW. specialize (HW _ Hwj). rewrite proper_prefix_app in HW. discriminate.
Qed.

(* in a word list none of whose words continues, or ends, another: junk after or before a word gives no word *)
Lemma anchored W a j :
  prefix_free W = true -> prefix_free (map (@rev N) W) = true -> In a W -> j <> [] ->
  ~ In (a ++ j) W /\ ~ In (j ++ a) W.
Proof.
  intros HW HR Ha Hj. split; intros E.
  - exact (Hj (prefix_free_spec W a j HW Ha E)).
  - apply (in_map (@rev N)) in Ha, E. rewrite rev_app_distr in E.
    apply Hj. rewrite <- (rev_involutive j), (prefix_free_spec _ _ _ HR Ha E). reflexivity.
Qed.

(* integers: once blanks around and one sign are taken away, nothing but digits and single underscores *)
Definition int_body_char (c : N) : bool := is_digit c || (c =? 95).

Lemma digits_us_chars s : forall acc pd z, digits_us s acc pd = Some z -> forallb int_body_char s = true.
Proof.
  induction s as [|c s IH]; intros acc pd z H; [reflexivity|].
  cbn [digits_us] in H. cbn [forallb]. unfold int_body_char at 1.
  destruct (is_digit c) eqn:Ed; cbn [orb].
  - cbn [andb]. exact (IH _ _ _ H).
  - destruct ((c =? 95) && pd) eqn:Eu; [|discriminate].
    apply andb_true_iff in Eu as [Eu _]. rewrite Eu. cbn [andb]. exact (IH _ _ _ H).
Qed.

(* the body of an integer is not empty *)
Lemma digits_us_nonempty acc z : digits_us [] acc false = Some z -> False.
Proof. discriminate. Qed.

(* the three shapes parse_int tells apart *)
Lemma parse_int_shape v z : parse_int v = Some z ->
  exists sg body, strip v = sg ++ body /\ (sg = [] \/ sg = [45] \/ sg = [43]) /\ forallb int_body_char body = true /\ body <> [].
Proof.
  unfold parse_int. destruct (strip v) as [|c d] eqn:Es.
  - discriminate.
  - intros H. destruct (N.eqb_spec c 45) as [->|N45]; [|destruct (N.eqb_spec c 43) as [->|N43]].
    + destruct (digits_us d 0%Z false) as [z'|] eqn:E; [|discriminate].
      exists [45], d. repeat split; [right; left; reflexivity|exact (digits_us_chars _ _ _ _ E)|].
      intros ->; discriminate.
    + exists [43], d. repeat split; [right; right; reflexivity|exact (digits_us_chars _ _ _ _ H)|].
      intros ->; discriminate.
    + assert (H' : digits_us (c :: d) 0%Z false = Some z).
      { destruct c as [|p]; [exact H|].
        (* the patterns 45 :: _ and 43 :: _ are matches on the bits of c: follow them *)
        do 6 (try destruct p as [p|p|]); try exact H; try (exfalso; apply N45; reflexivity); try (exfalso; apply N43; reflexivity). }
      exists [], (c :: d). repeat split; [left; reflexivity|exact (digits_us_chars _ _ _ _ H')|discriminate].
Qed.
