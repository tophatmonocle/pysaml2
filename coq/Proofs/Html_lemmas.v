(* Proofs/Html_lemmas.v — html.escape against the double-quoted attribute-value state of an HTML tokenizer:
   one escaped character is read back in one step, and escaped text contains no delimiter. *)
From PV Require Import Lib.Base Model.Codec.
Open Scope N_scope.

Lemma html_escape_cons c s : html_escape (c :: s) = html_escape_char c ++ html_escape s.
Proof. reflexivity. Qed.

(* what html.escape writes for one character is not empty, and the tokenizer reads it back as that
   character in one step *)
Lemma escape_char_step c : exists x l, html_escape_char c = x :: l /\
  forall f s acc, attr_value_dq_fuel (S f) (x :: l ++ s) acc = attr_value_dq_fuel f s (c :: acc).
Proof.
  unfold html_escape_char.
  destruct (N.eqb_spec c 38) as [->|N38]; [do 2 eexists; split; reflexivity|].
  destruct (N.eqb_spec c 60) as [->|N60]; [do 2 eexists; split; reflexivity|].
  destruct (N.eqb_spec c 62) as [->|N62]; [do 2 eexists; split; reflexivity|].
  destruct (N.eqb_spec c 34) as [->|N34]; [do 2 eexists; split; reflexivity|].
  destruct (N.eqb_spec c 39) as [->|N39]; [do 2 eexists; split; reflexivity|].
  exists c, []. split; [reflexivity|]. intros f s acc. cbn [app attr_value_dq_fuel].
  apply N.eqb_neq in N34, N38. now rewrite N34, N38.
Qed.

Lemma attr_fuel s : forall acc rest fuel,
  (List.length (html_escape s) + 1 <= fuel)%nat ->
  attr_value_dq_fuel fuel (html_escape s ++ 34 :: rest) acc = Some (rev acc ++ s, rest).
Proof.
  induction s as [|c s IH]; intros acc rest [|f] Hf; try (cbn in Hf; lia).
  - cbn. now rewrite app_nil_r.
  - rewrite html_escape_cons in *. destruct (escape_char_step c) as (x & l & E & Step). rewrite E in *.
    rewrite <- app_assoc. cbn [app List.length] in *. rewrite app_length in Hf.
    rewrite Step, IH by lia. cbn [rev]. now rewrite <- app_assoc.
Qed.

Lemma escape_char_no_delims c :
  forallb (fun c => negb ((c =? 34) || (c =? 60) || (c =? 62) || (c =? 39))) (html_escape_char c) = true.
Proof.
  unfold html_escape_char.
  destruct (c =? 38); [reflexivity|]. destruct (c =? 60) eqn:E60; [reflexivity|].
  destruct (c =? 62) eqn:E62; [reflexivity|]. destruct (c =? 34) eqn:E34; [reflexivity|].
  destruct (c =? 39) eqn:E39; [reflexivity|]. cbn [forallb]. now rewrite E34, E60, E62, E39.
Qed.

