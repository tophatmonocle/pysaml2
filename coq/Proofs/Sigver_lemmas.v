(* Proofs/Sigver_lemmas.v — how runs of the external tool are read (Model/Sigver.v): the OK line of
   parse_xmlsec_output, what a usable run is (run_xmlsec_ok), validate_signature and the per-certificate loop. *)
From PV Require Import Lib.Base Model.Sigver.
Open Scope N_scope.

(* exact characterisation: an OK line, and before it neither OK nor FAIL *)
Lemma scan_lines_spec ls :
  scan_lines ls = true <->
  exists pre post, ls = pre ++ OKs :: post /\ Forall (fun l => l <> OKs /\ l <> FAILs) pre.
Proof.
  split.
  - induction ls as [|l ls IH]; cbn [scan_lines]; [discriminate|].
    destruct (str_eqb_spec l OKs) as [->|Hn]; [intros _; exists [], ls; split; [reflexivity|constructor]|].
    destruct (str_eqb_spec l FAILs) as [->|Hf]; [discriminate|]. intros H.
    destruct (IH H) as (pre & post & -> & Hall). exists (l :: pre), post. split; [reflexivity|]. now constructor.
  - intros (pre & post & -> & Hall). induction Hall as [|l pre [Hn Hf] _ IH]; cbn [app scan_lines].
    + now rewrite str_eqb_refl.
    + now rewrite (proj2 (str_eqb_neq _ _) Hn), (proj2 (str_eqb_neq _ _) Hf).
Qed.

Lemma parse_ok_In s b : parse_xmlsec_output s = Ok b -> b = true /\ In OKs (splitlines s).
Proof.
  unfold parse_xmlsec_output. destruct (scan_lines (splitlines s)) eqn:E; [|discriminate].
  intros H; injection H as <-. split; [reflexivity|].
  apply scan_lines_spec in E as (pre & post & -> & _). apply in_elt.
Qed.

(* a text without any line break is one line: "OK" inside other text is not OK *)
Lemma splitlines_aux_nobreak s cur :
  forallb (fun c => negb (is_linebreak c)) s = true ->
  splitlines_aux s cur = match rev cur ++ s with [] => [] | l => [l] end.
Proof.
  revert cur; induction s as [|c s IH]; intros cur H; cbn [splitlines_aux].
  - rewrite app_nil_r. destruct cur as [|x cur]; [reflexivity|].
    destruct (rev (x :: cur)) eqn:E; [|reflexivity].
    apply (f_equal (@List.length N)) in E. rewrite rev_length in E. discriminate.
  - cbn [forallb] in H. apply andb_true_iff in H as [Hc Hs].
    destruct (is_linebreak c); [discriminate|]. rewrite (IH (c :: cur) Hs). cbn [rev].
    rewrite <- app_assoc. reflexivity.
Qed.

(* a run whose output is used: started, decodable, not killed by a signal *)
Lemma run_xmlsec_ok v r out err outf : run_xmlsec v r = Ok (out, err, outf) ->
  exists o, r = Ran o /\ undecodable o = false /\ signaled o = false /\
            out = p_out o /\ err = p_err o /\ outf = outfile o /\
            (v = true -> scan_lines (splitlines (p_err o)) = true).
Proof.
  unfold run_xmlsec. destruct r as [|o]; [discriminate|].
  destruct (undecodable o) eqn:Eu; [discriminate|]. destruct (signaled o) eqn:Es; [discriminate|].
  destruct v.
  - unfold parse_xmlsec_output. destruct (scan_lines (splitlines (p_err o))) eqn:Esc; [|discriminate].
    intros H; injection H as <- <- <-. exists o. repeat split; auto.
  - intros H; injection H as <- <- <-. exists o. repeat split; auto. discriminate.
Qed.

Lemma validate_signature_true r b : validate_signature r = Ok b -> b = true /\ reports_success r = true.
Proof.
  unfold validate_signature. destruct (run_xmlsec true r) as [[[out err] outf]|e] eqn:E; [|discriminate].
  apply run_xmlsec_ok in E as (o & -> & Hu & Hs & _ & -> & _ & Hsc).
  intros H. apply parse_ok_In in H as [-> _]. split; [reflexivity|].
  unfold reports_success. rewrite Hu, Hs, (Hsc eq_refl). reflexivity.
Qed.

Lemma cert_loop_true runs : cert_loop runs = Ok true -> exists r, In r runs /\ reports_success r = true.
Proof.
  induction runs as [|r runs IH]; cbn [cert_loop]; [discriminate|].
  destruct (validate_signature r) as [[|]|e] eqn:E.
  - intros _. exists r. split; [now left|]. now apply validate_signature_true in E.
  - intros H. destruct (IH H) as (r' & Hin & Hr). exists r'. split; [now right|assumption].
  - destruct (is_xmlsec_error e); [|discriminate].
    intros H. destruct (IH H) as (r' & Hin & Hr). exists r'. split; [now right|assumption].
Qed.

(* candidates whose run either verifies or fails as an XmlsecError: the loop is a disjunction *)
Lemma cert_loop_decided {A} (run : A -> tool_result) (ok : A -> bool) l :
  (forall a, validate_signature (run a) = if ok a then Ok true else Err XmlsecError) ->
  cert_loop (map run l) = Ok (existsb ok l).
Proof.
  intros H. induction l as [|a l IH]; [reflexivity|]. cbn [map cert_loop existsb]. rewrite H.
  destruct (ok a); [reflexivity|]. replace (is_xmlsec_error XmlsecError) with true by reflexivity. exact IH.
Qed.

(* the code before fix 0b54cc6b: the same with only_valid_cert off ... *)
Lemma check_signature_before_fix_off z runs cv :
  check_signature_runs_before_fix z runs false cv = check_signature_runs z runs false cv.
Proof.
  unfold check_signature_runs_before_fix, check_signature_runs. destruct z; [reflexivity|].
  destruct (cert_loop runs) as [[|]|e]; reflexivity.
Qed.

(* ... and today's verdict does not depend on only_valid_cert at all *)
Lemma check_signature_ovc_irrelevant z runs ovc cv :
  check_signature_runs z runs ovc cv = check_signature_runs z runs false cv.
Proof. reflexivity. Qed.

Lemma decrypt_keys_all_fail enc runs :
  Forall (fun r => match r with Ran o => undecodable o = false /\ signaled o = false /\ outfile o = [] | NotStartable => False end) runs ->
  decrypt_keys enc runs = Ok enc.
Proof.
  induction 1 as [|r runs Hr _ IH]; cbn [decrypt_keys]; [reflexivity|].
  destruct r as [|o]; [contradiction|]. destruct Hr as (Hu & Hs & Hf).
  unfold crypto_decrypt, run_xmlsec. rewrite Hu, Hs, Hf. cbn [is_empty]. exact IH.
Qed.
