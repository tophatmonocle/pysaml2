(* Proofs/Duration_lemmas.v - what time_util.parse_duration (Model/Duration.v) accepts.
   shape: the items of D_FORMAT in their order, each a number followed by its designator, T before the time
   items and never last, the last item possibly with a fraction.  Soundness is proved for ANY pair of number
   readers (so also for the python int() / float() grammar of the code before repair C13-4); for the repaired
   grammar: alphabet, last character and junk theorems, completeness (every value of the shape is accepted:
   loop_complete, duration_iff), and the witnesses of the defects C13-4 repaired. *)
From PV Require Import Lib.Base Model.Duration.
Open Scope N_scope.

Section Shape.
  Variable isint : str -> bool.       (* the number of an item that something follows *)
  Variable islast : str -> bool.      (* the number of the last item *)
  (* shape fmt r : r is made of items of the format list fmt, in its order; never empty *)
  Inductive shape : list (N * option slot) -> str -> Prop :=
  | sh_skip c t fmt r : shape fmt r -> shape ((c, Some t) :: fmt) r                         (* the item is absent *)
  | sh_last c t fmt v : islast v = true -> shape ((c, Some t) :: fmt) (v ++ [c])            (* the last item *)
  | sh_item c t fmt v r : isint v = true -> shape fmt r -> shape ((c, Some t) :: fmt) (v ++ c :: r)
  | sh_T c fmt r : shape fmt r -> shape ((c, None) :: fmt) (C_T :: r).                      (* T, and items after it *)

  (* the last character is the designator of an item of the format list *)
  Lemma shape_ends fmt r : shape fmt r -> exists r0 c t, r = r0 ++ [c] /\ In (c, Some t) fmt.
  Proof.
    induction 1 as [c t fmt r _ IH | c t fmt v _ | c t fmt v r _ _ IH | c fmt r _ IH].
    - destruct IH as (r0 & c' & t' & -> & Hin). exists r0, c', t'. split; [reflexivity|right; exact Hin].
    - exists v, c, t. split; [reflexivity|left; reflexivity].
    - destruct IH as (r0 & c' & t' & -> & Hin). exists (v ++ c :: r0), c', t'. split; [|right; exact Hin].
      rewrite <- app_assoc. reflexivity.
    - destruct IH as (r0 & c' & t' & -> & Hin). exists (C_T :: r0), c', t'. split; [reflexivity|right; exact Hin].
  Qed.

  Lemma shape_nonempty fmt r : shape fmt r -> r <> [].
  Proof. intros H. destruct (shape_ends fmt r H) as (r0 & c & t & -> & _). destruct r0; discriminate. Qed.
End Shape.

Definition is_some {A} (o : option A) : bool := match o with Some _ => true | None => false end.

Section Sound.
  Variable int_of : str -> option Z.
  Variable float_of : str -> option num.
  Variable cut : bool.
  Definition int_ok (v : str) : bool := is_some (int_of v).
  Definition last_ok (v : str) : bool :=
    is_some (int_of v) || is_some (float_of v) || (existsb (N.eqb 44) v && is_some (float_of (comma_to_dot v))).

  Lemma find_code_spec code b r : forall v a, find_code code b r = Some (v, a) -> r = v ++ code :: a.
  Proof.
    induction r as [|x r IH]; intros v a H; cbn [find_code] in H; [discriminate|].
    destruct (N.eqb_spec x code) as [->|Hne].
    - injection H as <- <-. reflexivity.
    - destruct (b && (x =? C_T)); [discriminate|].
      destruct (find_code code b r) as [[v' a']|] eqn:E; [|discriminate].
      injection H as <- <-. rewrite (IH v' a' eq_refl). reflexivity.
  Qed.

  Lemma item_advance code tp r n after :
    item int_of float_of cut code tp r = Advance n after ->
    exists v, r = v ++ code :: after /\ (after <> [] -> int_ok v = true) /\ (after = [] -> last_ok v = true).
  Proof.
    unfold item. destruct (find_code code (cut && negb tp) r) as [[v a]|] eqn:Ef; [|discriminate].
    apply find_code_spec in Ef. unfold int_ok, last_ok.
    destruct (int_of v) as [z|] eqn:Ei.
    - intros H. injection H as _ <-. exists v. rewrite Ei. cbn. repeat split; exact Ef.
    - destruct (is_nil a) eqn:En; [|discriminate].
      destruct a; [|discriminate].
      destruct (float_of v) as [f|] eqn:Ef1.
      + intros H. injection H as _ <-. exists v. rewrite Ei, Ef1. cbn. repeat split; [exact Ef|intros X; contradiction].
      + destruct (existsb (N.eqb 44) v) eqn:Ec; [|discriminate].
        destruct (float_of (comma_to_dot v)) as [f|] eqn:Ef2; [|discriminate].
        intros H. injection H as _ <-. exists v. rewrite Ei, Ef1, Ec, Ef2. cbn. repeat split; [exact Ef|intros X; contradiction].
  Qed.

  Theorem loop_sound : forall fmt tp r dic r' dic',
    loop int_of float_of cut fmt tp r dic = Ok (r', dic') -> r <> [] -> r' = [] -> shape int_ok last_ok fmt r.
  Proof.
    induction fmt as [|[code typ] fmt IH]; intros tp r dic r' dic' H Hne Hr'.
    - cbn [loop] in H. injection H as <- _. contradiction.
    - cbn [loop] in H. destruct r as [|ch r0]; [contradiction|].
      destruct (ch =? 45); [discriminate|].
      destruct typ as [t|].
      + destruct (ch =? C_T) eqn:ET.
        * apply sh_skip. exact (IH _ _ _ _ _ H Hne Hr').
        * destruct (item int_of float_of cut code tp (ch :: r0)) as [|n after|e] eqn:Ei.
          -- apply sh_skip. exact (IH _ _ _ _ _ H Hne Hr').
          -- apply item_advance in Ei as (v & Er & Hint & Hlast). rewrite Er.
             destruct after as [|a0 after]; cbn [is_nil] in H.
             ++ apply sh_last. apply Hlast. reflexivity.
             ++ apply sh_item; [apply Hint; discriminate|].
                apply (IH _ _ _ _ _ H); [discriminate|exact Hr'].
          -- discriminate.
      + destruct (N.eqb_spec ch C_T) as [->|]; [|discriminate].
        destruct r0 as [|a0 r0]; cbn [is_nil] in H; [discriminate|].
        apply sh_T. apply (IH _ _ _ _ _ H); [discriminate|exact Hr'].
  Qed.

  Definition sign_text (neg : bool) : str := if neg then [45] else [].

  (* past the sign and the P *)
  Lemma parse_with_P fc neg r :
    parse_with int_of float_of cut fc (sign_text neg ++ 80 :: r) =
    match loop int_of float_of cut D_FORMAT false r zero_fields with
    | Err e => Err e
    | Ok (r', dic) => if fc && negb (is_nil r') then Err D_EXCEPTION else Ok (neg, dic)
    end.
  Proof. destruct neg; reflexivity. Qed.

  Lemma parse_with_inv fc s neg f :
    parse_with int_of float_of cut fc s = Ok (neg, f) -> exists r, s = sign_text neg ++ 80 :: r.
  Proof.
    unfold parse_with. destruct s as [|c0 s0]; [discriminate|].
    destruct (N.eqb_spec c0 45) as [->|Hc0].
    - destruct s0 as [|p r]; [discriminate|].
      destruct (N.eqb_spec p 80) as [->|]; [|discriminate].
      destruct (loop _ _ _ _ _ _ _) as [[r' dic]|]; [|discriminate]. destruct (_ && _); [discriminate|].
      intros H. injection H as <- _. exists r. reflexivity.
    - destruct (N.eqb_spec c0 80) as [->|]; [|discriminate].
      destruct (loop _ _ _ _ _ _ _) as [[r' dic]|]; [|discriminate]. destruct (_ && _); [discriminate|].
      intros H. injection H as <- _. exists s0. reflexivity.
  Qed.

  Theorem parse_with_sound s neg f :
    parse_with int_of float_of cut true s = Ok (neg, f) ->
    exists r, s = sign_text neg ++ 80 :: r /\ shape int_ok last_ok D_FORMAT r.
  Proof.
    intros H. destruct (parse_with_inv _ _ _ _ H) as [r ->]. exists r. split; [reflexivity|].
    rewrite parse_with_P in H.
    destruct (loop int_of float_of cut D_FORMAT false r zero_fields) as [[r' dic]|e] eqn:El; [|discriminate].
    destruct r' as [|x r']; [|discriminate].
    apply (loop_sound _ _ _ _ _ _ El); [|reflexivity]. intros ->. discriminate El.
  Qed.
End Sound.

Definition is_dec (v : str) : bool := is_some (dec_float v).
(* digits *)
Definition num_int (v : str) : bool := all_digits v.
(* digits, or digits mark digits with . or , as the mark *)
Definition num_last (v : str) : bool :=
  all_digits v || is_dec v || (existsb (N.eqb 44) v && is_dec (comma_to_dot v)).

Lemma dec_int_ok v : int_ok dec_int v = num_int v.
Proof. unfold int_ok, dec_int, num_int. destruct (all_digits v); reflexivity. Qed.
Lemma dec_last_ok v : last_ok dec_int dec_float v = num_last v.
Proof. unfold last_ok, num_last, is_dec, dec_int. destruct (all_digits v); reflexivity. Qed.

Lemma shape_ext (P1 P2 Q1 Q2 : str -> bool) fmt r :
  (forall v, P1 v = P2 v) -> (forall v, Q1 v = Q2 v) -> shape P1 Q1 fmt r -> shape P2 Q2 fmt r.
Proof.
  intros HP HQ. induction 1.
  - apply sh_skip; assumption.
  - apply sh_last. rewrite <- HQ. assumption.
  - apply sh_item; [rewrite <- HP|]; assumption.
  - apply sh_T; assumption.
Qed.

(* s is, as a whole: an optional -, P, then the items in the order Y M D T H M S *)
Definition duration_shape (s : str) : Prop :=
  exists neg r, s = sign_text neg ++ 80 :: r /\ shape num_int num_last D_FORMAT r.

Theorem duration_whole_value s neg f : parse_duration s = Ok (neg, f) ->
  exists r, s = sign_text neg ++ 80 :: r /\ shape num_int num_last D_FORMAT r.
Proof.
  intros H. apply parse_with_sound in H as (r & Hs & Hsh). exists r. split; [exact Hs|].
  exact (shape_ext _ _ _ _ _ _ dec_int_ok dec_last_ok Hsh).
Qed.

Definition num_char (c : N) : bool := d_digit c || (c =? 46) || (c =? 44).
Definition item_code (c : N) : bool := (c =? 89) || (c =? 77) || (c =? 68) || (c =? 72) || (c =? 83).
Definition dur_char (c : N) : bool := num_char c || item_code c || (c =? C_T).

(* the text of a number: digits and marks only, a digit first *)
Definition numtext (v : str) : Prop :=
  forallb num_char v = true /\ exists d v', v = d :: v' /\ d_digit d = true.

Lemma all_digits_numtext v : all_digits v = true -> numtext v.
Proof.
  unfold all_digits. destruct v as [|d v']; [discriminate|]. intros H. split.
  - apply forallb_forall. intros x Hx. rewrite forallb_forall in H. unfold num_char. rewrite (H x Hx). reflexivity.
  - cbn [forallb] in H. apply andb_true_iff in H as [H _]. exists d, v'. split; [reflexivity|exact H].
Qed.

Lemma split_at_spec c s : forall a b, split_at c s = Some (a, b) -> s = a ++ c :: b.
Proof.
  induction s as [|x s IH]; intros a b H; cbn [split_at] in H; [discriminate|].
  destruct (N.eqb_spec x c) as [->|].
  - injection H as <- <-. reflexivity.
  - destruct (split_at c s) as [[a' b']|]; [|discriminate]. injection H as <- <-. rewrite (IH a' b' eq_refl). reflexivity.
Qed.

Lemma is_dec_numtext v : is_dec v = true -> numtext v.
Proof.
  unfold is_dec, dec_float. destruct (split_at 46 v) as [[a b]|] eqn:E; [|discriminate].
  apply split_at_spec in E. destruct (all_digits a) eqn:Ea; [|discriminate]. destruct (all_digits b) eqn:Eb; [|discriminate].
  intros _. destruct (all_digits_numtext a Ea) as (Ha & d & a' & -> & Hd). destruct (all_digits_numtext b Eb) as (Hb & _).
  split; [|exists d, (a' ++ 46 :: b); split; [exact E|exact Hd]].
  rewrite E, forallb_app, Ha. cbn [forallb]. rewrite Hb. reflexivity.
Qed.

Lemma comma_numtext v : numtext (comma_to_dot v) -> numtext v.
Proof.
  unfold comma_to_dot. intros (Hc & d & w & E & Hd). split.
  - clear E. induction v as [|c v IH]; [reflexivity|]. cbn [map forallb] in *.
    apply andb_true_iff in Hc as [Hc Hv]. rewrite (IH Hv), andb_true_r.
    destruct (N.eqb_spec c 44) as [->|]; [reflexivity|exact Hc].
  - destruct v as [|x v']; [discriminate|]. cbn [map] in E. injection E as E _. exists x, v'. split; [reflexivity|].
    destruct (N.eqb_spec x 44) as [->|]; subst d; [discriminate Hd|exact Hd].
Qed.

Lemma num_last_numtext v : num_last v = true -> numtext v.
Proof.
  unfold num_last. intros H. apply orb_true_iff in H as [H|H]; [apply orb_true_iff in H as [H|H]|].
  - exact (all_digits_numtext v H).
  - exact (is_dec_numtext v H).
  - apply andb_true_iff in H as [_ H]. exact (comma_numtext v (is_dec_numtext _ H)).
Qed.

Lemma num_dur v : forallb num_char v = true -> forallb dur_char v = true.
Proof.
  intros H. apply forallb_forall. intros x Hx. rewrite forallb_forall in H. unfold dur_char. rewrite (H x Hx). reflexivity.
Qed.

(* the designators find_code can meet: those of the items before the T entry when it stops at T, else all *)
Fixpoint scope_codes (stop : bool) (fmt : list (N * option slot)) : list N :=
  match fmt with
  | [] => []
  | (c, Some _) :: fmt' => c :: scope_codes stop fmt'
  | (_, None) :: fmt' => if stop then [] else scope_codes stop fmt'
  end.

(* the format list as the loop meets it: every item designator is one of Y M D H S and differs from the
   designators find_code can meet further on (before the T the search stops at the T) *)
Fixpoint fmt_ok (tp : bool) (fmt : list (N * option slot)) : bool :=
  match fmt with
  | [] => true
  | (c, Some _) :: fmt' => item_code c && negb (existsb (N.eqb c) (scope_codes (negb tp) fmt')) && fmt_ok tp fmt'
  | (_, None) :: fmt' => fmt_ok true fmt'
  end.

Lemma fmt_ok_code fmt c t : forall tp, fmt_ok tp fmt = true -> In (c, Some t) fmt -> item_code c = true.
Proof.
  induction fmt as [|[c' [t'|]] fmt IH]; intros tp Hok Hin; cbn [fmt_ok] in Hok; [destruct Hin| |].
  - apply andb_true_iff in Hok as [Hok Hrest]. apply andb_true_iff in Hok as [Hc _].
    destruct Hin as [E|Hin]; [injection E as <- _; exact Hc|exact (IH tp Hrest Hin)].
  - destruct Hin as [E|Hin]; [discriminate E|exact (IH true Hok Hin)].
Qed.

Lemma shape_alphabet fmt r : shape num_int num_last fmt r -> forall tp, fmt_ok tp fmt = true -> forallb dur_char r = true.
Proof.
  assert (Hcode : forall c, item_code c = true -> dur_char c = true).
  { intros c Hc. unfold dur_char. rewrite Hc, orb_true_r. reflexivity. }
  induction 1 as [c t fmt r _ IH | c t fmt v Hv | c t fmt v r Hv _ IH | c0 fmt r _ IH]; intros tp Hok; cbn [fmt_ok] in Hok.
  - apply andb_true_iff in Hok as [_ Hrest]. exact (IH tp Hrest).
  - apply andb_true_iff in Hok as [Hok _]. apply andb_true_iff in Hok as [Hc _].
    rewrite forallb_app, (num_dur _ (proj1 (num_last_numtext _ Hv))). cbn [forallb]. rewrite (Hcode c Hc). reflexivity.
  - apply andb_true_iff in Hok as [Hok Hrest]. apply andb_true_iff in Hok as [Hc _].
    rewrite forallb_app, (num_dur _ (proj1 (all_digits_numtext _ Hv))). cbn [forallb].
    rewrite (Hcode c Hc), (IH tp Hrest). reflexivity.
  - cbn [forallb]. rewrite (IH true Hok). unfold dur_char. rewrite N.eqb_refl, orb_true_r. reflexivity.
Qed.

(* every character after the P of an accepted value is a digit, a decimal mark or one of Y M D T H S, and the
   last one is the designator of an item (Y M D H S) *)
Theorem duration_alphabet s neg f : parse_duration s = Ok (neg, f) ->
  exists r, s = sign_text neg ++ 80 :: r /\ forallb dur_char r = true /\ exists r0 c, r = r0 ++ [c] /\ item_code c = true.
Proof.
  intros H. apply duration_whole_value in H as (r & Hs & Hsh). exists r. split; [exact Hs|]. split.
  - exact (shape_alphabet _ _ Hsh false eq_refl).
  - destruct (shape_ends _ _ _ _ Hsh) as (r0 & c & t & Hr & Hin). exists r0, c. split; [exact Hr|].
    exact (fmt_ok_code D_FORMAT c t false eq_refl Hin).
Qed.

Lemma sign_P_inj n1 n2 r1 r2 : sign_text n1 ++ 80 :: r1 = sign_text n2 ++ 80 :: r2 -> r1 = r2.
Proof. destruct n1, n2; cbn; intros H; try discriminate; injection H as H; exact H. Qed.

(* nothing may follow an accepted value: junk that holds a character outside the alphabet, or that does not end
   with an item designator (more digits, a T, a blank, a line break, ...), makes the whole value refused *)
Theorem duration_junk_refused s j :
  is_ok (parse_duration s) = true -> j <> [] ->
  existsb (fun c => negb (dur_char c)) j = true \/ item_code (last j 0) = false ->
  exists e, parse_duration (s ++ j) = Err e.
Proof.
  intros Hs Hj Hjunk.
  destruct (parse_duration s) as [[neg f]|] eqn:E1; [|discriminate].
  destruct (parse_duration (s ++ j)) as [[neg2 f2]|e] eqn:E2; [|exists e; reflexivity]. exfalso.
  apply duration_whole_value in E1 as (r1 & Hs1 & _).
  apply duration_alphabet in E2 as (r2 & Hs2 & Hal & r0 & c & Hr2 & Hc).
  rewrite Hs1, <- app_assoc in Hs2. cbn [app] in Hs2. apply sign_P_inj in Hs2. subst r2.
  destruct Hjunk as [Hbad|Hend].
  - rewrite forallb_app in Hal. apply andb_true_iff in Hal as [_ Hal].
    apply existsb_exists in Hbad as (x & Hx & Hnx). rewrite forallb_forall in Hal. rewrite (Hal x Hx) in Hnx. discriminate.
  - (* the last character of j is the last character of the whole *)
    destruct (exists_last Hj) as (j' & x & ->). rewrite app_assoc in Hr2. apply app_inj_tail in Hr2 as [_ ->].
    rewrite last_last, Hc in Hend. discriminate.
Qed.

Lemma item_code_facts c : item_code c = true -> num_char c = false /\ (c =? C_T) = false /\ (c =? 45) = false.
Proof.
  unfold item_code. intros H.
  repeat (apply orb_true_iff in H as [H|H]); apply N.eqb_eq in H; subst c; vm_compute; repeat split; reflexivity.
Qed.

Lemma num_char_not_code x c : num_char x = true -> item_code c = true -> (x =? c) = false.
Proof. intros Hx Hc. exact (eqb_sep num_char x c Hx (proj1 (item_code_facts c Hc))). Qed.

Lemma num_char_not_T x : num_char x = true -> (x =? C_T) = false.
Proof. intros Hx. exact (eqb_sep num_char x C_T Hx eq_refl). Qed.

Lemma digit_facts c : d_digit c = true -> (c =? 45) = false /\ (c =? C_T) = false.
Proof. intros H. split; apply (eqb_sep d_digit c _ H); reflexivity. Qed.

Lemma find_code_num_prefix c stop v rest : item_code c = true -> forallb num_char v = true ->
  find_code c stop (v ++ rest) = match find_code c stop rest with Some (a, b) => Some (v ++ a, b) | None => None end.
Proof.
  intros Hc. induction v as [|x v IH]; intros Hv.
  - cbn [app]. destruct (find_code c stop rest) as [[a b]|]; reflexivity.
  - cbn [forallb] in Hv. apply andb_true_iff in Hv as [Hx Hv]. cbn [app find_code].
    rewrite (num_char_not_code x c Hx Hc), (num_char_not_T x Hx), andb_false_r, (IH Hv).
    destruct (find_code c stop rest) as [[a b]|]; reflexivity.
Qed.

Lemma find_code_found c stop v a : item_code c = true -> forallb num_char v = true ->
  find_code c stop (v ++ c :: a) = Some (v, a).
Proof.
  intros Hc Hv. rewrite (find_code_num_prefix c stop v _ Hc Hv). cbn [find_code]. rewrite N.eqb_refl, app_nil_r. reflexivity.
Qed.

Lemma shape_not_found fmt r : shape num_int num_last fmt r ->
  forall c stop, item_code c = true -> existsb (N.eqb c) (scope_codes stop fmt) = false -> find_code c stop r = None.
Proof.
  induction 1 as [c0 t0 fmt r _ IH | c0 t0 fmt v Hv | c0 t0 fmt v r Hv _ IH | c0 fmt r _ IH]; intros c stop Hc Hm.
  - apply (IH c stop Hc). cbn [scope_codes existsb] in Hm. apply orb_false_iff in Hm as [_ Hm]. exact Hm.
  - cbn [scope_codes existsb] in Hm. apply orb_false_iff in Hm as [Hne _].
    rewrite (find_code_num_prefix c stop v _ Hc (proj1 (num_last_numtext _ Hv))). cbn [find_code].
    rewrite N.eqb_sym, Hne. destruct (stop && (c0 =? C_T)); reflexivity.
  - cbn [scope_codes existsb] in Hm. apply orb_false_iff in Hm as [Hne Hm].
    rewrite (find_code_num_prefix c stop v _ Hc (proj1 (all_digits_numtext _ Hv))). cbn [find_code].
    rewrite N.eqb_sym, Hne. destruct (stop && (c0 =? C_T)); [reflexivity|].
    rewrite (IH c stop Hc Hm). reflexivity.
  - cbn [find_code]. destruct (item_code_facts c Hc) as (_ & HT & _). rewrite N.eqb_sym, HT, N.eqb_refl, andb_true_r.
    destruct stop; [reflexivity|]. cbn [scope_codes] in Hm. rewrite (IH c false Hc Hm). reflexivity.
Qed.

Lemma shape_head fmt r : shape num_int num_last fmt r -> exists ch r0, r = ch :: r0 /\ (d_digit ch = true \/ ch = C_T).
Proof.
  induction 1 as [c0 t0 fmt r _ IH | c0 t0 fmt v Hv | c0 t0 fmt v r Hv _ _ | c0 fmt r _ _].
  - exact IH.
  - destruct (num_last_numtext v Hv) as (_ & d & v' & -> & Hd). exists d, (v' ++ [c0]). split; [reflexivity|left; exact Hd].
  - destruct (all_digits_numtext v Hv) as (_ & d & v' & -> & Hd). exists d, (v' ++ c0 :: r). split; [reflexivity|left; exact Hd].
  - exists C_T, r. split; [reflexivity|right; reflexivity].
Qed.

(* the loop on an item entry when a digit comes first: neither a minus nor the T *)
Lemma loop_item_digit int_of float_of cut c t fmt tp d r0 dic : d_digit d = true ->
  loop int_of float_of cut ((c, Some t) :: fmt) tp (d :: r0) dic =
  match item int_of float_of cut c tp (d :: r0) with
  | Raise e => Err e
  | Stay => loop int_of float_of cut fmt tp (d :: r0) (set_field t (NInt 0) dic)
  | Advance n after => if is_nil after then Ok (after, set_field t n dic)
                       else loop int_of float_of cut fmt tp after (set_field t n dic)
  end.
Proof. intros Hd. destruct (digit_facts d Hd) as [H45 HT]. cbn [loop]. rewrite H45, HT. reflexivity. Qed.

Lemma item_last cut c tp v : item_code c = true -> num_last v = true ->
  exists n, item dec_int dec_float cut c tp (v ++ [c]) = Advance n [].
Proof.
  intros Hc Hv. unfold item. rewrite (find_code_found c _ v [] Hc (proj1 (num_last_numtext _ Hv))).
  unfold dec_int. destruct (all_digits v) eqn:Ea; [eexists; reflexivity|]. cbn [is_nil].
  unfold num_last in Hv. rewrite Ea in Hv. cbn [orb] in Hv. unfold is_dec in Hv.
  destruct (dec_float v) as [f|]; [eexists; reflexivity|]. cbn [is_some orb] in Hv.
  apply andb_true_iff in Hv as [Hcm Hd]. rewrite Hcm.
  destruct (dec_float (comma_to_dot v)) as [f|]; [eexists; reflexivity|discriminate].
Qed.

Theorem loop_complete : forall fmt r, shape num_int num_last fmt r ->
  forall tp dic, fmt_ok tp fmt = true -> exists dic', loop dec_int dec_float true fmt tp r dic = Ok ([], dic').
Proof.
  induction 1 as [c0 t0 fmt r Hsh IH | c0 t0 fmt v Hv | c0 t0 fmt v r Hv Hsh IH | c0 fmt r Hsh IH]; intros tp dic Hok; cbn [fmt_ok] in Hok.
  - apply andb_true_iff in Hok as [Hok Hrest]. apply andb_true_iff in Hok as [Hc Hm]. apply negb_true_iff in Hm.
    destruct (shape_head _ _ Hsh) as (ch & r0 & -> & [Hd| ->]).
    + rewrite (loop_item_digit _ _ _ _ _ _ _ _ _ _ Hd). unfold item. cbn [andb].
      rewrite (shape_not_found _ _ Hsh c0 (negb tp) Hc Hm). apply IH. exact Hrest.
    + cbn. apply IH. exact Hrest.
  - apply andb_true_iff in Hok as [Hok _]. apply andb_true_iff in Hok as [Hc _].
    destruct (item_last true c0 tp v Hc Hv) as (n & Hi).
    destruct (num_last_numtext v Hv) as (_ & d & v' & -> & Hd). cbn [app] in *.
    rewrite (loop_item_digit _ _ _ _ _ _ _ _ _ _ Hd), Hi. eexists; reflexivity.
  - apply andb_true_iff in Hok as [Hok Hrest]. apply andb_true_iff in Hok as [Hc _].
    assert (Hi : item dec_int dec_float true c0 tp (v ++ c0 :: r) = Advance (NInt (digits_val v 0%Z)) r).
    { unfold item. rewrite (find_code_found c0 _ v r Hc (proj1 (all_digits_numtext _ Hv))). unfold dec_int. unfold num_int in Hv. rewrite Hv. reflexivity. }
    destruct (all_digits_numtext v Hv) as (_ & d & v' & -> & Hd). cbn [app] in *.
    rewrite (loop_item_digit _ _ _ _ _ _ _ _ _ _ Hd), Hi.
    destruct r as [|x r]; [exfalso; exact (shape_nonempty _ _ _ _ Hsh eq_refl)|]. apply IH. exact Hrest.
  - cbn [loop]. cbn. destruct r as [|x r]; [exfalso; exact (shape_nonempty _ _ _ _ Hsh eq_refl)|]. cbn [is_nil]. apply IH. exact Hok.
Qed.

Theorem duration_complete neg r : shape num_int num_last D_FORMAT r -> is_ok (parse_duration (sign_text neg ++ 80 :: r)) = true.
Proof.
  intros Hsh. destruct (loop_complete _ _ Hsh false zero_fields eq_refl) as (dic' & Hl).
  unfold parse_duration. rewrite parse_with_P, Hl. reflexivity.
Qed.

(* the characterisation: accepted = of the shape *)
Theorem duration_iff s : is_ok (parse_duration s) = true <-> duration_shape s.
Proof.
  split.
  - destruct (parse_duration s) as [[neg f]|] eqn:E; [|discriminate]. intros _.
    destruct (duration_whole_value s neg f E) as (r & H1 & H2). exists neg, r. split; assumption.
  - intros (neg & r & -> & Hsh). exact (duration_complete neg r Hsh).
Qed.

(* C13-4, first half: whatever int() / float() read was a number of a duration *)
Definition LIBERAL_NUMBERS : list str :=
  map s2l ["P 1D"; "P+1D"; "P -1D"; "P1_0D"; "PT1e3S"; "PT1E3S"; "PTinfS"; "PTnanS"; "PT.5S"; "PT5.S"; "PINFINITYD"; "PT 1 S"; "PT+1.5S"]%string.
Lemma numbers_before_fix_refuted :
  forallb (fun s => is_ok (parse_duration_py_numbers s)) LIBERAL_NUMBERS = true /\
  forallb (fun s => negb (is_ok (parse_duration s))) LIBERAL_NUMBERS = true.
Proof. split; vm_compute; reflexivity. Qed.

(* C13-4, second half: the M of the minutes was taken for the month designator: valid values refused *)
Definition MINUTES_LAST : list str := map s2l ["P1DT1M"; "P1DT30M"; "P1Y2DT5M"; "P1DT1H1M"; "-P2DT3M"]%string.
Lemma minutes_before_fix_refuted :
  forallb (fun s => negb (is_ok (parse_duration_py_numbers s))) MINUTES_LAST = true /\
  forallb (fun s => is_ok (parse_duration s)) MINUTES_LAST = true.
Proof. split; vm_compute; reflexivity. Qed.
