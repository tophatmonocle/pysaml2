(* Proofs/EncryptSP_lemmas.v — C17, service-provider half on the shared pipeline
   model (Model/Response.v): a decrypted assertion is handled by the very
   function used for a plain one, its signature (when present) was verified by
   decrypt_assertions (parse_assertion_same_checks); which assertions and which name
   identifier a successful parse_assertion leaves in the state (parse_assertion_reads), and
   what a failed one leaves behind for the retry (residue_acc_incl, residue_nid). *)
From PV Require Import Lib.Base Model.Status Model.Response Proofs.Response_lemmas.
Open Scope Z_scope.

(* no signature, or one that verified *)
Definition sig_not_bad (a : assertion) : Prop := forall e, a_sig a <> Some (Err e).

Lemma verify_decrypted_ok l : verify_decrypted l = Ok tt <-> Forall sig_not_bad l.
Proof.
  induction l as [|a l IH]; cbn [verify_decrypted].
  - split; [constructor|reflexivity].
  - destruct (a_sig a) as [[[]|e]|] eqn:Es.
    + rewrite IH. split.
      * intros H. constructor; [unfold sig_not_bad; rewrite Es; discriminate|exact H].
      * intros H. now inversion H.
    + split; [discriminate|]. intros H. inversion H as [|x y Hx Hy]. exfalso. apply (Hx e). exact Es.
    + rewrite IH. split.
      * intros H. constructor; [unfold sig_not_bad; rewrite Es; discriminate|exact H].
      * intros H. now inversion H.
Qed.

Lemma sig_not_bad_cases a : sig_not_bad a -> a_sig a = None \/ a_sig a = Some (Ok tt).
Proof. unfold sig_not_bad. destruct (a_sig a) as [[[]|e]|]; [now right|intros H; destruct (H e eq_refl)|now left]. Qed.

Lemma check_assertion_flag c irt req s a :
  sig_not_bad a -> check_assertion c irt req true s a = check_assertion c irt req false s a.
Proof.
  intros H. unfold check_assertion. destruct (a_sig a) as [[[]|e]|] eqn:Es; try reflexivity.
  exfalso. exact (H e Es).
Qed.

Lemma check_assertions_flag c irt req push : forall l s,
  Forall sig_not_bad l -> check_assertions c irt req true push s l = check_assertions c irt req false push s l.
Proof.
  induction l as [|a l IH]; intros s H; [reflexivity|]. inversion H as [|x y Hx Hy]; subst.
  cbn [check_assertions]. rewrite (check_assertion_flag c irt req s a Hx).
  destruct (check_assertion c irt req false s a); [|reflexivity]. now apply IH.
Qed.

Lemma check_assertion_false_sig c irt req s a s' :
  check_assertion c irt req false s a = Ok s' -> sig_not_bad a.
Proof.
  unfold check_assertion, sig_not_bad. intros H e He. rewrite He in H. discriminate.
Qed.

Lemma check_assertions_false_sig c irt req push : forall l s s',
  check_assertions c irt req false push s l = Ok s' -> Forall sig_not_bad l.
Proof.
  induction l as [|a l IH]; intros s s' H; [constructor|]. cbn [check_assertions] in H.
  destruct (check_assertion c irt req false s a) as [s1|] eqn:E; [|discriminate].
  constructor; [eapply check_assertion_false_sig; exact E|eapply IH; exact H].
Qed.

(* parse_assertion with decrypted assertions sent through the PLAIN path
   (signature looked at by _assertion itself, no separate pre-pass) *)
Definition parse_assertion_uniform (c : cfg) (req : bool) (s : st) (r : response) : result st :=
  if negb ((List.length (r_assertions r) =? 1)%nat || (List.length (r_encrypted r) =? 1)%nat) then Err (E "Exception") else
  match check_assertions c (r_irt r) req false false s (r_assertions r) with
  | Err e => Err e
  | Ok s1 =>
      match r_encrypted r with
      | [] => Ok (push_all s1 (r_assertions r))
      | encs =>
          match check_assertions c (r_irt r) req false true s1 (decrypted_prefix encs) with
          | Err e => Err e
          | Ok s2 => Ok (push_all s2 (r_assertions r))
          end
      end
  end.

Lemma parse_assertion_same_checks c req s r s' :
  parse_assertion c req s r = Ok s' <-> parse_assertion_uniform c req s r = Ok s'.
Proof.
  unfold parse_assertion, parse_assertion_uniform.
  destruct (negb ((List.length (r_assertions r) =? 1)%nat || (List.length (r_encrypted r) =? 1)%nat)); [tauto|].
  destruct (check_assertions c (r_irt r) req false false s (r_assertions r)) as [s1|]; [|tauto].
  destruct (r_encrypted r) as [|e encs]; [tauto|].
  set (dec := decrypted_prefix (e :: encs)).
  split.
  - destruct (verify_decrypted dec) as [[]|] eqn:Ev; [|discriminate].
    apply verify_decrypted_ok in Ev. now rewrite (check_assertions_flag c (r_irt r) req true dec s1 Ev).
  - intros H.
    destruct (check_assertions c (r_irt r) req false true s1 dec) as [s2|] eqn:Ec; [|discriminate].
    pose proof (check_assertions_false_sig _ _ _ _ _ _ _ Ec) as F.
    pose proof F as F'. apply verify_decrypted_ok in F'. rewrite F'.
    rewrite (check_assertions_flag c (r_irt r) req true dec s1 F), Ec. exact H.
Qed.

(* _assertion leaves self.assertions alone; the name identifier becomes the assertion's when it has one *)
Lemma check_assertion_nid c irt req v s a s' :
  check_assertion c irt req v s a = Ok s' ->
  acc s' = acc s /\ nid s' = match a_name_id a with Some n => Some n | None => nid s end.
Proof.
  intros H. apply check_assertion_ok in H as (s1 & s2 & kept & s3 & _ & Ea & Ec & Eg & ->).
  apply authn_statement_ok_ok in Ea as (sn & _ & _ & ->). apply condition_ok_frame in Ec as [o ->].
  apply get_subject_ok in Eg as [_ El]. apply subject_loop_ok in El as [[w ->] _].
  now destruct (a_name_id a), sn, o.
Qed.

(* name identifier after a run over a list: the last one that carries one, else the old value *)
Fixpoint last_name_id (l : list assertion) (d : option str) : option str :=
  match l with
  | [] => d
  | a :: rest => last_name_id rest (match a_name_id a with Some n => Some n | None => d end)
  end.

Lemma check_assertions_acc c irt req v push : forall l s s',
  check_assertions c irt req v push s l = Ok s' ->
  acc s' = acc s ++ (if push then map a_id l else []) /\ nid s' = last_name_id l (nid s).
Proof.
  induction l as [|a l IH]; intros s s' H; cbn [check_assertions] in H.
  - injection H as <-. cbn. destruct push; now rewrite ?app_nil_r.
  - destruct (check_assertion c irt req v s a) as [s1|] eqn:E; [|discriminate].
    destruct (check_assertion_nid _ _ _ _ _ _ _ E) as [A B].
    destruct (IH _ _ H) as [C D]. cbn [last_name_id map]. rewrite <- B. split.
    + rewrite C. destruct push; cbn; [|congruence]. rewrite A, <- app_assoc. reflexivity.
    + rewrite D. destruct push; reflexivity.
Qed.

Lemma last_name_id_in l : forall d n, last_name_id l d = Some n -> d = Some n \/ exists a, In a l /\ a_name_id a = Some n.
Proof.
  induction l as [|a l IH]; intros d n H; cbn in H; [now left|].
  destruct (IH _ _ H) as [Hd|(b & Hb & Hn)].
  - destruct (a_name_id a) eqn:Ea; [right; exists a; split; [now left|congruence]|now left].
  - right. exists b. split; [now right|exact Hn].
Qed.

Lemma last_name_id_app l1 : forall l d, last_name_id (l1 ++ l) d = last_name_id l (last_name_id l1 d).
Proof. induction l1 as [|x xs IHx]; intros l d; [reflexivity|]. cbn. apply IHx. Qed.

Lemma parse_assertion_reads c req s r s' : parse_assertion c req s r = Ok s' ->
  acc s' = acc s ++ map a_id (processed r) /\
  nid s' = last_name_id (r_assertions r ++ decrypted_prefix (r_encrypted r)) (nid s).
Proof.
  rewrite parse_assertion_eq. unfold processed. intros H. destruct (negb _); [discriminate|].
  destruct (check_assertions c (r_irt r) req false false s (r_assertions r)) as [s1|] eqn:E1; [|discriminate].
  destruct (verify_decrypted _); [|discriminate].
  destruct (check_assertions c (r_irt r) req true true s1 _) as [s2|] eqn:E2; [|discriminate]. injection H as <-.
  destruct (check_assertions_acc _ _ _ _ _ _ _ _ E1) as [A1 N1]. destruct (check_assertions_acc _ _ _ _ _ _ _ _ E2) as [A2 N2].
  cbn [push_all acc nid] in *. rewrite A2, A1, N2, N1, last_name_id_app, map_app, app_nil_r, !app_assoc. split; reflexivity.
Qed.

(* what a failed run over a list leaves in self.assertions: the ids of a prefix, all of whose members passed *)
Lemma acc_after_failure_prefix c irt req v : forall l s, exists l1 l2, l = l1 ++ l2 /\
  acc (acc_after_failure c irt req v s l) = acc s ++ map a_id l1 /\
  Forall (fun a => exists sa sa', check_assertion c irt req v sa a = Ok sa') l1.
Proof.
  induction l as [|a l IH]; intros s.
  - exists [], []. cbn. rewrite app_nil_r. repeat split; constructor.
  - cbn [acc_after_failure]. destruct (check_assertion c irt req v s a) as [s1|] eqn:E.
    + destruct (IH (push_acc s1 (a_id a))) as (l1 & l2 & -> & A & F). destruct (check_assertion_nid _ _ _ _ _ _ _ E) as [A1 _].
      exists (a :: l1), l2. split; [reflexivity|]. split; [|constructor; [now exists s, s1|exact F]].
      rewrite A. cbn [push_acc acc map]. now rewrite A1, <- app_assoc.
    + exists [], (a :: l). cbn. rewrite app_nil_r. repeat split; constructor.
Qed.

Lemma residue_acc_incl c req s r :
  incl (acc (parse_assertion_residue c req s r)) (acc s ++ map a_id (decrypted_prefix (r_encrypted r))).
Proof.
  unfold parse_assertion_residue.
  destruct (check_assertions c (r_irt r) req false false s (r_assertions r)) as [s1|] eqn:E1; [|apply incl_appl, incl_refl].
  destruct (check_assertions_acc _ _ _ _ _ _ _ _ E1) as [A1 _]. cbn in A1. rewrite app_nil_r in A1.
  destruct (verify_decrypted (decrypted_prefix (r_encrypted r))); [|apply incl_appl, incl_refl]. cbn [acc].
  destruct (acc_after_failure_prefix c (r_irt r) req true (decrypted_prefix (r_encrypted r)) s1) as (l1 & l2 & E & A & _).
  rewrite A, A1, E, map_app, app_assoc. apply incl_appl, incl_refl.
Qed.

Lemma residue_nid c req s r : nid (parse_assertion_residue c req s r) = nid s.
Proof. exact (proj1 (proj2 (residue_fields c req s r))). Qed.

