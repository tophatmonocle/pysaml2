(* Proofs/MdStore_lemmas.v — declarative specifications of the metadata store
   lookups and the proofs that the model (Model/MdStore.v) meets them.
   In order: association lists; what one document, one source and a sequence of loads put into the store
   (doc_entity, admissible, registered_source); service(); __getitem__ and certs(), with the code before
   proposed_fix/C03-1; entity attributes and attribute requirements; the configuration round trip. *)
From PV Require Import Lib.Base Model.MdStore Proofs.Dedup.
Open Scope N_scope.

Lemma str_eqb_sym a b : str_eqb a b = str_eqb b a.
Proof.
  destruct (str_eqb_spec a b) as [->|Hn]; [now rewrite str_eqb_refl|].
  destruct (str_eqb_spec b a) as [->|_]; [contradiction|reflexivity].
Qed.

Lemma aget_app {A} k (l l' : list (str * A)) :
  aget k (l ++ l') = match aget k l with Some v => Some v | None => aget k l' end.
Proof.
  induction l as [|[k' v'] l IH]; cbn [aget app]; [reflexivity|]. now destruct (str_eqb k k').
Qed.

Lemma aget_In {A} k (l : list (str * A)) v : aget k l = Some v -> In (k, v) l.
Proof.
  induction l as [|[k' v'] l IH]; cbn [aget]; [discriminate|].
  destruct (str_eqb_spec k k') as [->|Hn].
  - intros H; injection H as ->. now left.
  - intros H; right; auto.
Qed.

Lemma aset_In {A} k (v : A) l k' v' :
  In (k', v') (aset k v l) -> (k' = k /\ v' = v) \/ In (k', v') l.
Proof.
  induction l as [|[k0 v0] l IH]; cbn [aset].
  - intros [H|[]]; injection H as <- <-; auto.
  - destruct (str_eqb k k0).
    + intros [H|H]; [injection H as <- <-; auto|right; now right].
    + intros [H|H]; [right; now left|]. destruct (IH H) as [?|?]; [auto|right; now right].
Qed.

Lemma aset_fresh {A} k (v : A) l :
  ~ In k (map fst l) -> aset k v l = l ++ [(k, v)].
Proof.
  induction l as [|[k0 v0] l IH]; cbn [aset map fst app]; [reflexivity|].
  intros Hn. destruct (str_eqb_spec k k0) as [->|_].
  - exfalso; apply Hn; now left.
  - f_equal. apply IH. intros H; apply Hn; now right.
Qed.

Lemma Unknown_ne_Unsupported : UnknownSystemEntity <> UnsupportedBinding.
Proof. intros H. vm_compute in H. discriminate. Qed.

Lemma roles_of_In e typ r : In r (roles_of e typ) <-> In r (e_roles e) /\ r_type r = typ.
Proof. unfold roles_of. rewrite filter_In, str_eqb_eq. tauto. Qed.

Lemma use_ok_cases use k : use_ok use k = true <-> kd_use k = None \/ kd_use k = Some use.
Proof.
  unfold use_ok. destruct (kd_use k) as [u|].
  - rewrite str_eqb_eq. split; [intros ->; now right|intros [H|H]; [discriminate|now injection H]].
  - split; [now left|reflexivity].
Qed.

(* an occurrence of an EntityDescriptor that can be stored under [eid] *)
Definition acceptable (now : Z) (check : bool) (eid : str) (e : entity) : bool :=
  str_eqb eid (e_id e) && (negb check || valid now (e_valid_until e)) && storable e.

(* SPECIFICATION: the first acceptable occurrence, in its stored form *)
Definition doc_entity (now : Z) (check : bool) (b : docbody) (eid : str) : option entity :=
  match b with
  | Many vu IvOk es =>
      if negb check || valid now vu then option_map stored_form (find (acceptable now check eid) es) else None
  | Single e => if acceptable now check eid e then Some (stored_form e) else None
  | _ => None
  end.

(* one EntityDescriptor: what the table holds under an id afterwards *)
Lemma do_entity_get now check m e m' :
  do_entity now check m e = Ok m' ->
  forall eid, aget eid m' = match aget eid m with
                            | Some x => Some x
                            | None => if acceptable now check eid e then Some (stored_form e) else None
                            end.
Proof.
  unfold do_entity, acceptable. intros H eid.
  replace (negb check || valid now (e_valid_until e)) with (negb (check && negb (valid now (e_valid_until e))))
    by (destruct check, (valid now (e_valid_until e)); reflexivity).
  destruct (check && negb (valid now (e_valid_until e))); cbn [negb].
  - injection H as <-. rewrite andb_false_r. now destruct (aget eid m).
  - rewrite andb_true_r. destruct (aget (e_id e) m) as [x|] eqn:Edup.
    + injection H as <-. destruct (str_eqb_spec eid (e_id e)) as [->|_]; cbn [andb]; [now rewrite Edup|now destruct (aget eid m)].
    + destruct (existsb lacks_protocols (e_roles e)); [discriminate|]. destruct (storable e); injection H as <-.
      * rewrite aget_app, andb_true_r. reflexivity.
      * rewrite andb_false_r. now destruct (aget eid m).
Qed.

Lemma fold_ents_get now check es : forall m m',
  fold_ents now check m es = Ok m' ->
  forall eid, aget eid m' = match aget eid m with
                            | Some x => Some x
                            | None => option_map stored_form (find (acceptable now check eid) es)
                            end.
Proof.
  induction es as [|e es IH]; intros m m' H eid; cbn [fold_ents] in H.
  - injection H as <-. cbn [find option_map]. now destruct (aget eid m).
  - destruct (do_entity now check m e) as [m1|x] eqn:E1; [|discriminate].
    rewrite (IH _ _ H eid), (do_entity_get _ _ _ _ _ E1 eid). cbn [find].
    destruct (aget eid m); [reflexivity|]. now destruct (acceptable now check eid e).
Qed.

Lemma parse_get now check b m :
  parse now check b = Ok m -> forall eid, aget eid m = doc_entity now check b eid.
Proof.
  intros H eid. destruct b as [vu iv es|e|]; cbn [parse doc_entity] in *.
  - destruct iv; [|injection H as <-; reflexivity|discriminate].
    replace (negb check || valid now vu) with (negb (check && negb (valid now vu)))
      by (destruct check, (valid now vu); reflexivity).
    destruct (check && negb (valid now vu)); [discriminate|]. exact (fold_ents_get _ _ _ _ _ H eid).
  - exact (do_entity_get _ _ _ _ _ H eid).
  - injection H as <-. reflexivity.
Qed.

Lemma acceptable_true now check eid e :
  acceptable now check eid e = true ->
  e_id e = eid /\ storable e = true /\ (check = true -> valid now (e_valid_until e) = true).
Proof.
  unfold acceptable. intros H. apply andb_true_iff in H as [H Hst]. apply andb_true_iff in H as [Hid Hv].
  apply str_eqb_eq in Hid. repeat split; auto. now intros ->.
Qed.

(* what the specification selects: a storable occurrence of that id in the document, unexpired where validity is checked *)
Lemma doc_entity_sound now check b eid e :
  doc_entity now check b eid = Some e ->
  exists e0, e = stored_form e0 /\ e_id e0 = eid /\ storable e0 = true /\
    (check = true -> valid now (e_valid_until e0) = true) /\
    match b with
    | Many vu iv es => iv = IvOk /\ In e0 es /\ (check = true -> valid now vu = true)
    | Single e1 => e0 = e1
    | NotMetadata => False
    end.
Proof.
  unfold doc_entity. destruct b as [vu iv es|e1|]; [| |discriminate].
  - destruct iv; try discriminate.
    destruct (negb check || valid now vu) eqn:Ed; [|discriminate].
    destruct (find (acceptable now check eid) es) as [e0|] eqn:Ef; [|discriminate].
    cbn [option_map]. intros H; injection H as <-.
    destruct (find_some _ _ Ef) as [Hin Hacc]. apply acceptable_true in Hacc as (Hid & Hst & Hv).
    exists e0. repeat split; auto. now intros ->.
  - destruct (acceptable now check eid e1) eqn:Hacc; [|discriminate].
    intros H; injection H as <-. apply acceptable_true in Hacc as (Hid & Hst & Hv). now exists e1.
Qed.

(* check_validity as it reaches the source: only a remote source can switch it off *)
Definition eff_check (s : source) : bool :=
  match s_kind s with Remote => s_check s | _ => true end.

(* a source that MetadataStore.load can register: with a certificate and a
   signed root it is remote and its verification call answered True *)
Definition admissible (s : source) : Prop :=
  (s_kind s = Remote -> s_http_ok s = true) /\
  (s_kind s <> Inline -> s_cert s = true -> d_signed (s_doc s) = true ->
     s_kind s = Remote /\ s_verdict s = Ok true).

Lemma parse_and_check_iff now check s m :
  parse_and_check now check s = Ok m <->
  parse now check (d_body (s_doc s)) = Ok m /\
  (s_cert s = true -> d_signed (s_doc s) = true -> s_kind s = Remote /\ s_verdict s = Ok true).
Proof.
  unfold parse_and_check. destruct (parse now check (d_body (s_doc s))) as [m0|x]; [|intuition discriminate].
  destruct (s_cert s), (d_signed (s_doc s)); cbn [negb]; [|intuition discriminate..].
  destruct (s_kind s), (s_verdict s) as [[|]|x]; intuition congruence.
Qed.

Lemma parse_and_check_ok now check s m :
  parse_and_check now check s = Ok m ->
  parse now check (d_body (s_doc s)) = Ok m /\
  (s_cert s = true -> d_signed (s_doc s) = true -> s_kind s = Remote /\ s_verdict s = Ok true).
Proof. apply parse_and_check_iff. Qed.

Lemma load_source_iff now s m :
  load_source now s = Ok m <-> admissible s /\ parse now (eff_check s) (d_body (s_doc s)) = Ok m.
Proof.
  unfold load_source, eff_check, admissible. destruct (s_kind s) eqn:Ek.
  - intuition congruence.
  - rewrite parse_and_check_iff, Ek. intuition congruence.
  - destruct (s_http_ok s); [rewrite parse_and_check_iff, Ek|]; intuition congruence.
Qed.

(* a registered source with a certificate and a signed root is remote and its verification call answered True *)
Lemma load_source_verified now s m :
  load_source now s = Ok m -> s_kind s <> Inline -> s_cert s = true -> d_signed (s_doc s) = true ->
  s_kind s = Remote /\ s_verdict s = Ok true.
Proof. intros Hl. apply load_source_iff in Hl as [[_ Ha] _]. exact Ha. Qed.

(* a failed verification - reported by raising or by returning False - keeps the source out *)
Lemma failed_verification_fatal now s :
  s_kind s <> Inline -> s_cert s = true -> d_signed (s_doc s) = true -> s_verdict s <> Ok true ->
  exists x, load_source now s = Err x.
Proof.
  intros Hk Hc Hd Hv. destruct (load_source now s) as [m|x] eqn:El; [|now exists x].
  destruct (load_source_verified _ _ _ El Hk Hc Hd) as [_ Hb]. contradiction.
Qed.

Lemma load_source_get now s m :
  load_source now s = Ok m ->
  forall eid, aget eid m = doc_entity now (eff_check s) (d_body (s_doc s)) eid.
Proof. intros H. apply load_source_iff in H as [_ Hp]. exact (parse_get _ _ _ _ Hp). Qed.

Lemma load_all_In now srcs : forall st k m,
  In (k, m) (load_all now st srcs) ->
  In (k, m) st \/ exists s, In s srcs /\ s_key s = k /\ load_source now s = Ok m.
Proof.
  induction srcs as [|s srcs IH]; intros st k m H; cbn [load_all] in H; [now left|].
  apply IH in H as [H|(s' & Hin & Hk & Hl)].
  - unfold store_load in H. destruct (load_source now s) as [m0|x] eqn:El; cbn [fst] in H.
    + apply aset_In in H as [[-> ->]|H]; [|now left].
      right. exists s. split; [now left|]. split; [reflexivity|exact El].
    + now left.
  - right. exists s'. split; [now right|]. split; assumption.
Qed.

(* every registered source is a successful, admissible load of a configured source *)
Lemma registered_source now srcs k m :
  In (k, m) (load_all now [] srcs) ->
  exists s, In s srcs /\ s_key s = k /\ load_source now s = Ok m /\ admissible s /\
            forall eid, aget eid m = doc_entity now (eff_check s) (d_body (s_doc s)) eid.
Proof.
  intros H. apply load_all_In in H as [[]|(s & Hin & Hk & Hl)]. exists s.
  destruct (proj1 (load_source_iff _ _ _) Hl) as [Hadm _].
  split; [exact Hin|]. split; [exact Hk|]. split; [exact Hl|]. split; [exact Hadm|].
  exact (load_source_get _ _ _ Hl).
Qed.

Lemma stored_roles_sub e0 r : In r (e_roles (stored_form e0)) -> In r (e_roles e0).
Proof. apply incl_filter. Qed.

(* an entity held by a registered source is a declared, unexpired occurrence *)
Lemma served_entity_declared now srcs k m eid e :
  In (k, m) (load_all now [] srcs) -> aget eid m = Some e ->
  exists s e0, In s srcs /\ s_key s = k /\ admissible s /\ e = stored_form e0 /\ e_id e0 = eid /\
    (eff_check s = true -> valid now (e_valid_until e0) = true) /\
    match d_body (s_doc s) with
    | Many vu iv es => iv = IvOk /\ In e0 es /\ (eff_check s = true -> valid now vu = true)
    | Single e1 => e0 = e1
    | NotMetadata => False
    end.
Proof.
  intros Hin Hget. apply registered_source in Hin as (s & Hs & Hk & _ & Hadm & Hspec).
  rewrite Hspec in Hget. apply doc_entity_sound in Hget as (e0 & -> & Hid & _ & Hv & Hb).
  exists s, e0. split; [exact Hs|]. split; [exact Hk|]. split; [exact Hadm|]. split; [reflexivity|].
  split; [exact Hid|]. split; [exact Hv|]. exact Hb.
Qed.

(* the successfully loaded sources, in configuration order *)
Definition loaded (now : Z) (srcs : list source) : store :=
  flat_map (fun s => match load_source now s with Ok m => [(s_key s, m)] | Err _ => [] end) srcs.

Lemma load_all_distinct now srcs : forall st,
  NoDup (map s_key srcs) ->
  (forall k, In k (map fst st) -> ~ In k (map s_key srcs)) ->
  load_all now st srcs = st ++ loaded now srcs.
Proof.
  induction srcs as [|s srcs IH]; intros st Hnd Hdis; cbn [load_all loaded flat_map].
  - now rewrite app_nil_r.
  - cbn [map] in Hnd. inversion Hnd as [|? ? Hnotin Hnd']; subst.
    unfold store_load. destruct (load_source now s) as [m|x] eqn:El; cbn [fst].
    + rewrite aset_fresh.
      * rewrite IH; [now rewrite <- app_assoc| exact Hnd' |].
        intros k Hk. rewrite map_app, in_app_iff in Hk. destruct Hk as [Hk|[<-|[]]].
        -- intros Hin. apply (Hdis k Hk). cbn [map]. now right.
        -- exact Hnotin.
      * intros Hk. apply (Hdis _ Hk). cbn [map]. now left.
    + cbn [app]. apply IH; [exact Hnd'|]. intros k Hk Hin. apply (Hdis k Hk). cbn [map]. now right.
Qed.

Definition has_role (m : mdmap) (eid typ : str) : bool :=
  match aget eid m with Some e => negb (is_nil (roles_of e typ)) | None => false end.

(* SPECIFICATION of one source's answer, as a membership statement *)
Definition declares (m : mdmap) (eid typ svc binding : str) (s : service) : Prop :=
  exists e r, aget eid m = Some e /\ In r (e_roles e) /\ r_type r = typ /\
              In s (r_services r) /\ sv_type s = svc /\ sv_binding s = binding.

Lemma md_service_none m eid typ svc b :
  md_service m eid typ svc b = None <-> has_role m eid typ = false.
Proof.
  unfold md_service, has_role. destruct (aget eid m) as [e|]; [|tauto].
  destruct (roles_of e typ); cbn [is_nil negb]; split; congruence.
Qed.

Lemma md_service_In m eid typ svc b l :
  md_service m eid typ svc b = Some l ->
  forall s, In s l <-> declares m eid typ svc b s.
Proof.
  unfold md_service, declares. destruct (aget eid m) as [e|]; [|discriminate].
  destruct (roles_of e typ) as [|r0 rs] eqn:Er; [discriminate|]. rewrite <- Er. clear Er r0 rs.
  intros H; injection H as <-. intros s. rewrite filter_In, in_flat_map. split.
  - intros [(r & Hr & Hs) Hb]. unfold roles_of in Hr. apply filter_In in Hr as [Hr Ht].
    apply filter_In in Hs as [Hs Hv]. apply str_eqb_eq in Ht, Hv, Hb.
    exists e, r. repeat split; assumption.
  - intros (e' & r & He & Hr & Ht & Hs & Hv & Hb). injection He as <-. split.
    + exists r. split.
      * unfold roles_of. apply filter_In. split; [exact Hr|now apply str_eqb_eq].
      * apply filter_In. split; [exact Hs|now apply str_eqb_eq].
    + now apply str_eqb_eq.
Qed.

(* a source that does not end the loop *)
Definition quiet (eid typ svc b : str) (km : str * mdmap) : Prop :=
  md_service (snd km) eid typ svc b = None \/ md_service (snd km) eid typ svc b = Some [].

Lemma md_service_some m eid typ svc b l : md_service m eid typ svc b = Some l -> has_role m eid typ = true.
Proof.
  intros H. destruct (has_role m eid typ) eqn:E; [reflexivity|]. apply (md_service_none _ _ _ svc b) in E. congruence.
Qed.

(* a quiet source is passed over; the loop only remembers whether the entity had the role *)
Lemma service_loop_quiet k m st eid typ svc b known :
  quiet eid typ svc b (k, m) ->
  service_loop ((k, m) :: st) eid typ svc b known = service_loop st eid typ svc b (known || has_role m eid typ).
Proof.
  intros [H|H]; cbn [snd] in H; cbn [service_loop]; rewrite H.
  - apply md_service_none in H. now rewrite H, orb_false_r.
  - apply md_service_some in H. now rewrite H, orb_true_r.
Qed.

Lemma service_loop_all_quiet st eid typ svc b : forall known,
  Forall (quiet eid typ svc b) st ->
  service_loop st eid typ svc b known =
  Err (if known || existsb (fun km => has_role (snd km) eid typ) st then UnsupportedBinding else UnknownSystemEntity).
Proof.
  induction st as [|[k m] st IH]; intros known Hq.
  - cbn [service_loop existsb]. rewrite orb_false_r. now destruct known.
  - inversion Hq as [|? ? H0 Hq']; subst. rewrite (service_loop_quiet _ _ _ _ _ _ _ _ H0), (IH _ Hq').
    cbn [existsb snd]. now rewrite orb_assoc.
Qed.

(* the first non-quiet source answers *)
Lemma service_loop_first pre k m post eid typ svc b x l : forall known,
  Forall (quiet eid typ svc b) pre -> md_service m eid typ svc b = Some (x :: l) ->
  service_loop (pre ++ (k, m) :: post) eid typ svc b known = Ok (x :: l).
Proof.
  induction pre as [|[k0 m0] pre IH]; intros known Hq Hm; cbn [app].
  - cbn [service_loop]. now rewrite Hm.
  - inversion Hq as [|? ? H0 Hq']; subst. rewrite (service_loop_quiet _ _ _ _ _ _ _ _ H0). now apply IH.
Qed.

(* every store is all quiet, or has a first source with a non-empty answer *)
Lemma first_loud st eid typ svc b :
  Forall (quiet eid typ svc b) st \/
  exists pre k m post x l, st = pre ++ (k, m) :: post /\ Forall (quiet eid typ svc b) pre /\
                           md_service m eid typ svc b = Some (x :: l).
Proof.
  induction st as [|[k m] st IH]; [now left|].
  destruct (md_service m eid typ svc b) as [[|x l]|] eqn:Em.
  2: { (* a non-empty answer: this source is the first *) right. exists [], k, m, st, x, l. repeat split; auto. }
  all: assert (Hq0 : quiet eid typ svc b (k, m)) by (unfold quiet; cbn [snd]; auto);
    destruct IH as [IH|(pre & k' & m' & post & x & l & -> & Hq & Hm)];
    [left; now constructor|right; exists ((k, m) :: pre), k', m', post, x, l; repeat split; auto].
Qed.

Lemma store_service_ok_iff st eid typ svc b l :
  store_service st eid typ svc b = Ok l <->
  l <> [] /\ exists pre k m post, st = pre ++ (k, m) :: post /\
     md_service m eid typ svc b = Some l /\ Forall (quiet eid typ svc b) pre.
Proof.
  unfold store_service. split.
  - intros H. destruct (first_loud st eid typ svc b) as [Hq|(pre & k & m & post & x & l' & -> & Hq & Hm)].
    + rewrite (service_loop_all_quiet _ _ _ _ _ _ Hq) in H. discriminate.
    + rewrite (service_loop_first _ _ _ _ _ _ _ _ _ _ _ Hq Hm) in H. injection H as <-.
      split; [discriminate|]. now exists pre, k, m, post.
  - intros [Hne (pre & k & m & post & -> & Hm & Hq)]. destruct l as [|x l]; [contradiction|].
    now apply service_loop_first.
Qed.

Lemma store_service_unknown_iff st eid typ svc b :
  store_service st eid typ svc b = Err UnknownSystemEntity <->
  forall km, In km st -> has_role (snd km) eid typ = false.
Proof.
  unfold store_service. destruct (first_loud st eid typ svc b) as [Hq|(pre & k & m & post & x & l & -> & Hq & Hm)].
  - rewrite (service_loop_all_quiet _ _ _ _ _ _ Hq), <- existsb_false. cbn [orb].
    destruct (existsb (fun km => has_role (snd km) eid typ) st); [|split; reflexivity].
    split; [|discriminate]. intros H. exfalso. apply Unknown_ne_Unsupported. congruence.
  - rewrite (service_loop_first _ _ _ _ _ _ _ _ _ _ _ Hq Hm). split; [discriminate|]. intros Hall.
    specialize (Hall (k, m) (in_elt _ _ _)). apply md_service_some in Hm. cbn [snd] in Hall. congruence.
Qed.

Lemma store_service_unsupported_iff st eid typ svc b :
  store_service st eid typ svc b = Err UnsupportedBinding <->
  (forall km, In km st -> quiet eid typ svc b km) /\ exists km, In km st /\ has_role (snd km) eid typ = true.
Proof.
  unfold store_service. destruct (first_loud st eid typ svc b) as [Hq|(pre & k & m & post & x & l & -> & Hq & Hm)].
  - rewrite (service_loop_all_quiet _ _ _ _ _ _ Hq), <- (existsb_exists (fun km => has_role (snd km) eid typ)).
    cbn [orb]. destruct (existsb (fun km => has_role (snd km) eid typ) st).
    + split; [|reflexivity]. intros _. split; [now apply Forall_forall|reflexivity].
    + split; [|intros [_ H]; discriminate]. intros H. exfalso. apply Unknown_ne_Unsupported. congruence.
  - rewrite (service_loop_first _ _ _ _ _ _ _ _ _ _ _ Hq Hm). split; [discriminate|]. intros [Hall _].
    destruct (Hall (k, m) (in_elt _ _ _)) as [H|H]; cbn [snd] in H; congruence.
Qed.

Lemma store_service_classes st eid typ svc b :
  (exists l, store_service st eid typ svc b = Ok l /\ l <> []) \/
  store_service st eid typ svc b = Err UnsupportedBinding \/
  store_service st eid typ svc b = Err UnknownSystemEntity.
Proof.
  unfold store_service. destruct (first_loud st eid typ svc b) as [Hq|(pre & k & m & post & x & l & -> & Hq & Hm)].
  - right. rewrite (service_loop_all_quiet _ _ _ _ _ _ Hq). cbn [orb]. destruct (existsb _ st); auto.
  - left. exists (x :: l). rewrite (service_loop_first _ _ _ _ _ _ _ _ _ _ _ Hq Hm). split; [reflexivity|discriminate].
Qed.

Lemma known_anywhere_never_unknown pre k m post eid typ svc b :
  has_role m eid typ = true ->
  store_service (pre ++ (k, m) :: post) eid typ svc b <> Err UnknownSystemEntity.
Proof.
  intros Hr H. rewrite store_service_unknown_iff in H.
  specialize (H (k, m) ltac:(apply in_or_app; right; now left)). cbn [snd] in H. congruence.
Qed.

Lemma store_service_single k m eid typ svc b :
  store_service [(k, m)] eid typ svc b =
  match md_service m eid typ svc b with
  | Some (x :: l) => Ok (x :: l)
  | Some [] => Err UnsupportedBinding
  | None => Err UnknownSystemEntity
  end.
Proof. unfold store_service. cbn [service_loop]. now destruct (md_service m eid typ svc b) as [[|]|]. Qed.

Lemma store_get_char st eid :
  match store_get st eid with
  | Some e => exists pre k m post, st = pre ++ (k, m) :: post /\ aget eid m = Some e /\
                                   Forall (fun km => aget eid (snd km) = None) pre
  | None => forall km, In km st -> aget eid (snd km) = None
  end.
Proof.
  induction st as [|[k m] st IH]; cbn [store_get]; [intros km []|].
  destruct (aget eid m) as [e|] eqn:Em.
  - exists [], k, m, st. repeat split; auto.
  - destruct (store_get st eid) as [e|].
    + destruct IH as (pre & k' & m' & post & -> & Hm & Hq).
      exists ((k, m) :: pre), k', m', post. repeat split; auto.
    + intros km [<-|Hin]; [exact Em|auto].
Qed.

Lemma store_get_In st eid e : store_get st eid = Some e -> exists k m, In (k, m) st /\ aget eid m = Some e.
Proof.
  intros H. pose proof (store_get_char st eid) as C. rewrite H in C.
  destruct C as (pre & k & m & post & -> & Hm & _). exists k, m. split; [|exact Hm].
  apply in_or_app. right. now left.
Qed.

(* the store's loops are the generic ones of Proofs/Dedup.v *)
Lemma fold_add_new cs : forall res, fold_left add_new cs res = gadd_new str_eqb res cs.
Proof.
  induction cs as [|c cs IH]; intros res; cbn [fold_left gadd_new]; [reflexivity|].
  rewrite IH. unfold add_new, mem_str. now destruct (existsb (str_eqb c) res).
Qed.

Lemma extract_loop_g use ks : forall res,
  extract_loop use ks res = gextract str_eqb kd_use (fun k => map repack_cert (kd_certs k)) use ks res.
Proof.
  induction ks as [|k ks IH]; intros res; cbn [extract_loop gextract]; [reflexivity|]. unfold use_ok.
  destruct (match kd_use k with None => true | Some u => str_eqb u use end); rewrite IH, ?fold_add_new; reflexivity.
Qed.

Lemma add_new_fold_In cs : forall res c,
  In c (fold_left add_new cs res) <-> In c res \/ In c cs.
Proof. intros res c. rewrite fold_add_new. apply gadd_new_In, str_eqb_eq. Qed.

(* SPECIFICATION: certificate c is declared for [use] by a role in [rs] *)
Definition role_declares (use : str) (rs : list role) (c : str) : Prop :=
  exists r k c0, In r rs /\ In k (r_keys r) /\ use_ok use k = true /\ In c0 (kd_certs k) /\ c = repack_cert c0.

Lemma extract_certs_ok use rs :
  NoDup (extract_certs use rs) /\ forall c, In c (extract_certs use rs) <-> role_declares use rs c.
Proof.
  unfold extract_certs. rewrite extract_loop_g. split; [apply gextract_NoDup; [exact str_eqb_eq|constructor]|].
  intros c. rewrite (gextract_In str_eqb str_eqb_eq). unfold role_declares. split.
  - intros [[]|(k & Hk & Hu & Hc)]. apply in_flat_map in Hk as (r & Hr & Hk).
    apply in_map_iff in Hc as (c0 & <- & Hc0). now exists r, k, c0.
  - intros (r & k & c0 & Hr & Hk & Hu & Hc & ->). right. exists k.
    split; [apply in_flat_map; now exists r|]. split; [exact Hu|now apply in_map].
Qed.

(* descriptor = any: the concatenation over the descriptor types (an absent type contributes nothing) *)
Lemma certs_any_flat use e ds :
  certs_any use e ds = flat_map (fun d => extract_certs use (roles_of e (descr_key d))) ds.
Proof.
  induction ds as [|d ds IH]; cbn [certs_any flat_map]; [reflexivity|].
  rewrite IH. now destruct (roles_of e (descr_key d)).
Qed.

Lemma certs_any_ok use e ds :
  forall c, In c (certs_any use e ds) <-> exists d, In d ds /\ role_declares use (roles_of e (descr_key d)) c.
Proof.
  intros c. rewrite certs_any_flat, in_flat_map.
  split; intros (d & Hd & H); exists d; (split; [exact Hd|]); now apply (proj2 (extract_certs_ok use _)).
Qed.

(* a certificate served for a descriptor type comes from a key descriptor of a role of that type, whose use is the
   requested one or absent *)
Lemma role_declares_roles_of use e t c :
  role_declares use (roles_of e t) c ->
  exists r k c0, In r (e_roles e) /\ In k (r_keys r) /\ (kd_use k = None \/ kd_use k = Some use) /\
                 In c0 (kd_certs k) /\ c = repack_cert c0 /\ r_type r = t.
Proof.
  intros (r & k & c0 & Hr & Hk & Hu & Hc & ->). apply roles_of_In in Hr as [Hr Ht]. apply use_ok_cases in Hu.
  now exists r, k, c0.
Qed.

(* MetadataStore.certs with the test "no descriptor of that type" as a boolean *)
Lemma store_certs_eq st eid d use :
  store_certs st eid d use =
  match store_get st eid with
  | None => Err KeyError
  | Some e =>
      if str_eqb d (s2l "any") then Ok (certs_any use e ANY_ROLES)
      else if is_nil (roles_of e (descr_key d)) then Err KeyError
           else Ok (extract_certs use (roles_of e (descr_key d)))
  end.
Proof.
  unfold store_certs. destruct (store_get st eid) as [e|]; [|reflexivity].
  destruct (str_eqb d (s2l "any")); [reflexivity|]. now destruct (roles_of e (descr_key d)).
Qed.

(* ---- the code before proposed_fix/C03-1: a use-matching key descriptor without X509Data raised KeyError ---- *)
Lemma extract_loop_before_fix_char use ks : forall res,
  match extract_loop_before_fix use ks res with
  | Ok l => l = extract_loop use ks res
  | Err x => x = KeyError /\ exists k, In k ks /\ use_ok use k = true /\ kd_certs k = []
  end.
Proof.
  induction ks as [|k ks IH]; intros res; cbn [extract_loop_before_fix extract_loop]; [reflexivity|].
  destruct (use_ok use k) eqn:Eu.
  - destruct (kd_certs k) as [|c1 cs] eqn:Ec; cbn [is_nil].
    + split; [reflexivity|]. exists k. repeat split; auto. now left.
    + rewrite <- Ec. specialize (IH (fold_left add_new (map repack_cert (kd_certs k)) res)).
      destruct (extract_loop_before_fix use ks _) as [l|x]; [exact IH|].
      destruct IH as [-> (k' & Hk & Hu & Hc)]. split; [reflexivity|]. exists k'. repeat split; auto. now right.
  - specialize (IH res). destruct (extract_loop_before_fix use ks res) as [l|x]; [exact IH|].
    destruct IH as [-> (k' & Hk & Hu & Hc)]. split; [reflexivity|]. exists k'. repeat split; auto. now right.
Qed.

Lemma extract_loop_before_fix_complete use ks : forall res,
  (forall k, In k ks -> use_ok use k = true -> kd_certs k <> []) ->
  extract_loop_before_fix use ks res = Ok (extract_loop use ks res).
Proof.
  intros res H. pose proof (extract_loop_before_fix_char use ks res) as C.
  destruct (extract_loop_before_fix use ks res) as [l|x]; [now subst|].
  destruct C as [_ (k & Hk & Hu & Hc)]. exfalso. exact (H k Hk Hu Hc).
Qed.

Lemma extract_certs_before_fix_char use rs :
  match extract_certs_before_fix use rs with
  | Ok l => l = extract_certs use rs
  | Err x => x = KeyError /\ exists r k, In r rs /\ In k (r_keys r) /\ use_ok use k = true /\ kd_certs k = []
  end.
Proof.
  unfold extract_certs_before_fix, extract_certs. pose proof (extract_loop_before_fix_char use (flat_map r_keys rs) []) as C.
  destruct (extract_loop_before_fix use (flat_map r_keys rs) []) as [l|x]; [exact C|].
  destruct C as [-> (k & Hk & Hu & Hc)]. split; [reflexivity|].
  apply in_flat_map in Hk as (r & Hr & Hk). exists r, k. repeat split; auto.
Qed.

(* the code before proposed_fix/C03-1: whenever it answered it gave today's answer; it raised KeyError in one more case *)
Lemma certs_any_before_fix_char use e : forall ds,
  match certs_any_before_fix use e ds with
  | Ok l => l = certs_any use e ds
  | Err x => x = KeyError /\ exists d r k, In d ds /\ In r (roles_of e (descr_key d)) /\ In k (r_keys r) /\
                                          use_ok use k = true /\ kd_certs k = []
  end.
Proof.
  induction ds as [|d ds IH]; cbn [certs_any_before_fix certs_any]; [reflexivity|].
  destruct (roles_of e (descr_key d)) as [|r0 rs] eqn:Er.
  - destruct (certs_any_before_fix use e ds) as [l|x]; [exact IH|].
    destruct IH as (-> & d' & r & k & Hd & Hr). split; [reflexivity|]. exists d', r, k. split; [now right|exact Hr].
  - rewrite <- Er. pose proof (extract_certs_before_fix_char use (roles_of e (descr_key d))) as C.
    destruct (extract_certs_before_fix use (roles_of e (descr_key d))) as [l1|y].
    + subst l1. destruct (certs_any_before_fix use e ds) as [l2|y]; [now subst|].
      destruct IH as (-> & d' & r & k & Hd & Hr). split; [reflexivity|]. exists d', r, k. split; [now right|exact Hr].
    + destruct C as (-> & r & k & Hr & Hk & Hu & Hc). split; [reflexivity|]. exists d, r, k. repeat split; auto. now left.
Qed.

Definition hits (n : str) (attrs : list eattr) : bool := existsb (fun a => str_eqb n (ea_name a)) attrs.
Definition vals_of (n : str) (attrs : list eattr) : list str :=
  flat_map ea_values (filter (fun a => str_eqb n (ea_name a)) attrs).
Definition odefault (o : option (list str)) : list str := match o with Some l => l | None => [] end.

Lemma hits_app n a b : hits n (a ++ b) = hits n a || hits n b.
Proof. unfold hits. apply existsb_app. Qed.
Lemma vals_of_app n a b : vals_of n (a ++ b) = vals_of n a ++ vals_of n b.
Proof. unfold vals_of. now rewrite filter_app, flat_map_app. Qed.
Lemma vals_of_nohit n attrs : hits n attrs = false -> vals_of n attrs = [].
Proof. intros H. unfold vals_of. now rewrite (filter_none _ _ (proj1 (existsb_false _ _) H)). Qed.

(* what reading the Attributes [attrs] does to the entry of name n *)
Definition upd (o : option (list str)) (n : str) (attrs : list eattr) : option (list str) :=
  if hits n attrs then Some (odefault o ++ vals_of n attrs) else o.

Lemma upd_app o n a b : upd (upd o n a) n b = upd o n (a ++ b).
Proof.
  unfold upd. rewrite hits_app, vals_of_app.
  destruct (hits n a) eqn:Ha, (hits n b) eqn:Hb; cbn [orb odefault]; try reflexivity.
  - now rewrite app_assoc.
  - now rewrite (vals_of_nohit _ _ Hb), app_nil_r.
  - now rewrite (vals_of_nohit _ _ Ha).
Qed.

Lemma ea_add_get res a n : aget n (ea_add res (ea_name a) (ea_values a)) = upd (aget n res) n [a].
Proof.
  unfold upd, hits, vals_of. cbn [existsb filter]. rewrite orb_false_r.
  induction res as [|[k v] res IH]; cbn [ea_add aget odefault].
  - destruct (str_eqb n (ea_name a)); cbn [flat_map app]; [now rewrite app_nil_r|reflexivity].
  - destruct (str_eqb_spec k (ea_name a)) as [->|Hk]; cbn [aget].
    + destruct (str_eqb n (ea_name a)); cbn [flat_map odefault]; [now rewrite app_nil_r|reflexivity].
    + destruct (str_eqb_spec n k) as [->|Hnk]; [|exact IH].
      destruct (str_eqb_spec k (ea_name a)) as [->|_]; [contradiction|reflexivity].
Qed.

Lemma ea_attrs_get attrs : forall res res',
  ea_attrs res attrs = Ok res' -> forall n, aget n res' = upd (aget n res) n attrs.
Proof.
  induction attrs as [|a attrs IH]; intros res res' H n; cbn [ea_attrs] in H.
  - injection H as <-. reflexivity.
  - destruct (is_nil (ea_values a)); [discriminate|].
    rewrite (IH _ _ H n), ea_add_get. apply (upd_app _ n [a]).
Qed.

Lemma ea_elems_get elems : forall res res',
  ea_elems res elems = Ok res' -> forall n, aget n res' = upd (aget n res) n (List.concat elems).
Proof.
  induction elems as [|attrs elems IH]; intros res res' H n; cbn [ea_elems] in H.
  - injection H as <-. reflexivity.
  - destruct (is_nil attrs); [discriminate|].
    destruct (ea_attrs res attrs) as [r1|x] eqn:E1; [|discriminate].
    rewrite (IH _ _ H n), (ea_attrs_get _ _ _ E1 n). apply upd_app.
Qed.

(* SPECIFICATION: the values of name n are the values of every Attribute of
   that name in the entity's EntityAttributes, in document order *)
Lemma entity_attributes_exact st eid res :
  store_entity_attributes st eid = Ok res ->
  forall n, aget n res =
    match store_get st eid with
    | None => None
    | Some e => if hits n (List.concat (e_eattrs e)) then Some (vals_of n (List.concat (e_eattrs e))) else None
    end.
Proof.
  unfold store_entity_attributes. destruct (store_get st eid) as [e|].
  - intros H n. now rewrite (ea_elems_get _ _ _ H n).
  - intros H n. injection H as <-. reflexivity.
Qed.

Lemma attribute_default st eid res n :
  store_entity_attributes st eid = Ok res ->
  match aget n res with Some l => l | None => [] end =
  match store_get st eid with None => [] | Some e => vals_of n (List.concat (e_eattrs e)) end.
Proof.
  intros E. rewrite (entity_attributes_exact _ _ _ E n). destruct (store_get st eid) as [e|]; [|reflexivity].
  destruct (hits n (List.concat (e_eattrs e))) eqn:Eh; [reflexivity|]. now rewrite vals_of_nohit.
Qed.

Lemma vals_of_In attrs a v :
  In a attrs -> In v (ea_values a) -> hits (ea_name a) attrs = true /\ In v (vals_of (ea_name a) attrs).
Proof.
  intros Ha Hv. split.
  - unfold hits. apply existsb_exists. exists a. split; [exact Ha|apply str_eqb_refl].
  - unfold vals_of. apply in_flat_map. exists a. split; [|exact Hv].
    apply filter_In. split; [exact Ha|apply str_eqb_refl].
Qed.

(* the number of values served under a name is the number declared under it, Attribute by Attribute *)
Lemma vals_of_length n attrs :
  List.length (vals_of n attrs) =
  fold_right (fun a acc => ((if str_eqb n (ea_name a) then List.length (ea_values a) else O) + acc)%nat) O attrs.
Proof.
  unfold vals_of. induction attrs as [|a attrs IH]; [reflexivity|]. cbn [filter fold_right].
  destruct (str_eqb n (ea_name a)); cbn [flat_map]; [rewrite app_length|]; now rewrite IH.
Qed.

(* the RequestedAttributes of the selected AttributeConsumingServices of all SP descriptors, in document order *)
Lemma sps_selected_exact index sps : forall l,
  sps_selected index sps = Some l ->
  l = flat_map ac_req (filter (index_selected index) (flat_map r_acs sps)).
Proof.
  induction sps as [|sp sps IH]; intros l H; cbn [sps_selected] in H.
  - injection H as <-. reflexivity.
  - destruct (sp_selected index sp) as [a|] eqn:Ea; [|discriminate].
    destruct (sps_selected index sps) as [b|]; [|discriminate]. injection H as <-.
    cbn [flat_map]. rewrite filter_app, flat_map_app, <- (IH _ eq_refl). f_equal.
    unfold sp_selected in Ea. destruct (is_nil (r_acs sp)); [discriminate|].
    destruct (existsb _ _); [discriminate|]. now injection Ea as <-.
Qed.

Lemma do_endpoints_type svc indexed eps : forall i s,
  In s (do_endpoints svc indexed i eps) -> sv_type s = svc.
Proof.
  induction eps as [|ep eps IH]; intros i s; cbn [do_endpoints]; [intros []|].
  destruct indexed; [destruct (ce_index ep)|]; intros [<-|H]; try reflexivity; eauto.
Qed.

Lemma role_of_cfg_saml2 kds cr : role_saml2 (role_of_cfg kds cr) = true.
Proof. unfold role_saml2, role_of_cfg. cbn [r_protocols]. vm_compute. reflexivity. Qed.

Lemma filter_roles_cfg kds crs : filter_roles (map (role_of_cfg kds) crs) = map (role_of_cfg kds) crs.
Proof.
  apply filter_all. intros r Hr. unfold type_kept. apply existsb_exists. exists r. split; [exact Hr|].
  rewrite str_eqb_refl. apply in_map_iff in Hr as (cr & <- & _). apply role_of_cfg_saml2.
Qed.

Lemma cfg_no_lacking kds crs : existsb lacks_protocols (map (role_of_cfg kds) crs) = false.
Proof. induction crs as [|cr l IH]; cbn [map existsb]; [reflexivity|]. now rewrite IH. Qed.

(* the store obtained by loading the generated descriptor *)
Lemma roundtrip_store now cfg e :
  entity_of_cfg cfg = Ok e -> c_roles cfg <> [] ->
  load_all now [] [inline_source e] = [(s2l "1", [(c_entityid cfg, e)])].
Proof.
  unfold entity_of_cfg. destruct (do_key_descriptor _ _ _) as [kds|x]; [|discriminate].
  intros H Hne; injection H as <-.
  set (e := {| e_id := c_entityid cfg; e_valid_until := None; e_roles := map (role_of_cfg kds) (c_roles cfg);
               e_affil := false; e_eattrs := [] |}).
  assert (load_source now (inline_source e) = Ok [(c_entityid cfg, e)]) as Hl.
  { unfold load_source, inline_source. cbn [s_kind s_doc d_body parse]. unfold do_entity.
    cbn [e e_valid_until valid negb andb aget e_id e_roles].
    rewrite cfg_no_lacking.
    assert (stored_form e = e) as Hsf.
    { unfold stored_form. subst e. cbn [e_id e_valid_until e_roles e_affil e_eattrs]. now rewrite filter_roles_cfg. }
    assert (storable e = true) as ->.
    { unfold storable. subst e. cbn [e_roles e_affil]. rewrite filter_roles_cfg.
      destruct (c_roles cfg) as [|cr l]; [contradiction|]. reflexivity. }
    rewrite Hsf. reflexivity. }
  unfold load_all, store_load. rewrite Hl. reflexivity.
Qed.
