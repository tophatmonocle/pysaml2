(* C01 - several plain assertions in one response (Model/MultiAssertion.v): every assertion the loop passed was checked
   on its own, and the identity and name id the application reads come from checked assertions only *)
From PV Require Import Lib.Base Model.MultiAssertion.
Import ListNotations.
Open Scope N_scope.

Lemma In_upd d k v kv : In kv (upd d k v) -> kv = (k, v) \/ In kv d.
Proof.
  induction d as [|[k' v'] r IH]; cbn.
  - intros [<-|[]]. left. reflexivity.
  - destruct (str_eqb k' k).
    + intros [<-|H]; [left; reflexivity|right; right; exact H].
    + intros [<-|H]; [right; left; reflexivity|]. destruct (IH H) as [->|H']; [left; reflexivity|right; right; exact H'].
Qed.

Lemma In_update e : forall d kv, In kv (update d e) -> In kv d \/ In kv e.
Proof.
  induction e as [|[k v] e IH]; intros d kv H; cbn in *.
  - left. exact H.
  - apply IH in H as [H|H].
    + apply In_upd in H as [->|H]; [right; left; reflexivity|left; exact H].
    + right. right. exact H.
Qed.

Lemma In_identity_from l : forall acc kv,
  In kv (fold_left (fun d a => update d (a_ident a)) l acc) ->
  In kv acc \/ exists a, In a l /\ In kv (a_ident a).
Proof.
  induction l as [|a l IH]; intros acc kv H; cbn in *.
  - left. exact H.
  - apply IH in H as [H|(b & Hb & Hkv)].
    + apply In_update in H as [H|H]; [left; exact H|right; exists a; split; [left; reflexivity|exact H]].
    + right. exists b. split; [right; exact Hb|exact Hkv].
Qed.

Lemma parse_plain_all_checked req l : forall nm nm',
  parse_plain req l nm = Some nm' ->
  Forall (fun a => assertion_checked req a = true) l /\
  (nm' = nm \/ exists a, In a l /\ nm' = Some (a_name a)).
Proof.
  induction l as [|a l IH]; intros nm nm' H; cbn in H.
  - injection H as <-. split; [constructor|left; reflexivity].
  - destruct (assertion_checked req a) eqn:Ea; [|discriminate].
    apply IH in H as [Hall Hn]. split; [constructor; assumption|].
    right. destruct Hn as [->|(b & Hb & ->)].
    + exists a. split; [left; reflexivity|reflexivity].
    + exists b. split; [right; exact Hb|reflexivity].
Qed.

Lemma checked_required_means_verified a : assertion_checked true a = true -> a_signed a = true /\ a_sig_ok a = true /\ a_cond_ok a = true.
Proof.
  unfold assertion_checked. destruct (a_signed a); cbn; intros H.
  - apply andb_true_iff in H as [H1 H2]. auto.
  - discriminate.
Qed.

Lemma signed_is_verified_whatever_setting req a : assertion_checked req a = true -> a_signed a = true -> a_sig_ok a = true.
Proof. unfold assertion_checked. intros H Hs. rewrite Hs in H. apply andb_true_iff in H as [H _]. exact H. Qed.
