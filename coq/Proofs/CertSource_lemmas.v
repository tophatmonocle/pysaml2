(* Proofs/CertSource_lemmas.v — static and lazy (MDQ) metadata sources (Model/CertSource.v): a lookup hands out only
   a descriptor named like the asked id, what a store comes to hold, and soundness of one check and of histories. *)
From PV Require Import Lib.Base Model.Sigver Model.CertSelect Model.CertSource Proofs.CertSelect_lemmas.
Open Scope N_scope.

Lemma find_desc_some c i d : find_desc c i = Some d -> In d c /\ d_id d = i.
Proof.
  induction c as [|x rest IH]; cbn [find_desc]; [discriminate|].
  destruct (str_eqb i (d_id x)) eqn:E.
  - intros H. injection H as <-. split; [now left|]. apply str_eqb_eq in E. now subst.
  - intros H. destruct (IH H) as [Hi Hd]. split; [now right|exact Hd].
Qed.

Lemma file_desc_In c d x : In x (file_desc c d) -> In x c \/ x = d.
Proof.
  unfold file_desc. destruct (find_desc c (d_id d)); [now left|].
  rewrite in_app_iff. cbn [In]. intros [H|[H|[]]]; [now left|right; now subst].
Qed.

Lemma file_all_In ds : forall c x, In x (file_all c ds) -> In x c \/ In x ds.
Proof.
  induction ds as [|d rest IH]; intros c x; unfold file_all; cbn [fold_left]; [now left|].
  intros H. apply IH in H as [H|H]; [|right; now right].
  apply file_desc_In in H as [H|H]; [now left|right; left; now subst].
Qed.

Definition served_now (srv : server) (asked : str) (d : descriptor) : Prop :=
  exists ds, srv asked = Served ds /\ In d ds.

Lemma lazy_lookup_cache srv c asked r c' :
  lazy_lookup srv c asked = (r, c') -> forall x, In x c' -> In x c \/ served_now srv asked x.
Proof.
  unfold lazy_lookup. destruct (find_desc c asked) as [d|].
  - intros H x. injection H as _ <-. now left.
  - destruct (srv asked) as [| |ds] eqn:S.
    + intros H x. injection H as _ <-. now left.
    + intros H x. injection H as _ <-. now left.
    + intros H x Hx. injection H as _ <-. apply file_all_In in Hx as [Hx|Hx]; [now left|right; now exists ds].
Qed.

Lemma lazy_lookup_found srv c asked d c' :
  lazy_lookup srv c asked = (Found d, c') -> d_id d = asked /\ In d c'.
Proof.
  unfold lazy_lookup. destruct (find_desc c asked) as [d0|] eqn:F.
  - intros H. injection H as <- <-. apply find_desc_some in F. tauto.
  - destruct (srv asked) as [| |ds]; try discriminate.
    destruct (find_desc (file_all c ds) asked) as [d1|] eqn:F1; [|discriminate].
    intros H. injection H as <- <-. apply find_desc_some in F1. tauto.
Qed.

Lemma holds_cons s ss x : holds (s :: ss) x <-> In x (source_cache s) \/ holds ss x.
Proof.
  unfold holds. split.
  - intros (s' & [<-|Hs] & Hx); [now left|right; now exists s'].
  - intros [Hx|(s' & Hs & Hx)]; [exists s; split; [now left|exact Hx]|exists s'; split; [now right|exact Hx]].
Qed.

Lemma store_lookup_spec srv asked : forall ss r ss',
  store_lookup srv ss asked = (r, ss') ->
  (forall d, r = Found d -> d_id d = asked /\ holds ss' d) /\
  (forall x, holds ss' x -> holds ss x \/ served_now srv asked x).
Proof.
  induction ss as [|s rest IH]; intros r ss'; cbn [store_lookup].
  - intros H. injection H as <- <-. split; [discriminate|]. intros x (s & [] & _).
  - (* a source that answers KeyError hands the question on: both facts pass through the tail *)
    assert (Hnext : forall s' r0 rest', store_lookup srv rest asked = (r0, rest') ->
              (forall x, In x (source_cache s') -> holds (s :: rest) x \/ served_now srv asked x) ->
              (forall d, r0 = Found d -> d_id d = asked /\ holds (s' :: rest') d) /\
              (forall x, holds (s' :: rest') x -> holds (s :: rest) x \/ served_now srv asked x)).
    { intros s' r0 rest' R Hs'. destruct (IH _ _ R) as [IHf IHh]. split.
      - intros d E. destruct (IHf d E) as [Hd Hh]. split; [exact Hd|]. apply holds_cons. now right.
      - intros x Hx. apply holds_cons in Hx as [Hx|Hx]; [now apply Hs'|].
        destruct (IHh x Hx) as [H|H]; [left; apply holds_cons; now right|now right]. }
    destruct s as [c|c].
    + destruct (find_desc c asked) as [d|] eqn:F.
      * intros H. injection H as <- <-. split; [|now left]. intros d0 E. injection E as <-.
        apply find_desc_some in F as [Hi Hd]. split; [exact Hd|]. apply holds_cons. now left.
      * destruct (store_lookup srv rest asked) as [r0 rest'] eqn:R. intros H. injection H as <- <-.
        apply (Hnext _ _ _ eq_refl). intros x Hx. left. apply holds_cons. now left.
    + destruct (lazy_lookup srv c asked) as [l c'] eqn:L.
      assert (Hc : forall x, In x c' -> holds (Lazy c :: rest) x \/ served_now srv asked x).
      { intros x Hx. destruct (lazy_lookup_cache _ _ _ _ _ L x Hx) as [H|H]; [left; apply holds_cons; now left|now right]. }
      assert (Hstop : forall x, holds (Lazy c' :: rest) x -> holds (Lazy c :: rest) x \/ served_now srv asked x).
      { intros x Hx. apply holds_cons in Hx as [Hx|Hx]; [now apply Hc|left; apply holds_cons; now right]. }
      destruct l as [d| |e].
      * intros H. injection H as <- <-. split; [|exact Hstop]. intros d0 E. injection E as <-.
        apply lazy_lookup_found in L as [Hd Hi]. split; [exact Hd|]. apply holds_cons. now left.
      * destruct (store_lookup srv rest asked) as [r0 rest'] eqn:R. intros H. injection H as <- <-.
        exact (Hnext (Lazy c') _ _ eq_refl Hc).
      * intros H. injection H as <- <-. split; [discriminate|exact Hstop].
Qed.

(* one check: accepted => the key is declared by a descriptor NAMED like the issuer which the store held or the
   server has just sent - or (setting off only) it is the embedded certificate's *)
Lemma src_check_sound srv ss issuer only embedded signer ss' :
  src_check srv ss issuer only embedded signer = (Ok tt, ss') ->
  (exists d, d_id d = issuer /\ (holds ss d \/ served_now srv issuer d) /\ declares_signing d signer) \/
  (only = false /\ In signer embedded).
Proof.
  unfold src_check. destruct (store_lookup srv ss issuer) as [r ss0] eqn:L. intros H. injection H as Hv <-.
  destruct r as [d| |e]; cbn [verdict_of] in Hv; [| |discriminate].
  - rewrite check_signature_verdict in Hv. apply verdict_cases in Hv as [(_ & l & Hm & Hk)|Hf]; [left|now right].
    destruct (store_lookup_spec _ _ _ _ _ L) as [Hf Hholds]. destruct (Hf d eq_refl) as [Hd Hh]. exists d.
    split; [exact Hd|]. split; [exact (Hholds d Hh)|].
    destruct (proj1 (md_certs_In _ _ _ _) (ex_intro _ l (conj Hm Hk))) as (e & r & kd & F & Hr).
    cbn [find_entity] in F. rewrite str_eqb_refl in F. injection F as <-. now exists r, kd.
  - rewrite check_signature_verdict in Hv. apply verdict_cases in Hv as [(_ & l & Hm & _)|Hf]; [discriminate|now right].
Qed.

Lemma src_check_holds srv ss issuer only embedded signer r ss' :
  src_check srv ss issuer only embedded signer = (r, ss') -> forall x, holds ss' x -> holds ss x \/ served_now srv issuer x.
Proof.
  unfold src_check. destruct (store_lookup srv ss issuer) as [r0 ss0] eqn:L. intros H. injection H as _ <-.
  exact (proj2 (store_lookup_spec _ _ _ _ _ L)).
Qed.

Definition served_in (qs : list step) (d : descriptor) : Prop :=
  exists q, In q qs /\ served_now (q_srv q) (q_issuer q) d.

(* src_check_sound along a history: what the store holds at step n was held at the start or sent up to then *)
Lemma run_steps_sound only : forall qs ss n q,
  nth_error qs n = Some q -> nth_error (run_steps only ss qs) n = Some (Ok tt) ->
  (exists d, d_id d = q_issuer q /\ (holds ss d \/ served_in (firstn (S n) qs) d) /\ declares_signing d (q_signer q)) \/
  (only = false /\ In (q_signer q) (q_embedded q)).
Proof.
  induction qs as [|q0 rest IH]; intros ss n q Hq Hr; [destruct n; discriminate|].
  cbn [run_steps] in Hr. destruct (src_check (q_srv q0) ss (q_issuer q0) only (q_embedded q0) (q_signer q0)) as [r ss'] eqn:C.
  destruct n as [|n]; cbn [nth_error] in Hq, Hr.
  - injection Hq as <-. injection Hr as ->.
    destruct (src_check_sound _ _ _ _ _ _ _ C) as [(d & Hd & Hw & Hs)|Hf]; [left|now right].
    exists d. split; [exact Hd|]. split; [|exact Hs]. destruct Hw as [Hh|Hv]; [now left|right].
    exists q0. split; [now left|exact Hv].
  - destruct (IH ss' n q Hq Hr) as [(d & Hd & Hw & Hs)|Hf]; [left|now right].
    exists d. split; [exact Hd|]. split; [|exact Hs]. destruct Hw as [Hh|(q' & Hq' & Hv)].
    + destruct (src_check_holds _ _ _ _ _ _ _ _ C d Hh) as [H0|H0]; [now left|right]. exists q0. split; [now left|exact H0].
    + right. exists q'. split; [|exact Hv]. change (firstn (S (S n)) (q0 :: rest)) with (q0 :: firstn (S n) rest). now right.
Qed.
