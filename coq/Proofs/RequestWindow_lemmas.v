(* C10 - the IssueInstant window on texts (Model/RequestWindow.v): the verdict of the code and of the three variants
   as windows on instants; then the witness clocks and texts of Props/C10.v (10f) with what the texts denote *)
From PV Require Import Lib.Base Model.TimeUtil Proofs.TimeUtil_lemmas Model.RequestWindow.
Open Scope Z_scope.

Lemma window_on_spec now slack s c : str_to_time s = Ok (Some c) -> window_on now slack s = Ok (within now slack (timegm c)).
Proof. intros H. unfold window_on, within. rewrite H, (issue_window_text now slack s c H). reflexivity. Qed.

(* the verdict of the code is the window on instants, for the UTC reading of now and the UTC reading of the text *)
Theorem window_text_spec k slack s c :
  str_to_time s = Ok (Some c) -> window_text k slack s = Ok (within (pc_now k) slack (timegm c)).
Proof. intros H. unfold window_text, dt_utcnow. exact (window_on_spec _ _ _ _ H). Qed.

(* ... hence a function of (now_utc, text, allowance) only: window_text does not read pc_ahead *)
Theorem window_text_zone_free now z z' slack s :
  window_text (Build_pclock now z) slack s = window_text (Build_pclock now z') slack s.
Proof. reflexivity. Qed.

Lemma within_iff now slack t : within now slack t = true <-> now - 86400 - slack <= t < now + 86400 + slack.
Proof. unfold within. rewrite Bool.andb_true_iff, Z.leb_le, Z.ltb_lt. tauto. Qed.

(* the variants: they shift the window by what the zone is ahead of UTC *)
Lemma utc_time_sans_frac_eq k : utc_time_sans_frac k = pc_now k - pc_ahead k.
Proof. unfold utc_time_sans_frac, t_mktime, t_gmtime_now. rewrite timegm_gmtime. reflexivity. Qed.

Theorem window_mktime_now_spec k slack s c :
  str_to_time s = Ok (Some c) -> window_text_mktime_now k slack s = Ok (within (pc_now k - pc_ahead k) slack (timegm c)).
Proof. intros H. unfold window_text_mktime_now. rewrite utc_time_sans_frac_eq. exact (window_on_spec _ _ _ _ H). Qed.

Theorem window_local_now_spec k slack s c :
  str_to_time s = Ok (Some c) -> window_text_local_now k slack s = Ok (within (pc_now k + pc_ahead k) slack (timegm c)).
Proof. intros H. unfold window_text_local_now, dt_now. exact (window_on_spec _ _ _ _ H). Qed.

Theorem window_mktime_text_spec k slack s c :
  str_to_time s = Ok (Some c) -> window_text_mktime_text k slack s = Ok (within (pc_now k) slack (timegm c - pc_ahead k)).
Proof.
  intros H. unfold window_text_mktime_text. rewrite H. unfold issue_window.
  rewrite (timetuple_ltb_l _ _ (gmtime_valid _)), (timetuple_ltb_r _ _ (gmtime_valid _)), timegm_gmtime. reflexivity.
Qed.

(* witnesses: the process in New York (summer, 4 h behind UTC) and in Tokyo (9 h ahead); now = 2026-09-21T14:13:20Z *)
Definition W_NOW : Z := 1790000000.
Definition k_new_york : pclock := Build_pclock W_NOW (-14400).
Definition k_tokyo : pclock := Build_pclock W_NOW 32400.
Definition k_utc : pclock := Build_pclock W_NOW 0.
Definition s_ahead_1d_1h : str := s2l "2026-09-22T15:13:20Z".     (* now + 1 d + 1 h *)
Definition s_ahead_23h : str := s2l "2026-09-22T13:13:20Z".       (* now + 23 h *)

(* what the two texts denote, evaluated once; each verdict on them then follows from a *_spec lemma by comparing
   integers (rewriting under several of these texts at once makes unification evaluate them again) *)
Lemma s_ahead_1d_1h_time : str_to_time s_ahead_1d_1h = Ok (Some (gmtime (W_NOW + 90000))).
Proof. vm_compute. reflexivity. Qed.
Lemma s_ahead_23h_time : str_to_time s_ahead_23h = Ok (Some (gmtime (W_NOW + 82800))).
Proof. vm_compute. reflexivity. Qed.

Section At.
  Context {s : str} {t : Z} (H : str_to_time s = Ok (Some (gmtime t))) (k : pclock) (slack : Z).
  Lemma window_text_at : window_text k slack s = Ok (within (pc_now k) slack t).
  Proof. rewrite (window_text_spec _ _ _ _ H), timegm_gmtime. reflexivity. Qed.
  Lemma window_mktime_now_at : window_text_mktime_now k slack s = Ok (within (pc_now k - pc_ahead k) slack t).
  Proof. rewrite (window_mktime_now_spec _ _ _ _ H), timegm_gmtime. reflexivity. Qed.
  Lemma window_local_now_at : window_text_local_now k slack s = Ok (within (pc_now k + pc_ahead k) slack t).
  Proof. rewrite (window_local_now_spec _ _ _ _ H), timegm_gmtime. reflexivity. Qed.
  Lemma window_mktime_text_at : window_text_mktime_text k slack s = Ok (within (pc_now k) slack (t - pc_ahead k)).
  Proof. rewrite (window_mktime_text_spec _ _ _ _ H), timegm_gmtime. reflexivity. Qed.
End At.
