(* Proofs/CacheKey_lemmas.v — the cache key: ident.decode is a left inverse of
   ident.code, hence code is injective: two name identifiers share a cache row
   only if all five fields agree (None and "" being the same absent value). *)
From PV Require Import Lib.Base Model.Codec Model.Cache Proofs.Base64_lemmas Proofs.Url_lemmas.
From PV Require Model.Ident Proofs.Ident_lemmas.
Module ID := PV.Model.Ident.
Module IDL := PV.Proofs.Ident_lemmas.
Open Scope N_scope.

Definition byte_nid (n : nameid) : Prop :=
  Forall byte (nq n) /\ Forall byte (spnq n) /\ Forall byte (fmt n) /\ Forall byte (spid n) /\ Forall byte (txt n).

Definition id_safe (c : N) : bool := url_safe c || (c =? SLASH).

(* Model/Cache.v's own copy of quote: quote_id and id_safe are Model/Ident.v's quote_s and Ident_lemmas.code_safe by
   conversion, so are their facts; the key theorems below go through Ident_lemmas.decode_code and need none of them *)
Lemma quote_id_safe bs : Forall byte bs -> forallb id_safe (quote_id bs) = true.
Proof. exact (IDL.quote_s_alphabet bs). Qed.

Lemma id_safe_no (sep : N) s : (sep = COMMA \/ sep = EQ) -> forallb id_safe s = true ->
  forallb (fun c => negb (c =? sep)) s = true.
Proof. intros [->| ->]; now apply (forallb_sep id_safe). Qed.

Lemma unquote_quote_id bs : Forall byte bs -> unquote (quote_id bs) = bs.
Proof. exact (IDL.unquote_quote_s bs). Qed.

Lemma has_char_false c s : forallb (fun x => negb (x =? c)) s = true -> has_char c s = false.
Proof.
  unfold has_char. induction s as [|x s IH]; cbn [forallb existsb]; [reflexivity|].
  intros H. apply andb_true_iff in H as [Hx Hs]. rewrite (IH Hs), orb_false_r.
  apply negb_true_iff in Hx. now rewrite N.eqb_sym.
Qed.

(* ident.code in Model/Ident.v and here: one function (code_of_ident), starting from the quoting *)
Lemma quote_same bs : ID.quote_s bs = quote_id bs.
Proof. reflexivity. Qed.

Lemma enc_part_code_field i o : ID.enc_part i o = code_field i (od o).
Proof.
  unfold ID.enc_part, code_field, od. destruct (ID.tr o) as [v|] eqn:E; [|reflexivity].
  apply IDL.tr_some in E as [_ Hne]. destruct v as [|c v]; [congruence|].
  unfold ID.digit. now rewrite quote_same.
Qed.

Theorem code_of_ident n : code (of_ident n) = ID.code n.
Proof.
  unfold code, ID.code, code_parts, ID.enc_parts, of_ident. cbn [nq spnq fmt spid txt].
  now rewrite !enc_part_code_field.
Qed.

Lemma of_ident_norm n : of_ident (ID.norm n) = of_ident n.
Proof. unfold of_ident, ID.norm, od. cbn. now rewrite !IDL.tr_tr. Qed.

(* a record of this file read back as an ident.py NameID *)
Definition to_ident (n : nameid) : ID.nameid :=
  ID.NameId (Some (nq n)) (Some (spnq n)) (Some (fmt n)) (Some (spid n)) (Some (txt n)).

Lemma od_some v : od (Some v) = v.
Proof. destruct v; reflexivity. Qed.

Lemma of_to_ident n : of_ident (to_ident n) = n.
Proof. destruct n. unfold of_ident, to_ident. cbn. now rewrite !od_some. Qed.

Lemma to_ident_wfb n : byte_nid n -> IDL.wfb (to_ident n).
Proof. intros (H0 & H1 & H2 & H3 & H4). repeat split; assumption. Qed.

(* the whole key: decode (= ident.decode of Model/Ident.v) is a left inverse of code *)
Theorem decode_code n : byte_nid n -> decode (code n) = Ok n.
Proof.
  intros H. unfold decode. rewrite <- (of_to_ident n) at 1. rewrite code_of_ident.
  rewrite (IDL.decode_code (to_ident n) (to_ident_wfb n H)). now rewrite of_ident_norm, of_to_ident.
Qed.

Theorem code_injective a b : byte_nid a -> byte_nid b -> code a = code b -> a = b.
Proof.
  intros Ha Hb H. pose proof (decode_code a Ha) as Da. rewrite H, (decode_code b Hb) in Da. congruence.
Qed.
