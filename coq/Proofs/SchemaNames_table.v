(* Proofs/SchemaNames_table.v — obligations the kernel evaluates on the REGENERATED intern table
   (Gen/SchemaNames.v) and the regenerated look-alike lists (C12).

   The tables are large (about 3000 names, 1200 classes, 7000 look-alike rows) and an independent
   checker re-evaluates every fact by plain reduction, so the evaluated terms avoid the linear
   [nth] of [name_of], the linear [find_row] and the quadratic scan of [names_distinct]: names are
   read through a binary trie built once, the look-alike lists are walked together with the schema
   (both are in class order), and distinctness is decided on the sorted table. *)
From Coq Require Import FMapPositive Sorting.Mergesort Sorting.Permutation Logic.FinFun.
From PV Require Import Lib.Base Model.Schema Model.SchemaDoc Gen.SchemaTables Gen.SchemaNames
  Proofs.Schema_lemmas Proofs.Schema_table Proofs.SchemaDoc_lemmas.
Open Scope N_scope.

(* the text of an interned name *)
Definition nm : N -> str := name_of name_strings.

(* the table as a trie *)
Fixpoint index_from (n : N) (l : list str) : PositiveMap.t str :=
  match l with
  | [] => PositiveMap.empty str
  | x :: l' => PositiveMap.add (N.succ_pos n) x (index_from (N.succ n) l')
  end.
Definition get (t : PositiveMap.t str) (n : N) : str :=
  match PositiveMap.find (N.succ_pos n) t with Some s => s | None => [] end.

Lemma find_index_from l : forall n k,
  PositiveMap.find (N.succ_pos (n + k)) (index_from n l) = nth_error l (N.to_nat k).
Proof.
  induction l as [|x l IH]; intros n k; cbn [index_from].
  - rewrite PositiveMap.gempty. now destruct (N.to_nat k).
  - destruct k as [|p] using N.peano_ind.
    + rewrite N.add_0_r. apply PositiveMap.gss.
    + rewrite PositiveMap.gso, <- N.add_succ_comm, IH, N2Nat.inj_succ; [reflexivity|].
      intros E. apply (f_equal Npos) in E. rewrite !N.succ_pos_spec in E. lia.
Qed.

Lemma get_index l n : get (index_from 0 l) n = name_of l n.
Proof.
  unfold get, name_of. rewrite <- nth_default_eq. unfold nth_default.
  now rewrite <- (find_index_from l 0 n).
Qed.

Fixpoint str_cmp (a b : str) : comparison :=
  match a, b with
  | [], [] => Eq
  | [], _ :: _ => Lt
  | _ :: _, [] => Gt
  | x :: a', y :: b' => match x ?= y with Eq => str_cmp a' b' | c => c end
  end.

Lemma str_cmp_antisym a : forall b, str_cmp b a = CompOpp (str_cmp a b).
Proof.
  induction a as [|x a IH]; intros [|y b]; cbn [str_cmp]; try reflexivity.
  rewrite (N.compare_antisym x y). destruct (x ?= y); cbn [CompOpp]; auto.
Qed.

Lemma str_cmp_trans a : forall b c, str_cmp a b = Lt -> str_cmp b c = Lt -> str_cmp a c = Lt.
Proof.
  induction a as [|x a IH]; intros [|y b] [|z c]; cbn [str_cmp]; try easy.
  destruct (N.compare_spec x y) as [->|Hxy|Hxy]; [|intros _|discriminate].
  - destruct (y ?= z); [apply IH|reflexivity|discriminate].
  - destruct (N.compare_spec y z) as [<-|Hyz|Hyz]; [| |discriminate]; intros _.
    + now apply N.compare_lt_iff in Hxy as ->.
    + now rewrite (proj2 (N.compare_lt_iff x z) (N.lt_trans _ _ _ Hxy Hyz)).
Qed.

Lemma str_cmp_refl a : str_cmp a a = Eq.
Proof. induction a as [|x a IH]; cbn [str_cmp]; [reflexivity|]. now rewrite N.compare_refl. Qed.

Module StrLe <: Orders.TotalLeBool.
  Definition t := str.
  Definition leb (a b : str) : bool := match str_cmp a b with Gt => false | _ => true end.
  Lemma leb_total a b : leb a b = true \/ leb b a = true.
  Proof. unfold leb. rewrite (str_cmp_antisym a b). destruct (str_cmp a b); cbn; auto. Qed.
End StrLe.
Module StrSort := Sort StrLe.

Fixpoint increasing (l : list str) : bool :=
  match l with
  | x :: (y :: _) as l' => match str_cmp x y with Lt => increasing l' | _ => false end
  | _ => true
  end.

Lemma increasing_NoDup l : increasing l = true -> NoDup l.
Proof.
  induction l as [|x l IH]; intros H; constructor.
  - assert (Hlt : forall y, In y l -> str_cmp x y = Lt).
    { clear IH. revert x H. induction l as [|z l IHl]; intros x H y Hy; [destruct Hy|].
      cbn [increasing] in H. destruct (str_cmp x z) eqn:Exz; try discriminate.
      destruct Hy as [<-|Hy]; [exact Exz|]. apply (str_cmp_trans x z y Exz). now apply IHl. }
    intros Hx. specialize (Hlt x Hx). rewrite str_cmp_refl in Hlt. discriminate.
  - apply IH. destruct l as [|y l]; [reflexivity|]. cbn [increasing] in H. now destruct (str_cmp x y).
Qed.

(* any image of the table that sorts into a strictly increasing list shows its texts distinct;
   the image used below is the reversed text (by rev_append: rev is quadratic), because names of
   one namespace share long prefixes *)
Lemma names_distinct_by_sort (f : str -> str) tbl :
  increasing (StrSort.sort (map f tbl)) = true -> names_distinct tbl = true.
Proof.
  intros H. apply NoDup_nodup_str, Injective_map_NoDup.
  - intros a b E. now rewrite <- (rev_involutive a), E, rev_involutive.
  - apply (NoDup_map_inv f), (Permutation_NoDup (Permutation_sym (StrSort.Permuted_sort _))).
    exact (increasing_NoDup _ H).
Qed.

Lemma row_lookalike_free_ext f g r : (forall n, f n = g n) -> row_lookalike_free f r = row_lookalike_free g r.
Proof.
  intros H. unfold row_lookalike_free, lookalike_free, same_local. f_equal;
    apply forallb_ext; intros a; apply forallb_ext; intros b; now rewrite !H.
Qed.

(* every generated look-alike name has the local name of a declared key of its class, another
   full name, and is not a key of that class; and there is at least one for every declared
   attribute / child key of every class *)
Definition covered (tbl : list (N * N * N)) (c d : N) : bool :=
  existsb (fun p => let '(c', d', _) := p in (c' =? c) && (d' =? d)) tbl.

Definition cls3 (p : N * N * N) : N := fst (fst p).

(* the leading run of table rows of class c, and the rest *)
Fixpoint span (c : N) (tbl : list (N * N * N)) : list (N * N * N) * list (N * N * N) :=
  match tbl with
  | p :: tbl' => if cls3 p =? c then let (run, rest) := span c tbl' in (p :: run, rest) else ([], tbl)
  | [] => ([], [])
  end.

(* schema and table walked together: f sees each class with the table rows of that class *)
Fixpoint walk (f : class_row -> list (N * N * N) -> bool) (S : schema) (tbl : list (N * N * N)) : bool :=
  match S with
  | [] => match tbl with [] => true | _ :: _ => false end
  | r :: S' => let (run, rest) := span (k_id r) tbl in f r run && walk f S' rest
  end.

Lemma span_spec c tbl : tbl = fst (span c tbl) ++ snd (span c tbl) /\ Forall (fun p => cls3 p = c) (fst (span c tbl)).
Proof.
  induction tbl as [|p tbl [IH1 IH2]]; cbn [span]; [split; [reflexivity|constructor]|].
  destruct (N.eqb_spec (cls3 p) c) as [E|_]; [|split; [reflexivity|constructor]].
  destruct (span c tbl) as [run rest]. cbn [fst snd app] in *. split; [now f_equal|now constructor].
Qed.

Lemma walk_spec f S : forall tbl, walk f S tbl = true ->
  (forall r, In r S -> exists run, incl run tbl /\ f r run = true) /\
  (forall p, In p tbl -> exists r run, In r S /\ cls3 p = k_id r /\ In p run /\ f r run = true).
Proof.
  induction S as [|r S IH]; intros tbl; cbn [walk].
  - destruct tbl; [|discriminate]. intros _. split; intros ? [].
  - destruct (span_spec (k_id r) tbl) as [E Hrun]. destruct (span (k_id r) tbl) as [run rest].
    cbn [fst snd] in E, Hrun. intros H. apply andb_true_iff in H as [Hf Hw]. destruct (IH rest Hw) as [IH1 IH2]. split.
    + intros r' [<-|Hr'].
      * exists run. split; [|exact Hf]. rewrite E. now apply incl_appl.
      * destruct (IH1 r' Hr') as (run' & Hi & Hf'). exists run'. split; [|exact Hf']. rewrite E. now apply incl_appr.
    + intros p Hp. rewrite E in Hp. apply in_app_or in Hp as [Hp|Hp].
      * exists r, run. rewrite Forall_forall in Hrun. repeat split; auto. now left.
      * destruct (IH2 p Hp) as (r' & run' & Hr' & Hc & Hin & Hf'). exists r', run'. repeat split; auto. now right.
Qed.

Definition keys_of (is_attr : bool) (r : class_row) : list N :=
  if is_attr then map a_xml (k_attrs r) else map c_tagkey (k_children r).
Definition entry_ok (f : N -> str) (is_attr : bool) (r : class_row) (p : N * N * N) : bool :=
  let '(_, d, q) := p in memN d (keys_of is_attr r) && lookalike f q d && negb (memN q (keys_of is_attr r)).
Definition class_ok (f : N -> str) (is_attr : bool) (r : class_row) (run : list (N * N * N)) : bool :=
  forallb (entry_ok f is_attr r) run && forallb (covered run (k_id r)) (keys_of is_attr r).

Lemma covered_incl run tbl c d : incl run tbl -> covered run c d = true -> covered tbl c d = true.
Proof. unfold covered. rewrite !existsb_exists. intros Hi (p & Hp & H). exists p. split; [now apply Hi|exact H]. Qed.

Lemma lookalike_ext f g q d : (forall n, f n = g n) -> lookalike f q d = lookalike g q d.
Proof. intros H. unfold lookalike, same_local. now rewrite !H. Qed.

Lemma lookalikes_ok (is_attr : bool) tbl :
  (let t := index_from 0 name_strings in walk (class_ok (get t) is_attr) actual_schema tbl) = true ->
  forallb (lookalike_row_ok nm actual_schema is_attr) tbl = true /\
  forall r d, In r actual_schema -> In d (keys_of is_attr r) -> covered tbl (k_id r) d = true.
Proof.
  intros H. apply walk_spec in H as [Hrows Htbl]. split.
  - apply forallb_forall. intros p Hp. destruct (Htbl p Hp) as (r & run & Hr & Hc & Hin & Hok).
    apply andb_true_iff in Hok as [Hok _]. rewrite forallb_forall in Hok. specialize (Hok p Hin).
    destruct p as [[c d] q]. cbn [cls3 fst] in Hc. subst c. unfold lookalike_row_ok.
    rewrite (actual_find_row r Hr). unfold entry_ok in Hok.
    rewrite (lookalike_ext _ _ q d (get_index name_strings)) in Hok. now destruct is_attr.
  - intros r d Hr Hd. destruct (Hrows r Hr) as (run & Hi & Hok). apply andb_true_iff in Hok as [_ Hok].
    rewrite forallb_forall in Hok. exact (covered_incl run tbl _ d Hi (Hok d Hd)).
Qed.

(* one evaluation for all four facts: the names are converted from their string literals once *)
Lemma tables_checked :
  (let names := name_strings in let t := index_from 0 names in
   increasing (StrSort.sort (map (fun s => rev_append s []) names))
   && forallb (row_lookalike_free (get t)) actual_schema
   && walk (class_ok (get t) true) actual_schema lookalike_attrs
   && walk (class_ok (get t) false) actual_schema lookalike_kids) = true.
Proof. vm_compute. reflexivity. Qed.

Lemma and4 a b c d : a && b && c && d = true -> (a = true /\ b = true) /\ (c = true /\ d = true).
Proof. rewrite !andb_true_iff. tauto. Qed.

Lemma names_distinct_ok : names_distinct name_strings = true.
Proof. exact (names_distinct_by_sort _ _ (proj1 (proj1 (and4 _ _ _ _ tables_checked)))). Qed.

(* in no class do two declared xml attribute names, or two child tag keys, share their local name *)
Lemma actual_lookalike_free : forallb (row_lookalike_free nm) actual_schema = true.
Proof.
  rewrite <- (proj2 (proj1 (and4 _ _ _ _ tables_checked))).
  apply forallb_ext. intros r. apply row_lookalike_free_ext. intros n. symmetry. apply get_index.
Qed.

Lemma actual_row_lookalike_free r : In r actual_schema -> row_lookalike_free nm r = true.
Proof. intros Hin. exact (proj1 (forallb_forall _ _) actual_lookalike_free r Hin). Qed.

Definition attrs_walk := proj1 (proj2 (and4 _ _ _ _ tables_checked)).
Definition kids_walk := proj2 (proj2 (and4 _ _ _ _ tables_checked)).

Lemma lookalike_attrs_ok : forallb (lookalike_row_ok nm actual_schema true) lookalike_attrs = true.
Proof. exact (proj1 (lookalikes_ok true _ attrs_walk)). Qed.
Lemma lookalike_kids_ok : forallb (lookalike_row_ok nm actual_schema false) lookalike_kids = true.
Proof. exact (proj1 (lookalikes_ok false _ kids_walk)). Qed.

Lemma lookalikes_cover :
  forallb (fun r => forallb (fun a => covered lookalike_attrs (k_id r) (a_xml a)) (k_attrs r)
                    && forallb (fun ch => covered lookalike_kids (k_id r) (c_tagkey ch)) (k_children r))
          actual_schema = true.
Proof.
  apply forallb_forall. intros r Hr. apply andb_true_iff. split; apply forallb_forall.
  - intros a Ha. apply (proj2 (lookalikes_ok true _ attrs_walk) r _ Hr). now apply (in_map a_xml).
  - intros ch Hch. apply (proj2 (lookalikes_ok false _ kids_walk) r _ Hr). now apply (in_map c_tagkey).
Qed.
