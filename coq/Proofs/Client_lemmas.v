(* Client_lemmas: option resolution does not depend on the configuration class or on other
   sections; the verdict of a step of a history depends only on that step and the options in force *)
From PV Require Import Lib.Base Model.Status Model.Response Model.Client Proofs.Response_lemmas Proofs.Rel_lemmas Proofs.C02_lemmas.
Open Scope Z_scope.

(* what the dictionary says about an option: the (last) value given for it in a section *)
Fixpoint assigned (name : str) (s : section) : option cv :=
  match s with
  | [] => None
  | (a, v) :: rest => match assigned name rest with
                      | Some x => Some x
                      | None => if str_eqb name a then Some v else None
                      end
  end.
(* the documented meaning: the explicit value when one is given (true / false also as strings), else the default *)
Definition opt_value (sec : option section) (name : str) (default : bool) : bool :=
  match sec with
  | None => default
  | Some s => match assigned name s with
              | None => default
              | Some v => match norm v with CNone => default | v' => truthy v' end
              end
  end.

Lemma sp_key_inj n a : str_eqb (attr_key (E "sp") n) (attr_key (E "sp") a) = str_eqb n a.
Proof. reflexivity. Qed.

Lemma read_load_special_other typ k : (forall a, str_eqb k (attr_key typ a) = false) ->
  forall s st, read (load_special st typ s) k = read st k.
Proof.
  intros H. induction s as [|[a v] s IH]; intros st; [reflexivity|].
  cbn [load_special]. rewrite IH. unfold setattr. cbn [read]. now rewrite H.
Qed.

Lemma read_load_special_sp name : forall s st,
  read (load_special st (E "sp") s) (attr_key (E "sp") name) =
  match assigned name s with Some v => norm v | None => read st (attr_key (E "sp") name) end.
Proof.
  induction s as [|[a v] s IH]; intros st; [reflexivity|].
  cbn [load_special assigned]. rewrite IH. destruct (assigned name s) as [x|]; [reflexivity|].
  unfold setattr. cbn [read]. rewrite sp_key_inj. destruct (str_eqb name a); reflexivity.
Qed.

Definition step_load (service : list (str * section)) (st : store) (typ : str) : store :=
  match find_section typ service with Some s => load_special st typ s | None => st end.

(* loading roles that store nothing under [k] leaves what is read there *)
Lemma read_load_others service k roles : Forall (fun typ => forall a, str_eqb k (attr_key typ a) = false) roles ->
  forall st, read (fold_left (step_load service) roles st) k = read st k.
Proof.
  induction 1 as [|typ roles H _ IH]; intros st; [reflexivity|]. cbn [fold_left]. rewrite IH. unfold step_load.
  destruct (find_section typ service); [exact (read_load_special_other typ k H _ _)|reflexivity].
Qed.

Lemma read_load service name :
  read (load service) (attr_key (E "sp") name) =
  match find_section (E "sp") service with
  | Some s => match assigned name s with Some v => norm v | None => CNone end
  | None => CNone
  end.
Proof.
  assert (read (fold_left (step_load service) [E "aa"; E "idp"] []) (attr_key (E "sp") name) = CNone) as Before
    by (rewrite read_load_others by (repeat constructor); reflexivity).
  (* ROLES = [aa; idp] ++ sp :: [pdp; aq]: only the middle step writes under an sp key *)
  change (load service) with
    (fold_left (step_load service) [E "pdp"; E "aq"] (step_load service (fold_left (step_load service) [E "aa"; E "idp"] []) (E "sp"))).
  rewrite read_load_others by (repeat constructor). unfold step_load at 1.
  destruct (find_section (E "sp") service) as [s|]; [|exact Before].
  rewrite read_load_special_sp, Before. reflexivity.
Qed.

Lemma resolve_spec dc service name default :
  resolve dc (load service) name default = opt_value (find_section (E "sp") service) name default.
Proof.
  unfold resolve, getattr, opt_value. rewrite read_load.
  destruct (find_section (E "sp") service) as [s|]; [|reflexivity].
  destruct (assigned name s) as [v|]; reflexivity.
Qed.

(* the options a client works with: explicit value or default, read from the sp section only —
   whatever the configuration class (def_context) and whatever the other sections contain *)
Theorem client_opts_spec dc service :
  client_opts dc service =
  {| o_wrs := opt_value (find_section (E "sp") service) WRS true;
     o_was := opt_value (find_section (E "sp") service) WAS false;
     o_waors := opt_value (find_section (E "sp") service) WAORS false |}.
Proof. unfold client_opts. now rewrite !resolve_spec. Qed.

(* the verdicts as a function of the operations alone *)
Fixpoint verdicts (o : opts) (ops : list op) : list (result outcome) :=
  match ops with
  | [] => []
  | SetOpts o' :: rest => verdicts o' rest
  | Parse _ c r :: rest => parse_response (with_opts o c) r :: verdicts o rest
  end.

Lemma run_ops_verdicts : forall ops cl, run_ops cl ops = verdicts (cl_opts cl) ops.
Proof.
  induction ops as [|o ops IH]; intros cl; [reflexivity|].
  destruct o as [o'|w c r]; cbn [run_ops apply_op verdicts]; rewrite IH; reflexivity.
Qed.

Lemma verdicts_nth : forall pre o w c r post,
  nth_error (verdicts o (pre ++ Parse w c r :: post)) (parses pre) =
  Some (parse_response (with_opts (opts_after o pre) c) r).
Proof.
  induction pre as [|p pre IH]; intros o w c r post; [reflexivity|].
  destruct p as [o'|w' c' r']; cbn [app verdicts parses opts_after nth_error]; apply IH.
Qed.

Theorem history_step cl pre w c r post :
  nth_error (run_ops cl (pre ++ Parse w c r :: post)) (parses pre) =
  Some (parse_response (with_opts (opts_after (cl_opts cl) pre) c) r).
Proof. rewrite run_ops_verdicts. apply verdicts_nth. Qed.

(* not used below: the options a history leaves in force, and the three cells with_opts sets *)
Lemma state_after_opts : forall ops cl, cl_opts (state_after cl ops) = opts_after (cl_opts cl) ops.
Proof.
  induction ops as [|o ops IH]; intros cl; [reflexivity|].
  destruct o as [o'|w c r]; cbn [state_after apply_op fst opts_after]; rewrite IH; reflexivity.
Qed.

Lemma with_opts_fields o c : wrs (with_opts o c) = o_wrs o /\ was (with_opts o c) = o_was o /\ waors (with_opts o c) = o_waors o.
Proof. repeat split. Qed.
