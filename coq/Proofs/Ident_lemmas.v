(* Proofs/Ident_lemmas.v — C18, in three parts: the NameID text coding (decode (code n) = norm n, code injective and
   free of separators); the IdentDB store (association-list and per-user-list equations, the invariant Inv that keeps
   the two directions of the store in step, preserved by every operation admitted by op_wfb); what follows for
   issued, persistent and mapped identifiers in any store with Inv. *)
From PV Require Import Lib.Base Model.Codec Gen.IdentConsts Model.Ident Proofs.Base64_lemmas Proofs.Url_lemmas.
Open Scope N_scope.

Lemma unquote_quote_s bs : Forall byte bs -> unquote (quote_s bs) = bs.
Proof.
  apply unquote_flat_map. intros b rest Hb. unfold quote_byte_s. destruct (b =? SLASH) eqn:E.
  - apply N.eqb_eq in E. subst b. reflexivity.
  - apply (unquote_quote_byte false b rest Hb).
Qed.

Definition code_safe (c : N) : bool := url_safe c || (c =? SLASH).

Lemma quote_s_alphabet bs : Forall byte bs -> forallb code_safe (quote_s bs) = true.
Proof.
  apply forallb_flat_map_Forall. intros b Hb. unfold quote_byte_s. destruct (b =? SLASH); [reflexivity|].
  apply (forallb_impl url_safe); [|now apply quote_byte_safe]. intros c Hc. unfold code_safe. now rewrite Hc.
Qed.

Definition no (sep : N) (s : str) : Prop := forallb (fun c => negb (c =? sep)) s = true.

Definition obytes (o : option str) : Prop := match o with Some s => Forall byte s | None => True end.
Definition wfb (n : nameid) : Prop :=
  obytes (n_nq n) /\ obytes (n_spnq n) /\ obytes (n_fmt n) /\ obytes (n_sppid n) /\ obytes (n_text n).

Lemma tr_some o v : tr o = Some v -> o = Some v /\ v <> [].
Proof. unfold tr. destruct o as [[|c s]|]; cbn; intros H; inversion H; subst; split; congruence. Qed.
Lemma tr_bytes o v : obytes o -> tr o = Some v -> Forall byte v.
Proof. intros Hb H. apply tr_some in H as [-> _]. exact Hb. Qed.
Lemma tr_tr o : tr (tr o) = tr o.
Proof. destruct o as [[|c s]|]; reflexivity. Qed.
Lemma norm_idem n : norm (norm n) = norm n.
Proof. unfold norm. cbn. now rewrite !tr_tr. Qed.

Definition small (i : N) : Prop := i = 0 \/ i = 1 \/ i = 2 \/ i = 3 \/ i = 4.

(* all that the proofs need to know about the index written before "=" *)
Lemma digit_facts i : small i ->
  parse_int [digit i] = Some (Z.of_N i) /\ attr_index (Z.of_N i) = Some i /\
  (digit i =? EQ) = false /\ (digit i =? COMMA) = false /\ (digit i =? SPACE) = false.
Proof. intros [->|[->|[->|[->| ->]]]]; repeat split; reflexivity. Qed.

Lemma quote_s_no sep v : code_safe sep = false -> Forall byte v -> no sep (quote_s v).
Proof. intros Hsep Hv. apply (forallb_sep code_safe); [exact Hsep|now apply quote_s_alphabet]. Qed.

Lemma part_no sep i v : small i -> Forall byte v -> (sep = COMMA \/ sep = SPACE) ->
  no sep (digit i :: EQ :: quote_s v).
Proof.
  intros Hi Hv Hsep. destruct (digit_facts i Hi) as (_ & _ & _ & Dc & Ds). unfold no. cbn [forallb].
  now destruct Hsep as [->| ->]; rewrite quote_s_no, ?Dc, ?Ds.
Qed.

Lemma decode_part_enc i v acc : small i -> Forall byte v ->
  decode_part (digit i :: EQ :: quote_s v) acc = Ok (set_field i (Some v) acc).
Proof.
  intros Hi Hv. destruct (digit_facts i Hi) as (Dp & Da & De & _). unfold decode_part.
  cbn [has existsb split_on]. rewrite N.eqb_refl, orb_true_r, De.
  rewrite split_on_nosep by now apply quote_s_no. cbn [rev app].
  now rewrite Dp, Da, (unquote_quote_s v Hv).
Qed.

Definition set_opt (i : N) (o : option str) (acc : nameid) : nameid :=
  match o with Some v => set_field i (Some v) acc | None => acc end.

Lemma decode_parts_enc_part i o rest acc : small i -> obytes o ->
  decode_parts (enc_part i o ++ rest) acc = decode_parts rest (set_opt i (tr o) acc).
Proof.
  intros Hi Hb. unfold enc_part. destruct (tr o) as [v|] eqn:E; [|reflexivity].
  cbn [app decode_parts set_opt]. rewrite (decode_part_enc i v acc Hi (tr_bytes o v Hb E)). reflexivity.
Qed.

Lemma decode_parts_enc n : wfb n -> decode_parts (enc_parts n) empty_nid = Ok (norm n).
Proof.
  intros (H0 & H1 & H2 & H3 & H4). unfold enc_parts.
  rewrite decode_parts_enc_part by (unfold small; tauto).
  rewrite decode_parts_enc_part by (unfold small; tauto).
  rewrite decode_parts_enc_part by (unfold small; tauto).
  rewrite decode_parts_enc_part by (unfold small; tauto).
  rewrite <- (app_nil_r (enc_part 4 (n_text n))).
  rewrite decode_parts_enc_part by (unfold small; tauto).
  unfold norm. destruct (tr (n_nq n)), (tr (n_spnq n)), (tr (n_fmt n)), (tr (n_sppid n)), (tr (n_text n)); reflexivity.
Qed.

Lemma enc_part_no sep i o : small i -> obytes o -> (sep = COMMA \/ sep = SPACE) -> Forall (no sep) (enc_part i o).
Proof.
  intros Hi Hb Hsep. unfold enc_part. destruct (tr o) as [v|] eqn:E; constructor; [|constructor].
  apply part_no; auto. exact (tr_bytes o v Hb E).
Qed.

Lemma enc_parts_no sep n : wfb n -> (sep = COMMA \/ sep = SPACE) -> Forall (no sep) (enc_parts n).
Proof.
  intros (H0 & H1 & H2 & H3 & H4) Hsep. unfold enc_parts.
  repeat (apply Forall_app; split); apply enc_part_no; unfold small; tauto.
Qed.

(* decode (code n) = normalised n, for ARBITRARY byte contents of all five fields *)
Theorem decode_code n : wfb n -> decode (code n) = Ok (norm n).
Proof.
  intros W. unfold decode, code. destruct (enc_parts n) as [|p ps] eqn:E.
  - (* no part: the code is "", which splits into ONE empty part, and decode_part skips a part without "=" *)
    rewrite <- (decode_parts_enc n W), E. reflexivity.
  - rewrite <- E. rewrite split_join.
    + exact (decode_parts_enc n W).
    + rewrite E. discriminate.
    + apply (enc_parts_no COMMA n W). now left.
Qed.

Theorem code_injective n1 n2 : wfb n1 -> wfb n2 -> code n1 = code n2 -> norm n1 = norm n2.
Proof.
  intros W1 W2 H. pose proof (decode_code n1 W1) as D1. rewrite H, (decode_code n2 W2) in D1. congruence.
Qed.

Lemma join_no sep sep' parts : sep' <> sep -> Forall (no sep) parts -> no sep (join_with sep' parts).
Proof. intros Hne. unfold no. apply forallb_join_with. now apply negb_true_iff, N.eqb_neq. Qed.

(* a code never contains the separator of the per-user list *)
Theorem code_no_space n : wfb n -> no SPACE (code n).
Proof.
  intros W. unfold code. apply join_no; [discriminate|]. apply enc_parts_no; auto.
Qed.

Lemma ctext_some c t : ctext c = Some t <-> exists n, decode c = Ok n /\ n_text n = Some t.
Proof.
  unfold ctext. destruct (decode c) as [n|e]; split.
  - intros H. now exists n.
  - intros (m & E & T). congruence.
  - discriminate.
  - intros (m & E & _). discriminate.
Qed.
Lemma ctext_code n t : wfb n -> n_text n = Some t -> t <> [] -> ctext (code n) = Some t.
Proof. intros W T Hne. unfold ctext. rewrite (decode_code n W). cbn. rewrite T. now destruct t. Qed.
Lemma ctext_nil : ctext [] = None.
Proof. reflexivity. Qed.

Lemma lookup_insert_eq k v d : lookup k (insert k v d) = Some v.
Proof.
  induction d as [|[k' v'] r IH]; cbn [insert lookup]; [now rewrite str_eqb_refl|].
  destruct (str_eqb k k') eqn:E; cbn [lookup]; [now rewrite str_eqb_refl|now rewrite E].
Qed.
Lemma lookup_insert_neq k k' v d : k' <> k -> lookup k' (insert k v d) = lookup k' d.
Proof.
  intros Hne. apply str_eqb_neq in Hne. induction d as [|[k2 v2] r IH]; cbn [insert lookup]; [now rewrite Hne|].
  destruct (str_eqb_spec k k2) as [<-|_]; cbn [lookup]; [now rewrite Hne|now rewrite IH].
Qed.
Lemma lookup_remove_eq k d : lookup k (remove k d) = None.
Proof.
  induction d as [|[k' v'] r IH]; [reflexivity|]. cbn [remove].
  destruct (str_eqb k k') eqn:E; [exact IH|]. cbn [lookup]. now rewrite E.
Qed.
Lemma lookup_remove_neq k k' d : k' <> k -> lookup k' (remove k d) = lookup k' d.
Proof.
  intros Hne. apply str_eqb_neq in Hne. induction d as [|[k2 v2] r IH]; [reflexivity|]. cbn [remove lookup].
  destruct (str_eqb_spec k k2) as [<-|_]; [now rewrite Hne|]. cbn [lookup]. now rewrite IH.
Qed.
Lemma lookup_remove_sub k k' d v : lookup k' (remove k d) = Some v -> lookup k' d = Some v.
Proof.
  destruct (str_eqb_spec k' k) as [->|Hne]; [rewrite lookup_remove_eq; discriminate|now rewrite lookup_remove_neq].
Qed.

Lemma entries_some d u e : lookup u d = Some e -> entries d u = entries_of e.
Proof. unfold entries. now intros ->. Qed.
Lemma entries_none d u : lookup u d = None -> entries d u = [].
Proof. unfold entries. now intros ->. Qed.
Lemma entries_ext d d' u : lookup u d' = lookup u d -> entries d' u = entries d u.
Proof. unfold entries. now intros ->. Qed.
Lemma find_local_id_text d n t : n_text n = Some t -> find_local_id d n = lookup t d.
Proof. unfold find_local_id. now intros ->. Qed.

Lemma no_rev sep s : no sep s -> no sep (rev s).
Proof.
  unfold no. rewrite !forallb_forall. intros H c Hc. apply H. now apply in_rev.
Qed.

Lemma split_on_parts_no sep s cur : no sep cur -> Forall (no sep) (split_on sep s cur).
Proof.
  revert cur. induction s as [|c s IH]; intros cur Hc; cbn [split_on].
  - constructor; [now apply no_rev|constructor].
  - destruct (c =? sep) eqn:E.
    + constructor; [now apply no_rev|]. now apply IH.
    + apply IH. unfold no in *. cbn [forallb]. now rewrite E, Hc.
Qed.

Lemma entries_of_no e : Forall (no SPACE) (entries_of e).
Proof. apply split_on_parts_no. reflexivity. Qed.

Lemma entries_of_join vals : vals <> [] -> Forall (no SPACE) vals -> entries_of (join_with SPACE vals) = vals.
Proof. intros Hne H. unfold entries_of. now apply split_join. Qed.

Lemma entries_no d u : Forall (no SPACE) (entries d u).
Proof. unfold entries. destruct (lookup u d); [apply entries_of_no|constructor]. Qed.

(* what store leaves under the user id: the old codes and the new one *)
Lemma entries_store d u t c0 : u <> t -> no SPACE c0 ->
  entries (insert t u (insert u (join_with SPACE (entries d u ++ [c0])) d)) u = entries d u ++ [c0].
Proof.
  intros Hut Hc. rewrite (entries_some _ u (join_with SPACE (entries d u ++ [c0]))).
  - apply entries_of_join; [now destruct (entries d u)|]. apply Forall_app. split; [apply entries_no|now constructor].
  - rewrite lookup_insert_neq by exact Hut. apply lookup_insert_eq.
Qed.

(* what remove_remote leaves under the user id (after fix C18-1): exactly the remaining codes *)
Lemma entries_rewrite_entry id vals d t : id <> t -> Forall (no SPACE) vals ->
  entries (remove t (rewrite_entry id vals d)) id = vals.
Proof.
  intros Hne Hno. unfold entries. rewrite lookup_remove_neq by exact Hne. destruct vals as [|v vs]; cbn [rewrite_entry].
  - now rewrite lookup_remove_eq.
  - rewrite lookup_insert_eq. apply entries_of_join; [discriminate|exact Hno].
Qed.
Lemma lookup_rewrite_entry id vals d k : k <> id -> lookup k (rewrite_entry id vals d) = lookup k d.
Proof. intros H. destruct vals; cbn [rewrite_entry]; [now apply lookup_remove_neq|now apply lookup_insert_neq]. Qed.

(* texts recorded in a list of codes *)
Definition texts (l : list str) : list str := flat_map (fun c => match ctext c with Some t => [t] | None => [] end) l.

Lemma texts_app a b : texts (a ++ b) = texts a ++ texts b.
Proof. unfold texts. now rewrite flat_map_app. Qed.

Lemma texts_one c t : ctext c = Some t -> texts [c] = [t].
Proof. intros E. unfold texts. cbn [flat_map]. now rewrite E. Qed.

Lemma texts_elt a c b t : ctext c = Some t -> texts (a ++ c :: b) = texts a ++ t :: texts b.
Proof. intros E. change (c :: b) with ([c] ++ b). now rewrite !texts_app, (texts_one c t E). Qed.

Lemma in_texts t l : In t (texts l) <-> exists c, In c l /\ ctext c = Some t.
Proof.
  unfold texts. rewrite in_flat_map. split; intros (c & Hc & H); exists c; (split; [exact Hc|]).
  - destruct (ctext c); [destruct H as [->|[]]; reflexivity|destruct H].
  - rewrite H. now left.
Qed.

Lemma entries_of_join_sub vals c : Forall (no SPACE) vals -> In c (entries_of (join_with SPACE vals)) -> c <> [] -> In c vals.
Proof.
  intros Hno Hin Hc. destruct vals as [|v vs].
  - cbn in Hin. destruct Hin as [<-|[]]. congruence.
  - rewrite entries_of_join in Hin; auto. discriminate.
Qed.

Lemma texts_entries_of_join vals : Forall (no SPACE) vals -> texts (entries_of (join_with SPACE vals)) = texts vals.
Proof.
  intros Hno. destruct vals as [|v vs]; [reflexivity|]. rewrite entries_of_join; auto. discriminate.
Qed.

Lemma nodup_texts_same l c1 c2 t : NoDup (texts l) -> In c1 l -> In c2 l ->
  ctext c1 = Some t -> ctext c2 = Some t -> c1 = c2.
Proof.
  intros Hnd H1 H2 T1 T2. apply in_split in H1 as (a & b & ->). rewrite (texts_elt a c1 b t T1) in Hnd.
  apply in_app_or in H2 as [H2|[H2|H2]]; [|exact H2|]; exfalso; apply (NoDup_remove_2 _ _ _ Hnd);
    rewrite <- texts_app; apply in_texts; exists c2; (split; [apply in_or_app; tauto|exact T2]).
Qed.

(* list.remove(x) takes out one occurrence *)
Lemma remove_first_split x l l' : remove_first x l = Some l' -> exists a b, l = a ++ x :: b /\ l' = a ++ b.
Proof.
  revert l'. induction l as [|z l IH]; intros l' H; [discriminate|]. cbn [remove_first] in H.
  destruct (str_eqb_spec x z) as [->|_].
  - injection H as <-. now exists [], l.
  - destruct (remove_first x l) as [r|]; [|discriminate]. injection H as <-.
    destruct (IH r eq_refl) as (a & b & -> & ->). now exists (z :: a), b.
Qed.

Lemma Forall_remove_mid {A} (P : A -> Prop) a x b : Forall P (a ++ x :: b) -> Forall P (a ++ b).
Proof. rewrite !Forall_app, Forall_cons_iff. tauto. Qed.

(* the deletions of remove_local *)
Fixpoint remove_keys (ts : list str) (d : db) : db :=
  match ts with [] => d | t :: r => remove_keys r (remove t d) end.
Lemma lookup_remove_keys_notin ts : forall d k, ~ In k ts -> lookup k (remove_keys ts d) = lookup k d.
Proof.
  induction ts as [|t r IH]; intros d k H; [reflexivity|]. cbn [remove_keys].
  rewrite IH by (intros X; apply H; now right). apply lookup_remove_neq. intros ->. apply H. now left.
Qed.
Lemma lookup_remove_keys_sub ts : forall d k v, lookup k (remove_keys ts d) = Some v -> lookup k d = Some v /\ ~ In k ts.
Proof.
  induction ts as [|t r IH]; intros d k v H; [split; [exact H|intros []]|]. cbn [remove_keys] in H.
  apply IH in H as (H & Hn). split; [now apply (lookup_remove_sub t)|].
  intros [->|X]; [rewrite lookup_remove_eq in H; discriminate|now apply Hn].
Qed.
Lemma remove_local_vals_ok vals : forall d, Forall (fun c => ctext c <> None) vals ->
  remove_local_vals vals d = (remove_keys (texts vals) d, None).
Proof.
  induction vals as [|v r IH]; intros d H; [reflexivity|]. apply Forall_cons_iff in H as (Hv & Hr).
  destruct (ctext v) as [t|] eqn:T; [clear Hv|congruence]. change (v :: r) with ([v] ++ r).
  rewrite texts_app, (texts_one v t T). cbn [app remove_local_vals remove_keys].
  unfold ctext in T. destruct (decode v) as [nid|e]; [|discriminate]. rewrite T. now apply IH.
Qed.

Definition bytesb (s : str) : bool := forallb (fun b => b <? 256) s.
Definition obytesb (o : option str) : bool := match o with Some s => bytesb s | None => true end.
Definition wfbb (n : nameid) : bool :=
  obytesb (n_nq n) && obytesb (n_spnq n) && obytesb (n_fmt n) && obytesb (n_sppid n) && obytesb (n_text n).

Lemma bytesb_spec s : bytesb s = true -> Forall byte s.
Proof. exact (forallb_byte s). Qed.
Lemma obytesb_spec o : obytesb o = true -> obytes o.
Proof. destruct o; cbn; [apply bytesb_spec|trivial]. Qed.
Lemma wfbb_spec n : wfbb n = true -> wfb n.
Proof.
  unfold wfbb, wfb. rewrite !andb_true_iff. intros ((((H0 & H1) & H2) & H3) & H4).
  repeat split; now apply obytesb_spec.
Qed.

Lemma NoDup_snoc {A} (l : list A) x : NoDup l -> ~ In x l -> NoDup (l ++ [x]).
Proof.
  intros Hl Hx. apply (NoDup_Add (a:=x) (l:=l)); [|now split]. rewrite <- (app_nil_r l) at 1. apply Add_app.
Qed.

Lemma create_id_spec d cands id : create_id d cands = Ok id -> In id cands /\ lookup id d = None.
Proof.
  induction cands as [|c r IH]; cbn [create_id]; [discriminate|].
  destruct (lookup c d) eqn:L.
  - intros H. destruct (IH H). split; [now right|assumption].
  - intros H. inversion H; subst. split; [now left|assumption].
Qed.

(* get_nameid fails and leaves the store alone, or stores and returns one new identifier *)
Lemma get_nameid_inv c d u f sp nq cands :
  (exists e, get_nameid c d u f sp nq cands = (d, OErr e)) \/
  (exists id t n, create_id d cands = Ok id /\ str_eqb f NAMEID_FORMAT_EMAILADDRESS && is_nil (domain c) = false /\
     t = (if str_eqb f NAMEID_FORMAT_EMAILADDRESS then id ++ AT :: domain c else id) /\
     n = NameId nq sp (Some f) None (Some t) /\
     get_nameid c d u f sp nq cands = (insert t u (insert u (join_with SPACE (entries d u ++ [code n])) d), ONid n)).
Proof.
  unfold get_nameid. destruct (create_id d cands) as [id|e]; [|left; now exists e].
  destruct (str_eqb f NAMEID_FORMAT_EMAILADDRESS && is_nil (domain c)) eqn:E; [left; eexists; reflexivity|].
  right. now repeat eexists.
Qed.

Theorem issued_fresh c d u f sp nq cands d' n :
  get_nameid c d u f sp nq cands = (d', ONid n) -> str_eqb f NAMEID_FORMAT_EMAILADDRESS = false ->
  exists t, n_text n = Some t /\ In t cands /\ lookup t d = None /\ find_local_id d' n = Some u.
Proof.
  intros H Hne. destruct (get_nameid_inv c d u f sp nq cands) as [(e & E)|(id & t & n0 & C & _ & Et & En & E)];
    rewrite E in H; [discriminate|]. injection H as <- <-. rewrite Hne in Et. subst t n0.
  apply create_id_spec in C as (Hin & Hfresh). exists id. repeat split; auto. apply lookup_insert_eq.
Qed.

Lemma wfb_set_sppid n v : wfb n -> obytes v -> wfb (set_field 3 v n).
Proof. intros (W0 & W1 & W2 & W3 & W4) Hv. repeat split; assumption. Qed.

Lemma map_vals_in l pfmt psp n : map_vals l pfmt psp = Ok (Some n) -> exists c, In c l /\ decode c = Ok n.
Proof.
  induction l as [|v l IH]; intros H; [discriminate|]. cbn [map_vals] in H.
  destruct (decode v) as [nid|e] eqn:D; [|discriminate].
  destruct (opt_eqb (n_fmt nid) pfmt && opt_eqb (n_spnq nid) psp).
  - inversion H; subst nid. exists v. split; [now left|exact D].
  - destruct (IH H) as (c & Hc & R). exists c. split; [now right|exact R].
Qed.

Lemma match_vals_app l l' sp nq :
  match_vals (l ++ l') sp nq = match match_vals l sp nq with Ok None => match_vals l' sp nq | r => r end.
Proof.
  induction l as [|v l IH]; [reflexivity|]. cbn [app match_vals]. destruct (decode v) as [nid|e]; [|reflexivity].
  destruct (opt_eqb (n_fmt nid) (Some NAMEID_FORMAT_TRANSIENT)); [exact IH|].
  destruct (qual_match (n_spnq nid) sp && qual_match (n_nq nid) nq); [reflexivity|exact IH].
Qed.

Lemma match_vals_in l sp nq n : match_vals l sp nq = Ok (Some n) ->
  exists c, In c l /\ decode c = Ok n /\ qual_match (n_spnq n) sp = true /\ qual_match (n_nq n) nq = true.
Proof.
  induction l as [|v l IH]; intros H; [discriminate|]. cbn [match_vals] in H.
  destruct (decode v) as [nid|e] eqn:D; [|discriminate].
  destruct (opt_eqb (n_fmt nid) (Some NAMEID_FORMAT_TRANSIENT)).
  - destruct (IH H) as (c & Hc & R). exists c. split; [now right|exact R].
  - destruct (qual_match (n_spnq nid) sp && qual_match (n_nq nid) nq) eqn:Q.
    + inversion H; subst nid. apply andb_true_iff in Q as (Q1 & Q2). exists v. split; [now left|auto].
    + destruct (IH H) as (c & Hc & R). exists c. split; [now right|exact R].
Qed.

Lemma match_local_id_entries d u sp nq : match_local_id d u sp nq = match_vals (entries d u) sp nq.
Proof. unfold match_local_id, entries. now destruct (lookup u d). Qed.

Lemma qual_match_tr o : qual_match (tr o) o = true.
Proof. destruct o as [[|c s]|]; cbn; auto. now rewrite N.eqb_refl, str_eqb_refl. Qed.

Lemma qual_match_truthy stored arg : truthy arg = true -> qual_match stored arg = true -> stored = arg.
Proof.
  unfold qual_match. intros Ha. destruct (truthy stored).
  - destruct stored as [x|], arg as [y|]; cbn; try discriminate. intros E. apply str_eqb_eq in E. now subst.
  - rewrite Ha. discriminate.
Qed.

Lemma qual_match_tr_eq stored arg : qual_match stored arg = true -> tr arg = tr stored.
Proof.
  unfold qual_match, tr. destruct stored as [[|a x]|]; cbn [truthy].
  - intros Ta. apply negb_true_iff in Ta. now rewrite Ta.
  - destruct arg as [y|]; cbn [opt_eqb]; [|discriminate]. intros E. apply str_eqb_eq in E. now subst.
  - intros Ta. apply negb_true_iff in Ta. now rewrite Ta.
Qed.

(* the regenerated format constants are three different strings; the persistent one is a non-empty byte string *)
Lemma formats_distinct :
  str_eqb NAMEID_FORMAT_TRANSIENT NAMEID_FORMAT_EMAILADDRESS = false /\
  str_eqb NAMEID_FORMAT_PERSISTENT NAMEID_FORMAT_EMAILADDRESS = false /\
  str_eqb NAMEID_FORMAT_PERSISTENT NAMEID_FORMAT_TRANSIENT = false.
Proof. repeat split; reflexivity. Qed.
Lemma persistent_wf :
  bytesb NAMEID_FORMAT_PERSISTENT = true /\ tr (Some NAMEID_FORMAT_PERSISTENT) = Some NAMEID_FORMAT_PERSISTENT.
Proof. split; reflexivity. Qed.

Lemma match_new sp nq t : obytes sp -> obytes nq -> Forall byte t ->
  let n := NameId nq sp (Some NAMEID_FORMAT_PERSISTENT) None (Some t) in
  wfb n /\ match_vals [code n] sp nq = Ok (Some (norm n)).
Proof.
  intros Hsp Hnq Ht n. destruct formats_distinct as (_ & _ & Hpt). destruct persistent_wf as (Hpb & Htr).
  assert (wfb n) as W by (unfold wfb, n; cbn; repeat split; auto using bytesb_spec).
  split; [exact W|]. cbn [match_vals]. rewrite (decode_code n W).
  unfold norm at 1 2 3. cbn [n_fmt n_spnq n_nq n]. rewrite Htr. cbn [opt_eqb]. now rewrite Hpt, !qual_match_tr.
Qed.

(* once a persistent identifier has been issued for (u, sp, nq), match_local_id finds it *)
Lemma match_after_issue c d u sp nq cands d1 n :
  obytes sp -> obytes nq -> Forall (Forall byte) cands -> ~ In u cands ->
  match_local_id d u sp nq = Ok None -> get_nameid c d u NAMEID_FORMAT_PERSISTENT sp nq cands = (d1, ONid n) ->
  match_local_id d1 u sp nq = Ok (Some (norm n)).
Proof.
  intros Hsp Hnq Hcb Hu M H.
  destruct (get_nameid_inv c d u NAMEID_FORMAT_PERSISTENT sp nq cands) as [(e & E)|(id & t & n0 & C & _ & Et & En & E)];
    rewrite E in H; [discriminate|]. injection H as <- <-.
  rewrite (proj1 (proj2 formats_distinct)) in Et. subst t. apply create_id_spec in C as (Hin & _).
  assert (Forall byte id) as Hid by (rewrite Forall_forall in Hcb; now apply Hcb).
  destruct (match_new sp nq id Hsp Hnq Hid) as (W & MN). rewrite <- En in W, MN.
  assert (u <> id) as Hne by (intros ->; contradiction).
  rewrite match_local_id_entries in *.
  now rewrite (entries_store d u id (code n0) Hne (code_no_space n0 W)), match_vals_app, M.
Qed.

Section Store.
Variable is_user : str -> bool.

(* the row of user u: every code recorded under u has a text, no two the same, and each text
   is a non-empty key of the other direction, no user id, bound to that very user *)
Definition row_ok (d : db) (u : str) : Prop :=
  Forall (fun c => ctext c <> None) (entries d u) /\ NoDup (texts (entries d u)) /\
  (forall t, In t (texts (entries d u)) -> t <> [] /\ is_user t = false /\ lookup t d = Some u).

(* the two directions of the store are in step: every user's row is as above, and conversely
   whatever the other direction binds to a user is a text recorded under that user *)
Definition Inv (d : db) : Prop :=
  (forall u, is_user u = true -> row_ok d u) /\
  (forall t u, is_user t = false -> lookup t d = Some u -> is_user u = true /\ In t (texts (entries d u))).

Lemma inv_empty : Inv [].
Proof.
  split; [|intros t u _ L; discriminate L]. intros u _. split; [constructor|]. split; [constructor|]. intros t [].
Qed.

Lemma user_neq u t : is_user u = true -> is_user t = false -> u <> t.
Proof. intros Hu Ht E. subst. congruence. Qed.

(* an operation that rewrites the row of ONE user u0 and leaves the other rows and what resolves to
   the other users alone preserves the invariant as soon as u0's new row is in step *)
Lemma Inv_frame d d' u0 : Inv d -> is_user u0 = true ->
  (forall u, is_user u = true -> u <> u0 -> entries d' u = entries d u) ->
  (forall t u, is_user t = false -> u <> u0 -> lookup t d' = Some u <-> lookup t d = Some u) ->
  row_ok d' u0 ->
  (forall t, is_user t = false -> lookup t d' = Some u0 -> In t (texts (entries d' u0))) ->
  Inv d'.
Proof.
  intros (R & O) Hu0 F1 F2 R0 O0. split.
  - intros u Hu. destruct (str_eqb_spec u u0) as [->|Hne]; [exact R0|].
    destruct (R u Hu) as (A & B & C). unfold row_ok. rewrite (F1 u Hu Hne). split; [exact A|]. split; [exact B|].
    intros t Hin. destruct (C t Hin) as (X & Y & Z). repeat split; auto. now apply F2.
  - intros t u Ht L. destruct (str_eqb_spec u u0) as [->|Hne]; [auto|].
    apply F2 in L; [|exact Ht|exact Hne]. destruct (O t u Ht L) as (Hu & Hin). now rewrite (F1 u Hu Hne).
Qed.

Lemma store_preserves d u n t :
  Inv d -> is_user u = true -> wfb n -> n_text n = Some t -> t <> [] -> is_user t = false -> lookup t d = None ->
  let d' := insert t u (insert u (join_with SPACE (entries d u ++ [code n])) d) in
  Inv d' /\ entries d' u = entries d u ++ [code n] /\ lookup t d' = Some u /\
  (forall u2, u2 <> u -> u2 <> t -> entries d' u2 = entries d u2).
Proof.
  intros I Hu W Ht Hne Hnt Hfresh d'. pose proof I as (R & O). destruct (R u Hu) as (A & B & C).
  pose proof (user_neq u t Hu Hnt) as Hut.
  assert (entries d' u = entries d u ++ [code n]) as EB by (apply entries_store; [exact Hut|now apply code_no_space]).
  assert (forall k, k <> t -> k <> u -> lookup k d' = lookup k d) as ED
    by (intros k H1 H2; unfold d'; now rewrite !lookup_insert_neq).
  assert (lookup t d' = Some u) as ET by apply lookup_insert_eq.
  assert (forall u2, u2 <> u -> u2 <> t -> entries d' u2 = entries d u2) as EC
    by (intros u2 H1 H2; apply entries_ext; now apply ED).
  assert (forall t', In t' (texts (entries d u)) -> t' <> t /\ t' <> u) as Hold.
  { intros t' Hin. destruct (C t' Hin) as (_ & Ht' & L). split; intros ->; congruence. }
  split; [|auto]. apply (Inv_frame d d' u I Hu).
  - intros u2 Hu2 Hn. apply EC; [exact Hn|]. intros ->. congruence.
  - intros t' u2 Ht' Hn. destruct (str_eqb_spec t' t) as [->|Hn']; [rewrite ET, Hfresh; split; congruence|].
    rewrite ED; [reflexivity|exact Hn'|]. intros ->. congruence.
  - unfold row_ok. rewrite EB, texts_app, (texts_one (code n) t) by now apply ctext_code. split; [|split].
    + apply Forall_app. split; [exact A|]. constructor; [|constructor]. rewrite (ctext_code n t); auto. discriminate.
    + apply NoDup_snoc; [exact B|]. intros Hin. now destruct (Hold t Hin).
    + intros t' Hin. apply in_app_or in Hin as [Hin|[<-|[]]]; [|auto].
      destruct (C t' Hin) as (X & Y & Z). destruct (Hold t' Hin). now rewrite ED.
  - intros t' Ht' L. rewrite EB, texts_app. apply in_or_app.
    destruct (str_eqb_spec t' t) as [->|Hn']; [right; rewrite (texts_one (code n) t); [now left|now apply ctext_code]|left].
    rewrite ED in L; [now apply O|exact Hn'|]. intros ->. congruence.
Qed.

Lemma remove_preserves d n d' :
  Inv d -> wfb n -> (forall t, n_text n = Some t -> is_user t = false) -> do_remove_remote d n = Ok d' ->
  Inv d' /\ exists t id, n_text n = Some t /\ lookup t d = Some id /\ is_user id = true /\ t <> [] /\ lookup t d' = None.
Proof.
  intros I W Hnt H. pose proof I as (R & O). unfold do_remove_remote, remove_remote_with in H.
  destruct (n_text n) as [t|] eqn:Ht; [|discriminate]. specialize (Hnt t eq_refl).
  destruct (lookup t d) as [id|] eqn:L; [|discriminate].
  destruct (O t id Hnt L) as (Hid & Hin). destruct (R id Hid) as (A & B & C). destruct (C t Hin) as (Hne & _).
  pose proof (user_neq id t Hid Hnt) as Hidt.
  destruct (lookup id d) as [e|] eqn:Le; [|now rewrite (entries_none d id Le) in Hin].
  destruct (remove_first (code n) (entries_of e)) as [vals|] eqn:Rf; [|discriminate]. injection H as <-.
  apply remove_first_split in Rf as (a & b & Ea & ->). pose proof (entries_of_no e) as Hno.
  pose proof (ctext_code n t W Ht Hne) as CT.
  rewrite (entries_some d id e Le), Ea in *. rewrite (texts_elt a (code n) b t CT) in *.
  apply Forall_remove_mid in Hno, A. set (d' := remove t (rewrite_entry id (a ++ b) d)).
  assert (entries d' id = a ++ b) as E1 by now apply entries_rewrite_entry.
  assert (forall k, k <> t -> k <> id -> lookup k d' = lookup k d) as ED.
  { intros k H1 H2. unfold d'. rewrite lookup_remove_neq by exact H1. now apply lookup_rewrite_entry. }
  assert (forall t', In t' (texts a ++ texts b) -> t' <> t /\ In t' (texts a ++ t :: texts b)) as Hold.
  { intros t' Hin'. split; [intros ->; exact (NoDup_remove_2 _ _ _ B Hin')|]. apply in_app_or in Hin'. apply in_or_app. cbn [In]. tauto. }
  split; [|exists t, id; repeat split; auto; apply lookup_remove_eq].
  apply (Inv_frame d d' id I Hid).
  - intros u2 Hu2 Hn. apply entries_ext, ED; [|exact Hn]. intros ->. congruence.
  - intros t' u2 Ht' Hn. destruct (str_eqb_spec t' t) as [->|Hn'].
    + unfold d'. rewrite lookup_remove_eq, L. split; congruence.
    + rewrite ED; [reflexivity|exact Hn'|]. intros ->. congruence.
  - unfold row_ok. rewrite E1, texts_app. split; [exact A|]. split; [exact (NoDup_remove_1 _ _ _ B)|].
    intros t' Hin'. destruct (Hold t' Hin') as (Hn' & Hin0). destruct (C t' Hin0) as (X & Y & Z).
    repeat split; auto. rewrite ED; auto. intros ->. congruence.
  - intros t' Ht' L'. destruct (str_eqb_spec t' t) as [->|Hn']; [unfold d' in L'; rewrite lookup_remove_eq in L'; discriminate|].
    rewrite ED in L' by (auto; intros ->; congruence). destruct (O t' id Ht' L') as (_ & Hin').
    rewrite (entries_some d id e Le), Ea, (texts_elt a (code n) b t CT) in Hin'. rewrite E1, texts_app.
    apply in_app_or in Hin' as [Hin'|[Hin'|Hin']]; [apply in_or_app; now left|congruence|apply in_or_app; now right].
Qed.

(* remove_local(u) for a user id: withdraws exactly the identifiers of u *)
Lemma remove_local_full d u :
  Inv d -> is_user u = true ->
  let d' := fst (do_remove_local d u) in
  snd (do_remove_local d u) = ONone /\ Inv d' /\ lookup u d' = None /\
  (forall t, is_user t = false -> lookup t d' <> Some u) /\
  (forall u2, is_user u2 = true -> u2 <> u -> entries d' u2 = entries d u2) /\
  (forall t u2, is_user t = false -> u2 <> u -> lookup t d = Some u2 -> lookup t d' = Some u2) /\
  (forall k v, lookup k d' = Some v -> lookup k d = Some v).
Proof.
  intros I Hu. pose proof I as (R & O). destruct (R u Hu) as (A & _ & C). unfold do_remove_local.
  destruct (lookup u d) as [e|] eqn:Le.
  2:{ cbn [fst snd]. split; [reflexivity|]. split; [exact I|]. split; [exact Le|]. split; [|auto].
      intros t Ht L. destruct (O t u Ht L) as (_ & Hin). now rewrite (entries_none d u Le) in Hin. }
  rewrite (entries_some d u e Le) in *. rewrite (remove_local_vals_ok _ _ A). cbn [fst snd].
  set (ts := texts (entries_of e)) in *. set (d' := remove u (remove_keys ts d)).
  assert (forall k, k <> u -> ~ In k ts -> lookup k d' = lookup k d) as LK.
  { intros k H1 H2. unfold d'. rewrite lookup_remove_neq by exact H1. now apply lookup_remove_keys_notin. }
  assert (forall k v, lookup k d' = Some v -> lookup k d = Some v /\ ~ In k ts) as LS.
  { intros k v H. apply lookup_remove_sub in H. now apply lookup_remove_keys_sub in H. }
  assert (forall u2, is_user u2 = true -> u2 <> u -> entries d' u2 = entries d u2) as EC.
  { intros u2 Hu2 Hn2. apply entries_ext, LK; [exact Hn2|]. intros Hin. destruct (C u2 Hin) as (_ & X & _). congruence. }
  assert (forall t u2, is_user t = false -> u2 <> u -> lookup t d = Some u2 -> lookup t d' = Some u2) as KEEP.
  { intros t u2 Ht Hn2 L. rewrite LK; [exact L|intros ->; congruence|].
    intros Hin. destruct (C t Hin) as (_ & _ & L2). congruence. }
  assert (forall t, is_user t = false -> lookup t d' <> Some u) as GONE.
  { intros t Ht L. destruct (LS t u L) as (L0 & Hn). destruct (O t u Ht L0) as (_ & Hin).
    rewrite (entries_some d u e Le) in Hin. now apply Hn. }
  assert (entries d' u = []) as EU by (apply entries_none, lookup_remove_eq).
  split; [reflexivity|]. split; [|split; [apply lookup_remove_eq|]; split; [exact GONE|]; split; [exact EC|]; split; [exact KEEP|]].
  2:{ intros k v H. now destruct (LS k v H). }
  apply (Inv_frame d d' u I Hu EC).
  - intros t u2 Ht Hn. split; [intros L; now destruct (LS t u2 L)|now apply KEEP].
  - unfold row_ok. rewrite EU. split; [constructor|]. split; [constructor|]. intros t [].
  - intros t Ht L. now destruct (GONE t Ht).
Qed.

(* which operations the store theorems speak about (decidable) *)
Definition cand_ok (c : str) : bool := negb (is_user c) && negb (is_nil c) && bytesb c.
Definition nid_ok (n : nameid) : bool :=
  wfbb n && match n_text n with Some t => negb (is_user t) | None => true end.
(* e-mail identifiers are digest@domain, and create_id tests the digest only: excluded unless no domain is set *)
Definition fmt_ok (c : cfg) (f : str) : bool :=
  bytesb f && (negb (str_eqb f NAMEID_FORMAT_EMAILADDRESS) || is_nil (domain c)).
Definition get_ok (c : cfg) (u f : str) (sp nq : option str) (cands : list str) : bool :=
  is_user u && fmt_ok c f && obytesb sp && obytesb nq && forallb cand_ok cands.

Definition op_wfb (c : cfg) (o : op) : bool :=
  match o with
  | Store _ _ => false                                   (* raw store: see raw_store_refuted *)
  | RemoveRemote n => nid_ok n
  | RemoveLocal u => is_user u
  | GetNameid u f sp nq cands => get_ok c u f sp nq cands
  | Transient u sp nq cands => get_ok c u NAMEID_FORMAT_TRANSIENT sp nq cands
  | Persistent u sp nq cands => get_ok c u NAMEID_FORMAT_PERSISTENT sp nq cands
  | Construct u lp sp pol nq cands =>
      match construct_args c lp sp pol nq with
      | None => true
      | Some (f, sp', nq') => get_ok c u f sp' nq' cands
      end
  | MapReq n pfmt psp allow cands =>
      nid_ok n && forallb cand_ok cands &&
      match construct_args c None None (Some (pfmt, psp)) None with
      | None => true
      | Some (f, sp', nq') => fmt_ok c f && obytesb sp' && obytesb nq'
      end
  | Manage n a => nid_ok n && match a with ANew v => obytesb v | _ => true end
  | FindNameid _ _ | FindLocalId _ | MatchLocalId _ _ _ => true
  end.

Lemma nid_ok_spec n : nid_ok n = true -> wfb n /\ forall t, n_text n = Some t -> is_user t = false.
Proof.
  unfold nid_ok. intros H. apply andb_true_iff in H as (W & Ht). split; [now apply wfbb_spec|].
  intros t E. rewrite E in Ht. now apply negb_true_iff.
Qed.

Lemma cand_ok_spec c : cand_ok c = true -> is_user c = false /\ c <> [] /\ Forall byte c.
Proof.
  unfold cand_ok. rewrite !andb_true_iff, !negb_true_iff. intros ((Hu & Hn) & Hb).
  repeat split; [exact Hu| |now apply bytesb_spec]. intros ->. discriminate.
Qed.

Lemma get_nameid_full c d u f sp nq cands :
  Inv d -> get_ok c u f sp nq cands = true ->
  Inv (fst (get_nameid c d u f sp nq cands)) /\
  (forall u0, is_user u0 = true -> exists more, entries (fst (get_nameid c d u f sp nq cands)) u0 = entries d u0 ++ more) /\
  (forall n, snd (get_nameid c d u f sp nq cands) = ONid n ->
     wfb n /\ In (code n) (entries (fst (get_nameid c d u f sp nq cands)) u) /\
     find_local_id (fst (get_nameid c d u f sp nq cands)) n = Some u /\
     exists t, n_text n = Some t /\ In t cands /\ lookup t d = None).
Proof.
  intros I Hok. unfold get_ok, fmt_ok in Hok. rewrite !andb_true_iff in Hok.
  destruct Hok as ((((Hu & Hf & Hem) & Hsp) & Hnq) & Hc).
  destruct (get_nameid_inv c d u f sp nq cands) as [(e & ->)|(id & t & n & C & Em & Et & En & ->)]; cbn [fst snd].
  { split; [exact I|]. split; [intros u0 _; exists []; now rewrite app_nil_r|]. discriminate. }
  (* fmt_ok lets the e-mail format through only without a domain, and then get_nameid has failed *)
  destruct (str_eqb f NAMEID_FORMAT_EMAILADDRESS); [cbn in Hem, Em; congruence|]. cbv iota in Et. subst t.
  apply create_id_spec in C as (Hin & Hfresh). rewrite forallb_forall in Hc.
  destruct (cand_ok_spec id (Hc id Hin)) as (Hcu & Hid & Hcb).
  assert (wfb n) as W by (rewrite En; unfold wfb; cbn; repeat split; auto using obytesb_spec, bytesb_spec).
  assert (n_text n = Some id) as Tn by now rewrite En.
  destruct (store_preserves d u n id I Hu W Tn Hid Hcu Hfresh) as (I' & EB & ET & EC).
  split; [exact I'|]. split.
  - intros u0 Hu0. destruct (str_eqb_spec u0 u) as [->|Hne0]; [now exists [code n]|].
    exists []. rewrite app_nil_r. apply EC; [exact Hne0|]. intros ->. congruence.
  - intros n0 [= <-]. split; [exact W|]. split; [rewrite EB; apply in_elt|].
    split; [now rewrite (find_local_id_text _ n id Tn)|]. now exists id.
Qed.

(* handle_manage_name_id_request: the identifier is withdrawn and stored again, changed, under the same user *)
Lemma manage_preserves d n n' : Inv d -> nid_ok n = true -> wfb n' -> n_text n' = n_text n ->
  Inv (fst (match do_remove_remote d n with
            | Err e => (d, OErr e)
            | Ok d1 => match find_local_id d n with
                       | None => (d, OErr KeyError)
                       | Some id => match do_store d1 id n' with Ok d2 => (d2, ONid n') | Err e => (d, OErr e) end
                       end
            end)).
Proof.
  intros I Hn W' T'. destruct (nid_ok_spec n Hn) as (W & Hnt).
  destruct (do_remove_remote d n) as [d1|e] eqn:R; [|exact I].
  destruct (remove_preserves d n d1 I W Hnt R) as (I1 & t & id & Et & L & Hid & Hne & Lg).
  rewrite (find_local_id_text d n t Et), L. unfold do_store. rewrite T', Et. cbn [fst].
  apply (store_preserves d1 id n' t); auto. congruence.
Qed.

(* what the invariant says in terms of the public lookups *)
Lemma inv_resolves d u c0 : Inv d -> is_user u = true -> In c0 (entries d u) ->
  exists n t, decode c0 = Ok n /\ n_text n = Some t /\ t <> [] /\ is_user t = false /\ find_local_id d n = Some u.
Proof.
  intros (R & _) Hu Hin. destruct (R u Hu) as (A & _ & C). rewrite Forall_forall in A.
  destruct (ctext c0) as [t|] eqn:T; [|now destruct (A c0 Hin)].
  destruct (C t) as (X & Y & Z); [apply in_texts; now exists c0|].
  apply ctext_some in T as (n & D & Tn). exists n, t. repeat split; auto. now rewrite (find_local_id_text d n t Tn).
Qed.

(* ... and the converse: whatever resolves to a user is recorded under that user *)
Lemma inv_recorded d t u : Inv d -> is_user t = false -> lookup t d = Some u ->
  is_user u = true /\ exists c0 n, In c0 (entries d u) /\ decode c0 = Ok n /\ n_text n = Some t.
Proof.
  intros (_ & O) Ht L. destruct (O t u Ht L) as (Hu & Hin). split; [exact Hu|].
  apply in_texts in Hin as (c0 & Hc & T). apply ctext_some in T as (n & D & Tn). now exists c0, n.
Qed.

(* two recorded identifiers with the same text are the same record of the same user *)
Lemma inv_no_sharing d u1 u2 c1 c2 t : Inv d -> is_user u1 = true -> is_user u2 = true ->
  In c1 (entries d u1) -> In c2 (entries d u2) -> ctext c1 = Some t -> ctext c2 = Some t -> u1 = u2 /\ c1 = c2.
Proof.
  intros (R & _) H1 H2 In1 In2 T1 T2. destruct (R u1 H1) as (_ & B & C1). destruct (R u2 H2) as (_ & _ & C2).
  destruct (C1 t) as (_ & _ & L1); [apply in_texts; now exists c1|].
  destruct (C2 t) as (_ & _ & L2); [apply in_texts; now exists c2|].
  assert (u1 = u2) by congruence. subst u2. split; [reflexivity|].
  apply (nodup_texts_same (entries d u1) c1 c2 t); auto.
Qed.

(* a mapping request fails, or answers with an identifier recorded under the principal of the request,
   or issues a new one for that principal *)
Lemma map_req_cases c d n pfmt psp allow cands :
  Inv d -> op_wfb c (MapReq n pfmt psp allow cands) = true ->
  (exists e, map_req c d n pfmt psp allow cands = (d, OErr e)) \/
  (exists id c0 nid, find_local_id d n = Some id /\ is_user id = true /\ In c0 (entries d id) /\ decode c0 = Ok nid /\
     map_req c d n pfmt psp allow cands = (d, ONid nid)) \/
  (exists id f sp nq, find_local_id d n = Some id /\ is_user id = true /\ get_ok c id f sp nq cands = true /\
     map_req c d n pfmt psp allow cands = get_nameid c d id f sp nq cands).
Proof.
  intros I Hw. cbn [op_wfb] in Hw. rewrite !andb_true_iff in Hw. destruct Hw as ((Hn & Hc) & Hargs).
  destruct (nid_ok_spec n Hn) as (_ & Hnt).
  unfold map_req. destruct (find_local_id d n) as [[|x id]|] eqn:F; [left; eauto| |left; eauto].
  assert (is_user (x :: id) = true) as Hid.
  { unfold find_local_id in F. destruct (n_text n) as [t|] eqn:Et; [|discriminate].
    now destruct (proj2 I t (x :: id) (Hnt t eq_refl) F). }
  destruct (lookup (x :: id) d) as [e|] eqn:Le; [|left; eauto].
  destruct (map_vals (entries_of e) pfmt psp) as [[nid|]|er] eqn:MV; [| |left; eauto].
  - right; left. apply map_vals_in in MV as (c0 & Hc0 & D). exists (x :: id), c0, nid.
    rewrite (entries_some d _ e Le). auto.
  - destruct (opt_eqb allow (Some (s2l "false"))); [left; eauto|]. unfold construct_nameid.
    destruct (construct_args c None None (Some (pfmt, psp)) None) as [[[f sp'] nq']|]; [|left; eauto].
    right; right. exists (x :: id), f, sp', nq'. repeat split; auto.
    unfold get_ok. rewrite Hid. cbn [andb]. now rewrite Hargs, Hc.
Qed.

(* append-only operations: everything that issues or looks up, nothing that withdraws *)
Definition issue_only (o : op) : bool :=
  match o with Store _ _ | RemoveRemote _ | RemoveLocal _ | Manage _ _ => false | _ => true end.

(* such an operation leaves the store alone or is one get_nameid call *)
Lemma issue_cases c d o : Inv d -> op_wfb c o = true -> issue_only o = true ->
  fst (step c d o) = d \/
  exists u f sp nq cands, get_ok c u f sp nq cands = true /\ step c d o = get_nameid c d u f sp nq cands.
Proof.
  intros I Hw Hi. destruct o; try discriminate Hi; cbn [step op_wfb] in *; try (now left).
  - right. now exists u, fmt, sp, nq, cands.
  - right. now exists u, NAMEID_FORMAT_TRANSIENT, sp, nq, cands.
  - unfold persistent_nameid. destruct (match_local_id d u sp nq) as [[n|]|e]; [now left| |now left].
    right. now exists u, NAMEID_FORMAT_PERSISTENT, sp, nq, cands.
  - unfold construct_nameid. destruct (construct_args c lp sp pol nq) as [[[f sp'] nq']|]; [|now left].
    right. now exists u, f, sp', nq', cands.
  - destruct (map_req_cases c d n pfmt psp allow cands I Hw)
      as [(e & ->)|[(id & c0 & nid & _ & _ & _ & _ & ->)|(id & f & sp' & nq' & _ & _ & Hok & ->)]];
      [now left|now left|]. right. now exists id, f, sp', nq', cands.
  - unfold of_res. destruct (find_nameid d u f); now left.
  - unfold of_res. destruct (match_local_id d u sp nq); now left.
Qed.

Theorem step_preserves c d o : Inv d -> op_wfb c o = true -> Inv (fst (step c d o)).
Proof.
  intros I Hw. destruct (issue_only o) eqn:Hi.
  { destruct (issue_cases c d o I Hw Hi) as [->|(u & f & sp & nq & cands & Hok & ->)]; [exact I|].
    now apply get_nameid_full. }
  destruct o; try discriminate Hi; cbn [step op_wfb] in *.
  - discriminate.
  - destruct (do_remove_remote d n) as [d'|e] eqn:R; [|exact I]. cbn [fst].
    destruct (nid_ok_spec n Hw) as (W & Hnt). now apply (remove_preserves d n d' I W Hnt).
  - now destruct (remove_local_full d u I Hw) as (_ & I' & _).
  - unfold manage, manage_with. apply andb_true_iff in Hw as (Hn & Ha). destruct (nid_ok_spec n Hn) as (W & _).
    destruct a as [v| | |]; [| | |exact I]; apply manage_preserves; auto; apply wfb_set_sppid; cbn; auto.
    now apply obytesb_spec.
Qed.

Theorem run_preserves c ops : forall d, Inv d -> forallb (op_wfb c) ops = true -> Inv (run c d ops).
Proof.
  induction ops as [|o r IH]; intros d I H; [exact I|]. cbn [forallb run] in *.
  apply andb_true_iff in H as (Ho & Hr). apply IH; [|exact Hr]. now apply step_preserves.
Qed.

Lemma step_extends c d o : Inv d -> op_wfb c o = true -> issue_only o = true ->
  forall u0, is_user u0 = true -> exists more, entries (fst (step c d o)) u0 = entries d u0 ++ more.
Proof.
  intros I Hw Hi u0 Hu0. destruct (issue_cases c d o I Hw Hi) as [->|(u & f & sp & nq & cands & Hok & ->)].
  - exists []. now rewrite app_nil_r.
  - now apply (get_nameid_full c d u f sp nq cands I Hok).
Qed.

(* whatever a mapping request returns (an old identifier or a new one) has a non-empty text
   that resolves to the principal the request was about *)
Theorem map_req_resolves c d n pfmt psp allow cands d' m :
  Inv d -> op_wfb c (MapReq n pfmt psp allow cands) = true ->
  map_req c d n pfmt psp allow cands = (d', ONid m) ->
  exists u t, find_local_id d n = Some u /\ is_user u = true /\ n_text m = Some t /\ t <> [] /\ find_local_id d' m = Some u.
Proof.
  intros I Hw H. destruct (map_req_cases c d n pfmt psp allow cands I Hw)
    as [(e & E)|[(id & c0 & nid & F & Hid & Hin & D & E)|(id & f & sp' & nq' & F & Hid & Hok & E)]]; rewrite E in H.
  - discriminate H.
  - injection H as <- <-. destruct (inv_resolves d id c0 I Hid Hin) as (n0 & t & D0 & T & Tne & _ & FL).
    rewrite D in D0. injection D0 as <-. now exists id, t.
  - destruct (get_nameid_full c d id f sp' nq' cands I Hok) as (_ & _ & G).
    rewrite H in G. cbn [fst snd] in G. destruct (G m eq_refl) as (_ & _ & FL & t & Tt & Tc & _).
    exists id, t. repeat split; auto. intros ->.
    unfold get_ok in Hok. apply andb_true_iff in Hok as (_ & Hc). rewrite forallb_forall in Hc.
    specialize (Hc [] Tc). unfold cand_ok in Hc. cbn in Hc. rewrite andb_false_r in Hc. discriminate.
Qed.
(* ...and no later issuing operation, for anybody, changes what persistent_nameid answers *)
Theorem persistent_stable_under_issues c ops : forall d u sp nq n,
  Inv d -> is_user u = true -> forallb (op_wfb c) ops = true -> forallb issue_only ops = true ->
  match_local_id d u sp nq = Ok (Some n) ->
  match_local_id (run c d ops) u sp nq = Ok (Some n).
Proof.
  induction ops as [|o r IH]; intros d u sp nq n I Hu Hw Hi M; [exact M|]. cbn [forallb run] in *.
  apply andb_true_iff in Hw as (Hw1 & Hw2). apply andb_true_iff in Hi as (Hi1 & Hi2).
  apply IH; auto; [now apply step_preserves|].
  destruct (step_extends c d o I Hw1 Hi1 u Hu) as (more & E).
  rewrite match_local_id_entries in *. now rewrite E, match_vals_app, M.
Qed.

(* whatever persistent_nameid / match_local_id finds, for ANY qualifiers, has a non-empty text
   and that text resolves to the user asked for *)
Theorem persistent_resolves d u sp nq n :
  Inv d -> is_user u = true -> match_local_id d u sp nq = Ok (Some n) ->
  exists t, n_text n = Some t /\ t <> [] /\ find_local_id d n = Some u.
Proof.
  intros I Hu M. rewrite match_local_id_entries in M.
  apply match_vals_in in M as (c1 & In1 & D1 & _).
  destruct (inv_resolves d u c1 I Hu In1) as (n0 & t & D0 & T & Tne & _ & FL).
  rewrite D1 in D0. inversion D0; subst n0. now exists t.
Qed.

(* identifiers matched for different users or different qualifiers (as Python reads them: None and
   the empty string both mean no qualifier) have different texts, each resolving to its own user *)
Theorem persistent_distinct d u1 u2 sp1 sp2 nq1 nq2 n1 n2 :
  Inv d -> is_user u1 = true -> is_user u2 = true ->
  match_local_id d u1 sp1 nq1 = Ok (Some n1) -> match_local_id d u2 sp2 nq2 = Ok (Some n2) ->
  u1 <> u2 \/ tr sp1 <> tr sp2 \/ tr nq1 <> tr nq2 ->
  n_text n1 <> n_text n2 /\ find_local_id d n1 = Some u1 /\ find_local_id d n2 = Some u2.
Proof.
  intros I H1 H2 M1 M2 Hdiff.
  destruct (persistent_resolves d u1 sp1 nq1 n1 I H1 M1) as (t1 & E1 & _ & F1).
  destruct (persistent_resolves d u2 sp2 nq2 n2 I H2 M2) as (t2 & E2 & _ & F2).
  split; [|auto]. rewrite E1, E2. intros E. injection E as <-.
  rewrite match_local_id_entries in M1, M2.
  apply match_vals_in in M1 as (c1 & In1 & D1 & Q1 & R1). apply match_vals_in in M2 as (c2 & In2 & D2 & Q2 & R2).
  destruct (inv_no_sharing d u1 u2 c1 c2 t1 I H1 H2 In1 In2) as (-> & ->); [apply ctext_some; eauto..|].
  rewrite D1 in D2. injection D2 as <-.
  apply qual_match_tr_eq in Q1, Q2, R1, R2.
  destruct Hdiff as [X|[X|X]]; [now apply X|apply X; congruence|apply X; congruence].
Qed.

Theorem reachable_inv c ops : forallb (op_wfb c) ops = true -> Inv (run c [] ops).
Proof. apply run_preserves. apply inv_empty. Qed.
End Store.

