(* Proofs/Schema_table.v — obligations the kernel evaluates on the REGENERATED tables *)
From PV Require Import Lib.Base Model.Schema Model.SchemaBeforeFix Gen.SchemaTables Proofs.Schema_lemmas.
Open Scope N_scope.

(* every regenerated row is well-formed: no exception list *)
Lemma actual_schema_wf : wf_schema actual_schema = true.
Proof. vm_compute. reflexivity. Qed.

Lemma actual_row_wf r : In r actual_schema -> wf_row actual_schema r = true.
Proof. exact (wf_schema_In actual_schema r actual_schema_wf). Qed.

Lemma no_bad_rows : bad_rows actual_schema = [].
Proof. exact (wf_no_bad_rows _ actual_schema_wf). Qed.

Lemma no_bad_members : bad_members actual_schema = [].
Proof. exact (wf_no_bad_members _ actual_schema_wf). Qed.

(* the per-member diagnosis used for reports is exact *)
Lemma row_defects_exact :
  forallb (fun r => Bool.eqb (wf_row actual_schema r) (match row_defects actual_schema r with [] => true | _ => false end))
          actual_schema = true.
Proof. apply forallb_forall. intros r _. rewrite <- wf_row_defects. apply eqb_reflx. Qed.

Lemma element_maps_agree : maps_ok class_local_tag element_maps = true.
Proof. vm_compute. reflexivity. Qed.

(* the class ids count up from n; N.of_nat over a unary counter is what makes the stated form slow to evaluate *)
Fixpoint ids_from (n : N) (S : schema) : bool :=
  match S with [] => true | r :: S' => (k_id r =? n) && ids_from (N.succ n) S' end.

Lemma ids_from_positions S : forall n, ids_from (N.of_nat n) S = true ->
  forallb (fun p => fst p =? k_id (snd p)) (combine (map N.of_nat (seq n (List.length S))) S) = true.
Proof.
  induction S as [|r S IH]; intros n H; [reflexivity|].
  cbn [ids_from List.length seq map combine forallb fst snd] in *. apply andb_true_iff in H as [E H].
  rewrite N.eqb_sym, E. rewrite <- Nat2N.inj_succ in H. exact (IH _ H).
Qed.

(* ... so a class is found under its own id *)
Lemma ids_from_find_row S : forall n r,
  ids_from n S = true -> In r S -> n <= k_id r /\ find_row S (k_id r) = Some r.
Proof.
  unfold find_row. induction S as [|r' S IH]; intros n r H Hin; [destruct Hin|].
  cbn [ids_from find] in *. apply andb_true_iff in H as [E H]. apply N.eqb_eq in E. destruct Hin as [<-|Hin].
  - rewrite N.eqb_refl. split; [lia|reflexivity].
  - destruct (IH _ r H Hin) as [Hle Hf]. split; [lia|].
    destruct (N.eqb_spec (k_id r') (k_id r)); [lia|exact Hf].
Qed.

Lemma actual_ids : ids_from 0 actual_schema = true.
Proof. vm_compute. reflexivity. Qed.

Lemma class_ids_are_positions :
  forallb (fun p => fst p =? k_id (snd p)) (combine (map N.of_nat (seq 0 (List.length actual_schema))) actual_schema) = true.
Proof. exact (ids_from_positions actual_schema 0%nat actual_ids). Qed.

Lemma actual_find_row r : In r actual_schema -> find_row actual_schema (k_id r) = Some r.
Proof. intros Hin. exact (proj2 (ids_from_find_row _ 0 r actual_ids Hin)). Qed.

Lemma xsi_names_distinct : x_xsi_nil <> x_xsi_type.
Proof. vm_compute. discriminate. Qed.

(* every class has instances the round-trip theorem speaks about: the object cls() satisfies
   obj_ok, serialises, parses back to itself and re-serialises to the same tree *)
Definition fresh_roundtrips (r : class_row) : bool :=
  let i := fresh_inst x_xsi_nil r in
  obj_ok x_xsi_nil x_xsi_type x_xmlns_xs actual_schema i
  && match serialise actual_schema i with
     | Ok x => match parse x_xsi_nil x_xsi_type x_xmlns_xs actual_schema (k_id r) x with
               | Ok j => match serialise actual_schema j with
                         | Ok y => val_eqb (show_xtree x) (show_xtree y)
                                   && val_eqb (show_inst actual_schema j) (show_inst actual_schema i)
                         | Err _ => false end
               | Err _ => false end
     | Err _ => false
     end.

(* the test is a consequence of the round-trip theorem once cls() is seen to satisfy obj_ok *)
Lemma fresh_roundtrips_of_obj_ok r :
  obj_ok x_xsi_nil x_xsi_type x_xmlns_xs actual_schema (fresh_inst x_xsi_nil r) = true -> fresh_roundtrips r = true.
Proof.
  intros Hok. unfold fresh_roundtrips. cbv zeta. rewrite Hok.
  pose proof (obj_ok_wf_inst _ _ _ _ actual_schema_wf _ Hok) as Hwf.
  destruct (roundtrip_parse _ _ _ xsi_names_distinct _ _ Hwf) as (c & r' & Hc & _ & Hs & _ & Hp & _).
  assert (c = k_id r) as -> by (unfold fresh_inst in Hc; destruct (over_kind r); cbn in Hc; congruence).
  rewrite Hs, Hp, (norm_serialise _ _ _ _ _ Hwf), Hs, val_eqb_refl.
  now rewrite (show_inst_norm _ _ _ _ _ Hwf), val_eqb_refl.
Qed.

Lemma every_class_fresh_roundtrips : forallb fresh_roundtrips actual_schema = true.
Proof.
  assert (H : forallb (fun r => obj_ok x_xsi_nil x_xsi_type x_xmlns_xs actual_schema (fresh_inst x_xsi_nil r))
                      actual_schema = true) by (vm_compute; reflexivity).
  apply forallb_forall. intros r Hr. exact (fresh_roundtrips_of_obj_ok r (proj1 (forallb_forall _ _) H r Hr)).
Qed.

Lemma example_ok : obj_ok x_xsi_nil x_xsi_type x_xmlns_xs actual_schema example_inst = true.
Proof. vm_compute. reflexivity. Qed.

Lemma example_roundtrip :
  match serialise actual_schema example_inst with
  | Ok x => match parse x_xsi_nil x_xsi_type x_xmlns_xs actual_schema (match cls_of example_inst with Some c => c | None => 0 end) x with
            | Ok j => match serialise actual_schema j with Ok y => true | Err _ => false end
            | Err _ => false end
  | Err _ => false
  end = true.
Proof. vm_compute. reflexivity. Qed.
